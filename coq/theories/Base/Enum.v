(* Complete finite enumerators, used to lift vm_compute sweeps to forall. *)
From Modbus Require Import Base.Bytes.

Fixpoint bitsN (k : nat) : list N :=
  match k with
  | O => [0]
  | S k' => flat_map (fun x => [2 * x; 2 * x + 1]) (bitsN k')
  end.

Lemma bitsN_complete k x : x < 2 ^ N.of_nat k -> In x (bitsN k).
Proof.
  revert x; induction k as [|k IH]; intros x Hx.
  - cbn in *. left. lia.
  - cbn [bitsN]. apply in_flat_map. exists (x / 2). split.
    + apply IH. rewrite Nat2N.inj_succ, N.pow_succ_r' in Hx.
      remember (2 ^ N.of_nat k) as p eqn:Hp. clear - Hx. lia.
    + cbn [In]. destruct (N.eq_dec (x mod 2) 0); [left|right; left]; lia.
Qed.

Lemma forall_below_pow2 (P : N -> bool) k :
  forallb P (bitsN k) = true -> forall x, x < 2 ^ N.of_nat k -> P x = true.
Proof.
  intros H x Hx. rewrite forallb_forall in H. apply H, bitsN_complete, Hx.
Qed.

Definition bytes_all : list N := bitsN 8.

Lemma forall_bytes (P : N -> bool) :
  forallb P bytes_all = true -> forall x, x < 256 -> P x = true.
Proof. intros H x Hx. apply (forall_below_pow2 P 8 H). exact Hx. Qed.
