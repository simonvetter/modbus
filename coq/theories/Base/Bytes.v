(* Bytes, words and small list utilities shared by the whole model. *)
From Coq Require Export List NArith ZArith Lia Bool.
From Coq Require Import ZifyBool ZifyNat ZifyN.
Export ListNotations.
Open Scope N_scope.

(* lia reads / and mod by a constant. This is Z.div_mod_to_equations, except that
   its clean-up pass over all hypotheses only runs when a division was found. *)
Ltac Zify.zify_post_hook ::=
  try (progress Z.div_mod_to_equations'; Z.euclidean_division_equations_cleanup).

(* lia treats 2 ^ 32 and the like as opaque *)
Ltac pow_consts :=
  repeat match goal with
  | |- context [2 ^ ?k] =>
      let v := eval vm_compute in (2 ^ k) in change (2 ^ k) with v
  | H : context [2 ^ ?k] |- _ =>
      let v := eval vm_compute in (2 ^ k) in change (2 ^ k) with v in H
  end.

Ltac split_ifs :=
  repeat match goal with
         | |- context [if ?c then _ else _] => destruct c eqn:?; try lia
         end.

Definition is_byte (b : N) : bool := b <? 256.
Definition is_word (w : N) : bool := w <? 65536.
Definition bytesb (l : list N) : bool := forallb is_byte l.

(* Go's uint16(x), byte(x) narrowing conversions *)
Definition u16 (x : N) : N := x mod 65536.
Definition u8 (x : N) : N := x mod 256.

Definition be16 (v : N) : list N := [(v / 256) mod 256; v mod 256].
Definition le16 (v : N) : list N := [v mod 256; (v / 256) mod 256].

(* Go slice expression l[lo:hi] on a slice whose capacity equals its length:
   None models the run-time panic. *)
Definition slice {A} (l : list A) (lo hi : nat) : option (list A) :=
  if andb (Nat.leb lo hi) (Nat.leb hi (length l))
  then Some (firstn (hi - lo) (skipn lo l)) else None.

Definition lenN {A} (l : list A) : N := N.of_nat (length l).

Fixpoint list_eqb (a b : list N) : bool :=
  match a, b with
  | [], [] => true
  | x :: a', y :: b' => andb (x =? y) (list_eqb a' b')
  | _, _ => false
  end.

Lemma list_eqb_eq a b : list_eqb a b = true <-> a = b.
Proof.
  revert b; induction a as [|x a IH]; intros [|y b]; cbn; split; intros H;
    try congruence; try discriminate.
  - apply andb_true_iff in H as [H1 H2]. apply N.eqb_eq in H1. apply IH in H2. congruence.
  - inversion H; subst. rewrite N.eqb_refl. cbn. apply IH. reflexivity.
Qed.

Lemma bytesb_app a b : bytesb (a ++ b) = andb (bytesb a) (bytesb b).
Proof. unfold bytesb. apply forallb_app. Qed.

Lemma bytesb_app_iff a b : bytesb (a ++ b) = true <-> bytesb a = true /\ bytesb b = true.
Proof. rewrite bytesb_app, andb_true_iff. reflexivity. Qed.

Lemma bytesb_cons b l : bytesb (b :: l) = true -> b < 256 /\ bytesb l = true.
Proof.
  unfold bytesb. cbn [forallb]. unfold is_byte. intros H.
  apply andb_true_iff in H as [H1 H2]. split; [lia|exact H2].
Qed.

Lemma bytesb_cons_eq b l : bytesb (b :: l) = (b <? 256) && bytesb l.
Proof. reflexivity. Qed.

Lemma bytesb_cons_intro c t : c < 256 -> bytesb t = true -> bytesb (c :: t) = true.
Proof. intros Hc Ht. rewrite bytesb_cons_eq, Ht. apply andb_true_iff. split; [lia|reflexivity]. Qed.

Lemma bytesb_Forall l : bytesb l = true <-> Forall (fun b => b < 256) l.
Proof.
  unfold bytesb. rewrite forallb_forall, Forall_forall. unfold is_byte.
  split; intros H x Hx; specialize (H x Hx); lia.
Qed.

Lemma bytes_in s c : bytesb s = true -> In c s -> c < 256.
Proof. intros H Hin. apply bytesb_Forall in H. rewrite Forall_forall in H. exact (H c Hin). Qed.

Lemma be16_bytes v : bytesb (be16 v) = true.
Proof. unfold be16, bytesb, is_byte; cbn [forallb]. lia. Qed.

Lemma le16_bytes v : bytesb (le16 v) = true.
Proof. unfold le16, bytesb, is_byte; cbn [forallb]. lia. Qed.

Lemma be16_digits a b : a < 256 -> b < 256 -> be16 (a * 256 + b) = [a; b].
Proof. intros Ha Hb. unfold be16. f_equal; [lia|f_equal; lia]. Qed.

Lemma be16_u16 x : be16 (u16 x) = be16 x.
Proof. unfold be16, u16. f_equal; [lia|]. f_equal. lia. Qed.

Lemma u16_lt x : u16 x < 65536.
Proof. unfold u16. lia. Qed.

Lemma lenN_be16 v : lenN (be16 v) = 2.
Proof. reflexivity. Qed.

Lemma lenN_cons {A} (x : A) l : lenN (x :: l) = 1 + lenN l.
Proof. unfold lenN. cbn [length]. lia. Qed.

Lemma lenN_of_len {A} (l : list A) k : length l = k -> lenN l = N.of_nat k.
Proof. intros <-. reflexivity. Qed.

Lemma map_u16_id l : Forall (fun v => v < 65536) l -> map u16 l = l.
Proof.
  induction 1 as [|x t Hx _ IH]; [reflexivity|]. cbn [map]. rewrite IH. f_equal. unfold u16. lia.
Qed.

(* the number of bytes that hold n bits, as the Go code computes it *)
Lemma ceil8 n : n / 8 + (if n mod 8 =? 0 then 0 else 1) = (n + 7) / 8.
Proof. destruct (n mod 8 =? 0) eqn:E; lia. Qed.

Lemma firstn_app_le {A} k (a b : list A) : (k <= length a)%nat -> firstn k (a ++ b) = firstn k a.
Proof.
  intros H. rewrite firstn_app. replace (k - length a)%nat with 0%nat by lia.
  cbn [firstn]. apply app_nil_r.
Qed.

Lemma firstn_app_ge {A} k (a b : list A) : (length a <= k)%nat ->
  firstn k (a ++ b) = a ++ firstn (k - length a) b.
Proof. intros H. rewrite firstn_app, firstn_all2 by exact H. reflexivity. Qed.

Lemma firstn_app_length {A} (a b : list A) : firstn (length a) (a ++ b) = a.
Proof. rewrite firstn_app_le, firstn_all by lia. reflexivity. Qed.

Lemma skipn_app_length {A} (a b : list A) : skipn (length a) (a ++ b) = b.
Proof. rewrite skipn_app, Nat.sub_diag, skipn_all. reflexivity. Qed.

Lemma skipn_skipn' {A} (l : list A) a b : skipn a (skipn b l) = skipn (b + a) l.
Proof.
  revert l; induction b as [|b IH]; intros l; [reflexivity|].
  destruct l as [|x l]; [rewrite !skipn_nil; reflexivity|]. cbn [Nat.add skipn]. apply IH.
Qed.

Lemma nth_skipn' {A} k : forall (l : list A) i d, nth i (skipn k l) d = nth (k + i) l d.
Proof.
  induction k as [|k IH]; intros l i d; [reflexivity|].
  destruct l as [|x t]; [destruct i; reflexivity|]. cbn [skipn plus nth]. apply IH.
Qed.

Lemma nth_firstn_lt {A} (l : list A) : forall b id d, (id < b)%nat -> nth id (firstn b l) d = nth id l d.
Proof.
  induction l as [|x t IH]; intros [|b] [|id] d H; cbn; try lia; try reflexivity.
  apply IH. lia.
Qed.

Lemma nth_error_lt {A} (l : list A) n : (n < length l)%nat -> exists b, nth_error l n = Some b.
Proof.
  intros H. destruct (nth_error l n) eqn:E; [eauto|]. apply nth_error_None in E. lia.
Qed.

Lemma skipn_nth {A} (l : list A) : forall n b, nth_error l n = Some b ->
  skipn n l = b :: skipn (S n) l.
Proof.
  induction l as [|a l IH]; intros [|n] b H; cbn in *; try discriminate.
  - congruence.
  - apply IH, H.
Qed.

Lemma skipn_nth_cons {A} (l : list A) : forall i d, (i < length l)%nat ->
  skipn i l = nth i l d :: skipn (S i) l.
Proof. intros i d H. apply skipn_nth, nth_error_nth', H. Qed.

Lemma firstn_nth_skipn {A} (l : list A) : forall id d, (id < length l)%nat ->
  firstn id l ++ nth id l d :: skipn (S id) l = l.
Proof. intros id d H. rewrite <- (skipn_nth_cons l id d H). apply firstn_skipn. Qed.

Lemma bytesb_firstn n l : bytesb l = true -> bytesb (firstn n l) = true.
Proof.
  intros H. rewrite <- (firstn_skipn n l), bytesb_app in H.
  apply andb_true_iff in H as [H _]. exact H.
Qed.

Lemma bytesb_skipn n l : bytesb l = true -> bytesb (skipn n l) = true.
Proof.
  intros H. rewrite <- (firstn_skipn n l), bytesb_app in H.
  apply andb_true_iff in H as [_ H]. exact H.
Qed.

Lemma nth_error_map_middle {A B} (f : A -> B) a x b :
  nth_error (map f (a ++ x :: b)) (length a) = Some (f x).
Proof.
  rewrite map_app, nth_error_app2 by (rewrite map_length; apply Nat.le_refl).
  rewrite map_length, Nat.sub_diag. reflexivity.
Qed.

Lemma flat_map_ext_forall {A B} (f g : A -> list B) (P : A -> Prop) l :
  (forall x, P x -> f x = g x) -> Forall P l -> flat_map f l = flat_map g l.
Proof.
  intros H; induction 1 as [|x l Hx _ IH]; [reflexivity|].
  cbn [flat_map]. rewrite (H x Hx), IH. reflexivity.
Qed.

Lemma forallb_ext_in {A} (f g : A -> bool) l :
  (forall x, In x l -> f x = g x) -> forallb f l = forallb g l.
Proof.
  induction l as [|x t IH]; cbn; [reflexivity|]. intros H. rewrite (H x (or_introl eq_refl)).
  f_equal. apply IH. intros y Hy. apply H. now right.
Qed.

Lemma fold_left_ext_in {A B} (f g : A -> B -> A) l : forall a,
  (forall a x, In x l -> f a x = g a x) -> fold_left f l a = fold_left g l a.
Proof.
  induction l as [|x t IH]; cbn; [reflexivity|]. intros a H. rewrite (H a x (or_introl eq_refl)).
  apply IH. intros b y Hy. apply H. now right.
Qed.

Lemma in_combine_map {A B} (f : A -> B) l c r : In (c, r) (combine l (map f l)) -> r = f c.
Proof.
  induction l as [|x t IH]; cbn [map combine In]; [tauto|].
  intros [H|H]; [inversion H; reflexivity|exact (IH H)].
Qed.

Lemma flat_map_length_const {A B} (f : A -> list B) k l :
  (forall x, In x l -> length (f x) = k) -> length (flat_map f l) = (k * length l)%nat.
Proof.
  induction l as [|x t IH]; intros H; [cbn; lia|].
  cbn [flat_map length]. rewrite app_length, IH, H; [lia|left; reflexivity|].
  intros y Hy. apply H. right. exact Hy.
Qed.

Lemma bytesb_flat_map {A} (f : A -> list N) l :
  (forall x, bytesb (f x) = true) -> bytesb (flat_map f l) = true.
Proof.
  intros Hf. induction l as [|x t IH]; [reflexivity|].
  cbn [flat_map]. rewrite bytesb_app, Hf, IH. reflexivity.
Qed.

Lemma list_ind2 {A} (P : list A -> Prop) :
  P [] -> (forall a, P [a]) -> (forall a b t, P t -> P (a :: b :: t)) -> forall l, P l.
Proof.
  intros H0 H1 H2. fix IH 1. intros [|a [|b t]]; [exact H0|apply H1|apply H2, IH].
Qed.

Lemma app_eq_len {A} (a b c d : list A) : a ++ b = c ++ d -> length a = length c -> a = c /\ b = d.
Proof.
  revert c; induction a as [|x a IH]; intros [|y c] H Hl; try discriminate.
  - split; [reflexivity|exact H].
  - cbn in H. injection H as -> H. cbn in Hl. destruct (IH c H ltac:(lia)) as [-> ->]. split; reflexivity.
Qed.

Lemma slice_middle {A} (a m b : list A) :
  slice (a ++ m ++ b) (length a) (length a + length m) = Some m.
Proof.
  unfold slice. rewrite !app_length.
  replace (Nat.leb (length a) (length a + length m)) with true by (symmetry; apply Nat.leb_le; lia).
  replace (Nat.leb (length a + length m) (length a + (length m + length b))) with true
    by (symmetry; apply Nat.leb_le; lia).
  cbn [andb]. rewrite skipn_app_length.
  replace (length a + length m - length a)%nat with (length m) by lia.
  rewrite firstn_app_length. reflexivity.
Qed.

Lemma slice_mid {A} (l : list A) lo m : (lo + m <= length l)%nat ->
  slice l lo (lo + m) = Some (firstn m (skipn lo l)).
Proof.
  intros H. unfold slice.
  replace (Nat.leb lo (lo + m)) with true by (symmetry; apply Nat.leb_le; lia).
  replace (Nat.leb (lo + m) (length l)) with true by (symmetry; apply Nat.leb_le; lia).
  cbn [andb]. replace (lo + m - lo)%nat with m by lia. reflexivity.
Qed.

Lemma slice_end {A} (l : list A) e : (e <= length l)%nat ->
  slice l e (length l) = Some (skipn e l).
Proof.
  intros H. unfold slice.
  replace (Nat.leb e (length l)) with true by (symmetry; apply Nat.leb_le; lia).
  rewrite Nat.leb_refl. cbn [andb]. f_equal. apply firstn_all2. rewrite skipn_length. lia.
Qed.

Lemma map_nth_seq {A} (l : list A) d q : (q <= length l)%nat ->
  map (fun i => nth i l d) (seq 0 q) = firstn q l.
Proof.
  revert q; induction l as [|x t IH]; intros q Hq.
  - destruct q; [reflexivity|cbn in Hq; lia].
  - destruct q as [|q]; [reflexivity|]. cbn [seq map firstn nth]. f_equal.
    rewrite <- seq_shift, map_map. cbn [nth]. apply IH. cbn in Hq. lia.
Qed.

Lemma nth_error_ext' {A} (l1 l2 : list A) :
  (forall n, nth_error l1 n = nth_error l2 n) -> l1 = l2.
Proof.
  revert l2; induction l1 as [|x t IH]; intros [|y u] H.
  - reflexivity.
  - specialize (H 0%nat). discriminate.
  - specialize (H 0%nat). discriminate.
  - pose proof (H 0%nat) as H0. cbn in H0. injection H0 as ->. f_equal.
    apply IH. intros n. apply (H (S n)).
Qed.

Lemma flat_chunk {A B} (f : A -> list B) w d : (forall x, length (f x) = w) ->
  forall vs i, (i < length vs)%nat -> firstn w (skipn (i * w) (flat_map f vs)) = f (nth i vs d).
Proof.
  intros Hf. induction vs as [|v t IH]; intros i Hi; [cbn in Hi; lia|].
  cbn [flat_map]. destruct i as [|j].
  - cbn [Nat.mul skipn nth]. rewrite <- (Hf v). apply firstn_app_length.
  - replace (S j * w)%nat with (length (f v) + j * w)%nat by (rewrite Hf; lia).
    rewrite <- skipn_skipn', skipn_app_length. cbn [nth]. apply IH. cbn [length] in Hi. lia.
Qed.
