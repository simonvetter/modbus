(* Facts shared by the transition systems whose run is fold_left step: the
   runs of Model/Slots.v, Lifeblock.v, TlsLife.v, TurnAway.v and hp_run, hl_run,
   hx_run of Model/Heap.v, Model/HeapLife.v, Spec/AliasValuesSpec.v unfold to
   fold_left, so the lemmas apply to them as they stand. Then the same for a
   step that may fail (prun; cc_run of Model/Conc.v is such a run). Two list
   facts stand first: their users (ConcP, GenLocksP, SlotsP) work in nat_scope and do not
   load Base/Bytes.v. *)
From Coq Require Import List.
Import ListNotations.

Lemma Forall2_Forall_r {A B} (R : A -> B -> Prop) (P : B -> Prop) l1 l2 : Forall2 R l1 l2 ->
  (forall x y, In x l1 -> R x y -> P y) -> Forall P l2.
Proof.
  induction 1 as [|x y l1 l2 Hxy _ IH]; intros HP; constructor.
  - exact (HP x y (or_introl eq_refl) Hxy).
  - apply IH. intros x' y' Hin. apply HP. right. exact Hin.
Qed.

Lemma filter_all {A} (p : A -> bool) l : (forall x, In x l -> p x = true) -> filter p l = l.
Proof.
  induction l as [|x t IH]; intros H; [reflexivity|]. cbn [filter].
  rewrite (H x (or_introl eq_refl)), IH; [reflexivity|]. intros y Hy. apply H. right. exact Hy.
Qed.

Section Run.
  Context {S L : Type} (step : S -> L -> S).

  Lemma run_app s a b : fold_left step (a ++ b) s = fold_left step b (fold_left step a s).
  Proof. apply fold_left_app. Qed.

  Lemma run_snoc s tr l : fold_left step (tr ++ [l]) s = step (fold_left step tr s) l.
  Proof. apply fold_left_app. Qed.

  Lemma run_keeps (P : S -> Prop) :
    (forall s l, P s -> P (step s l)) -> forall tr s, P s -> P (fold_left step tr s).
  Proof. intros H tr. induction tr as [|l tr IH]; intros s Hs; [exact Hs|]. apply IH, H, Hs. Qed.

  Lemma run_inv (P : S -> Prop) (Q : L -> Prop) :
    (forall s l, Q l -> P s -> P (step s l)) ->
    forall tr s, (forall l, In l tr -> Q l) -> P s -> P (fold_left step tr s).
  Proof.
    intros Hstep tr. induction tr as [|l tr IH]; intros s HQ Hs; [exact Hs|].
    cbn [fold_left]. apply IH.
    - intros x Hx. apply HQ. right. exact Hx.
    - apply Hstep; [apply HQ; left; reflexivity|exact Hs].
  Qed.

  Lemma run_stutter {S' L' : Type} (step' : S' -> L' -> S') (pi : S' -> S) :
    (forall b l, pi (step' b l) = pi b \/ exists x, pi (step' b l) = step (pi b) x) ->
    forall tr b, exists tr', pi (fold_left step' tr b) = fold_left step tr' (pi b).
  Proof.
    intros H tr b. induction tr as [|l tr [tr' E]] using rev_ind; [exists []; reflexivity|].
    rewrite fold_left_app. cbn [fold_left].
    destruct (H (fold_left step' tr b) l) as [->|[x ->]]; rewrite E.
    - exists tr'. reflexivity.
    - exists (tr' ++ [x]). symmetry. apply run_snoc.
  Qed.
End Run.

Lemma run_sim {S1 S2 L} (R : S1 -> S2 -> Prop) (f : S1 -> L -> S1) (g : S2 -> L -> S2) :
  (forall c d e, R c d -> R (f c e) (g d e)) ->
  forall es c d, R c d -> R (fold_left f es c) (fold_left g es d).
Proof. intros H es. induction es as [|e t IH]; intros c d HR; [exact HR|]. apply IH, H, HR. Qed.

Section PartialRun.
  Context {St Lb : Type} (step : St -> Lb -> option St).

  Fixpoint prun (s : St) (l : list Lb) : option St :=
    match l with
    | [] => Some s
    | e :: r => match step s e with Some s' => prun s' r | None => None end
    end.

  Lemma prun_app a : forall s b s', prun s (a ++ b) = Some s' <->
    exists m, prun s a = Some m /\ prun m b = Some s'.
  Proof.
    induction a as [|e a IH]; intros s b s'; cbn [app prun].
    - split; [intros H; exists s; split; [reflexivity|exact H]|intros (m & [= <-] & H); exact H].
    - destruct (step s e) as [s1|]; [apply IH|].
      split; [discriminate|intros (m & H & _); discriminate].
  Qed.

  Lemma prun_at a e b s s' : prun s (a ++ e :: b) = Some s' ->
    exists m m', prun s a = Some m /\ step m e = Some m' /\ prun m' b = Some s'.
  Proof.
    intros H. apply prun_app in H as (m & Ha & H). cbn [prun] in H.
    destruct (step m e) as [m'|] eqn:E; [|discriminate]. exists m, m'. auto.
  Qed.

  Lemma prun_inv (P : St -> Prop) : (forall s e s', P s -> step s e = Some s' -> P s') ->
    forall l s s', P s -> prun s l = Some s' -> P s'.
  Proof.
    intros Hstep. induction l as [|e l IH]; intros s s' Hs H; cbn [prun] in H.
    - injection H as <-. exact Hs.
    - destruct (step s e) as [s1|] eqn:E; [|discriminate]. exact (IH _ _ (Hstep _ _ _ Hs E) H).
  Qed.
End PartialRun.
