(* Proofs about Model/Strconv.v: the integer parsers accept exactly Go's integer
   literal syntax (Spec/StrconvSpec.v), with the denoted value, range, signs,
   round trips. Defined here, although they carry the prefixes of model and
   specification: sc_digit_lt, sc_body_ok, sc_has_us, sc_dval, sc_fold_val,
   sc_uok_test, sc_known_base, isd_of, sl_prefix, sc_hex_render. *)
From Modbus Require Import Base.Bytes Base.Enum Model.Strconv Spec.StrconvSpec.

Definition sc_digit_lt (base c : N) : bool :=
  match sc_digit c with Some d => d <? base | None => false end.

(* For one character, the model's tests (sc_digit below each base, the value
   of a hex digit, sc_lower against 'b' 'o' 'x', the range test of
   underscoreOK) against the literal grammar's character classes. Checked
   over the 256 bytes below; char_facts reads the conjuncts back. *)
Definition char_bridge_b (c : N) : bool :=
  Bool.eqb (sc_digit_lt 2 c) (sl_is_bin c) && Bool.eqb (sc_digit_lt 8 c) (sl_is_oct c)
  && Bool.eqb (sc_digit_lt 10 c) (sl_is_dec c) && Bool.eqb (sc_digit_lt 16 c) (sl_is_hex c)
  && (match sc_digit c with
      | Some d => if sl_is_hex c then d =? sl_val c else true
      | None => negb (sl_is_hex c)
      end)
  && Bool.eqb (sc_lower c =? 98) ((c =? 98) || (c =? 66))
  && Bool.eqb (sc_lower c =? 111) ((c =? 111) || (c =? 79))
  && Bool.eqb (sc_lower c =? 120) ((c =? 120) || (c =? 88))
  && Bool.eqb (((48 <=? c) && (c <=? 57)) || ((97 <=? sc_lower c) && (sc_lower c <=? 102))) (sl_is_hex c).

Lemma char_bridge_all : forallb char_bridge_b bytes_all = true.
Proof.
  (* the table is evaluated once, by the kernel at Qed; vm_compute; reflexivity
     would evaluate it a second time to build the term *)
  vm_cast_no_check (eq_refl true).
Qed.

Lemma char_facts c : c < 256 ->
  sc_digit_lt 2 c = sl_is_bin c /\ sc_digit_lt 8 c = sl_is_oct c /\
  sc_digit_lt 10 c = sl_is_dec c /\ sc_digit_lt 16 c = sl_is_hex c /\
  (sl_is_hex c = true -> sc_digit c = Some (sl_val c)) /\
  (sc_lower c =? 98) = ((c =? 98) || (c =? 66)) /\
  (sc_lower c =? 111) = ((c =? 111) || (c =? 79)) /\
  (sc_lower c =? 120) = ((c =? 120) || (c =? 88)) /\
  ((48 <=? c) && (c <=? 57)) || ((97 <=? sc_lower c) && (sc_lower c <=? 102)) = sl_is_hex c.
Proof.
  intros H. pose proof (forall_bytes char_bridge_b char_bridge_all c H) as B. unfold char_bridge_b in B.
  rewrite !andb_true_iff in B. destruct B as ((((((((B2 & B8) & B10) & B16) & Bv) & Lb) & Lo) & Lx) & Bu).
  repeat split; try (apply eqb_prop; assumption).
  intros Hh. clear - Bv Hh. destruct (sc_digit c) as [d|]; rewrite Hh in Bv; [f_equal; lia|discriminate].
Qed.

Lemma lower_b c : c < 256 -> (sc_lower c =? 98) = ((c =? 98) || (c =? 66)).
Proof. intros H. apply (char_facts c H). Qed.
Lemma lower_o c : c < 256 -> (sc_lower c =? 111) = ((c =? 111) || (c =? 79)).
Proof. intros H. apply (char_facts c H). Qed.
Lemma lower_x c : c < 256 -> (sc_lower c =? 120) = ((c =? 120) || (c =? 88)).
Proof. intros H. apply (char_facts c H). Qed.

Definition sc_body_ok (base : N) (body : list N) : bool :=
  forallb (fun c => (c =? 95) || sc_digit_lt base c) body.

Definition sc_has_us (body : list N) : bool := existsb (fun c => c =? 95) body.

Definition sc_dval (c : N) : N := match sc_digit c with Some d => d | None => 0 end.

Definition sc_fold_val (base : N) (body : list N) (n : N) : N :=
  fold_left (fun acc c => if c =? 95 then acc else acc * base + sc_dval c) body n.

Lemma fold_val_ge base body n : 1 <= base -> n <= sc_fold_val base body n.
Proof.
  intros Hb. revert n. induction body as [|c t IH]; intros n; cbn [sc_fold_val fold_left].
  - lia.
  - unfold sc_fold_val in IH. destruct (c =? 95).
    + apply IH.
    + etransitivity; [|apply IH]. nia.
Qed.

Lemma loop_ok_inv base cutoff maxv body : forall n us v us',
  sc_loop base cutoff maxv body n us = (ScOk v, us') ->
  sc_body_ok base body = true /\ us' = us || sc_has_us body.
Proof.
  induction body as [|c t IH]; intros n us v us' H; cbn [sc_loop] in H.
  - inversion H; subst. cbn. split; [reflexivity|]. now rewrite orb_false_r.
  - cbn [sc_body_ok forallb sc_has_us existsb]. unfold sc_digit_lt.
    destruct (c =? 95) eqn:E95.
    + apply IH in H as [H1 H2]. split; [exact H1|]. rewrite H2. cbn. now rewrite orb_true_r.
    + destruct (sc_digit c) as [d|]; [|discriminate].
      destruct (base <=? d) eqn:Ebd; [discriminate|].
      destruct (cutoff <=? n); [discriminate|].
      match type of H with (if ?b then _ else _) = _ => destruct b; [discriminate|] end.
      apply IH in H as [H1 H2]. split.
      * cbn. replace (d <? base) with true by lia. exact H1.
      * exact H2.
Qed.

Definition sc_known_base (base : N) : Prop := base = 2 \/ base = 8 \/ base = 10 \/ base = 16.

(* an arithmetic fact about the base, in each of the four cases *)
Ltac by_base Hb := destruct Hb as [-> | [-> | [-> | ->]]]; lia.

(* one accepted digit: the cutoff test and the two wrap tests together say
   that n * base + d exceeds maxv *)
Lemma loop_digit base maxv c d t n us :
  sc_known_base base -> maxv < 18446744073709551616 -> n <= maxv ->
  (c =? 95) = false -> sc_digit c = Some d -> d < base ->
  sc_loop base (sc_max_u64 / base + 1) maxv (c :: t) n us =
    if maxv <? n * base + d then (ScRange, us)
    else sc_loop base (sc_max_u64 / base + 1) maxv t (n * base + d) us.
Proof.
  intros Hb Hm Hn E95 Ed Hd. cbn [sc_loop]. rewrite E95, Ed.
  replace (base <=? d) with false by lia. cbn zeta.
  (* the cutoff: n * base does not fit 64 bits *)
  assert (Hcut : (sc_max_u64 / base + 1 <=? n) = (18446744073709551615 <? n * base))
    by (unfold sc_max_u64; destruct Hb as [-> | [-> | [-> | ->]]]; lia).
  assert (Hd16 : d < 16) by by_base Hb.
  rewrite Hcut. clear Hcut Hb Hd Ed E95.
  destruct (18446744073709551615 <? n * base) eqn:Ecut.
  - replace (maxv <? n * base + d) with true by lia. reflexivity.
  - destruct (((n * base + d) mod 18446744073709551616 <? n * base)
              || (maxv <? (n * base + d) mod 18446744073709551616)) eqn:Er.
    + replace (maxv <? n * base + d) with true by lia. reflexivity.
    + replace ((n * base + d) mod 18446744073709551616) with (n * base + d) by lia.
      replace (maxv <? n * base + d) with false by lia. reflexivity.
Qed.

Lemma loop_value base maxv body : sc_known_base base -> maxv < 18446744073709551616 ->
  sc_body_ok base body = true ->
  forall n us, n <= maxv ->
  let r := sc_loop base (sc_max_u64 / base + 1) maxv body n us in
  fst r = (if sc_fold_val base body n <=? maxv then ScOk (sc_fold_val base body n) else ScRange) /\
  (sc_fold_val base body n <= maxv -> snd r = us || sc_has_us body).
Proof.
  intros Hb Hm. assert (Hb1 : 1 <= base) by by_base Hb.
  induction body as [|c t IH]; intros Hok n us Hn.
  - cbn. replace (n <=? maxv) with true by lia. split; [reflexivity|]. intros _. now rewrite orb_false_r.
  - cbn [sc_body_ok forallb] in Hok. apply andb_true_iff in Hok as [Hc Hok].
    specialize (IH Hok). cbn [sc_fold_val fold_left sc_has_us existsb].
    destruct (c =? 95) eqn:E95.
    + cbn [sc_loop]. rewrite E95. destruct (IH n true Hn) as [I1 I2]. split; [exact I1|].
      intros Hle. rewrite (I2 Hle). cbn. now rewrite orb_true_r.
    + cbn [orb] in Hc. unfold sc_digit_lt in Hc.
      destruct (sc_digit c) as [d|] eqn:Ed; [|discriminate].
      unfold sc_dval. rewrite Ed.
      rewrite (loop_digit base maxv c d t n us Hb Hm Hn E95 Ed ltac:(lia)). cbn zeta.
      change (fold_left _ t (n * base + d)) with (sc_fold_val base t (n * base + d)).
      pose proof (fold_val_ge base t (n * base + d) Hb1) as Hmono.
      destruct (maxv <? n * base + d) eqn:Er.
      * (* the value only grows with further digits *)
        replace (sc_fold_val base t (n * base + d) <=? maxv) with false by lia.
        cbn. split; [reflexivity|]. intros; lia.
      * apply IH. lia.
Qed.

Definition sc_uok_test (hex : bool) (c : N) : bool :=
  ((48 <=? c) && (c <=? 57)) || (hex && (97 <=? sc_lower c) && (sc_lower c <=? 102)).

Lemma sep_digits_all isd body :
  forallb isd body = true -> sl_sep_digits isd body = true.
Proof.
  induction body as [|c t IH]; cbn [forallb sl_sep_digits]; [reflexivity|].
  intros H. apply andb_true_iff in H as [-> H]. auto.
Qed.

Lemma sep_digits_chars isd body :
  sl_sep_digits isd body = true -> forallb (fun c => (c =? 95) || isd c) body = true.
Proof.
  induction body as [|c t IH]; cbn [forallb sl_sep_digits]; [reflexivity|].
  destruct (isd c) eqn:Ec.
  - intros H. rewrite orb_true_r. cbn. auto.
  - destruct (c =? 95); [|discriminate]. destruct t as [|d t']; [discriminate|].
    intros H. apply andb_true_iff in H as [Hd H]. cbn [orb andb]. apply IH.
    cbn [sl_sep_digits]. rewrite Hd. exact H.
Qed.

(* underscoreOK's scan on a digit part = the grammar's { ["_"] digit } *)
Lemma uok_sep hex isd body :
  (forall c, isd c = true -> sc_uok_test hex c = true) ->
  forallb (fun c => (c =? 95) || isd c) body = true ->
  sc_uok_loop hex body SawDigit = sl_sep_digits isd body /\
  sc_uok_loop hex body SawUnder =
    match body with d :: t => isd d && sl_sep_digits isd t | [] => false end.
Proof.
  intros Hd. induction body as [|c t IH]; intros Hok; cbn [sc_uok_loop sl_sep_digits].
  - split; reflexivity.
  - cbn [forallb] in Hok. apply andb_true_iff in Hok as [Hc Hok]. destruct (IH Hok) as [I1 I2].
    fold (sc_uok_test hex c).
    destruct (isd c) eqn:Ec.
    + rewrite (Hd c Ec). split; [exact I1|]. cbn. exact I1.
    + rewrite orb_false_r in Hc. apply N.eqb_eq in Hc. subst c.
      replace (sc_uok_test hex 95) with false by (destruct hex; reflexivity). cbn [N.eqb Pos.eqb andb]. split; [|reflexivity].
      rewrite I2. reflexivity.
Qed.

Lemma no_us_all base body :
  sc_body_ok base body = true -> sc_has_us body = false ->
  forallb (sc_digit_lt base) body = true.
Proof.
  induction body as [|c t IH]; cbn [sc_body_ok forallb sc_has_us existsb]; [reflexivity|].
  intros H1 H2. apply orb_false_iff in H2 as [E H2]. rewrite E in H1. cbn [orb] in H1.
  apply andb_true_iff in H1 as [-> H1]. cbn. apply IH; assumption.
Qed.

Definition isd_of (base : N) : N -> bool :=
  if base =? 2 then sl_is_bin else if base =? 8 then sl_is_oct
  else if base =? 10 then sl_is_dec else sl_is_hex.

Lemma isd_bridge base c : sc_known_base base -> c < 256 -> sc_digit_lt base c = isd_of base c.
Proof.
  intros Hb H. destruct (char_facts c H) as (D2 & D8 & D10 & D16 & _).
  destruct Hb as [-> | [-> | [-> | ->]]]; assumption.
Qed.

Lemma isd_hex base c : sc_known_base base -> isd_of base c = true -> sl_is_hex c = true.
Proof.
  intros [-> | [-> | [-> | ->]]]; unfold isd_of; cbn [N.eqb Pos.eqb];
    unfold sl_is_hex, sl_is_dec, sl_is_bin, sl_is_oct; lia.
Qed.

Lemma isd_not_95 base c : sc_known_base base -> isd_of base c = true -> (c =? 95) = false.
Proof.
  intros Hb H. apply (isd_hex _ _ Hb) in H. unfold sl_is_hex, sl_is_dec in H. lia.
Qed.

Lemma isd_uok base c : sc_known_base base ->
  isd_of base c = true -> sc_uok_test (base =? 16) c = true.
Proof.
  intros Hb H.
  assert (Hc : c < 256).
  { pose proof (isd_hex base c Hb H) as Hh. unfold sl_is_hex, sl_is_dec in Hh. lia. }
  destruct (N.eq_dec base 16) as [->|Hne].
  - unfold isd_of in H. cbn [N.eqb Pos.eqb] in H. unfold sc_uok_test. cbn [N.eqb Pos.eqb andb].
    destruct (char_facts c Hc) as (_ & _ & _ & _ & _ & _ & _ & _ & U). rewrite U. exact H.
  - replace (base =? 16) with false by lia. unfold sc_uok_test. cbn [andb]. rewrite orb_false_r.
    destruct Hb as [-> | [-> | [-> | ->]]]; [| | |lia]; unfold isd_of in H; cbn [N.eqb Pos.eqb] in H;
      unfold sl_is_dec, sl_is_bin, sl_is_oct in *; lia.
Qed.

Lemma body_ok_bridge base body : sc_known_base base -> bytesb body = true ->
  sc_body_ok base body = forallb (fun c => (c =? 95) || isd_of base c) body.
Proof.
  intros Hb Hby. unfold sc_body_ok. apply forallb_ext_in. intros c Hc.
  rewrite (isd_bridge base c Hb (bytes_in body c Hby Hc)). reflexivity.
Qed.

Lemma fold_val_spec base body : sc_known_base base -> bytesb body = true ->
  forallb (fun c => (c =? 95) || isd_of base c) body = true ->
  sc_fold_val base body 0 = sl_digits_value base body.
Proof.
  intros Hb Hby Hok. unfold sc_fold_val, sl_digits_value. apply fold_left_ext_in.
  intros a c Hc. destruct (c =? 95) eqn:E; [reflexivity|].
  rewrite forallb_forall in Hok. specialize (Hok c Hc). rewrite E in Hok. cbn [orb] in Hok.
  destruct (char_facts c (bytes_in body c Hby Hc)) as (_ & _ & _ & _ & V & _).
  unfold sc_dval. rewrite (V (isd_hex base c Hb Hok)). reflexivity.
Qed.

Lemma pow2_bounds bits : 1 <= bits <= 64 -> 2 <= 2 ^ bits <= 18446744073709551616.
Proof.
  intros [H1 H2]. split.
  - change 2 with (2 ^ 1) at 1. apply N.pow_le_mono_r; lia.
  - change 18446744073709551616 with (2 ^ 64). apply N.pow_le_mono_r; lia.
Qed.

Lemma parse_assemble bits s base body :
  s <> [] -> 1 <= bits <= 64 -> sc_known_base base -> bytesb body = true ->
  sc_base_of s = (base, body) ->
  sc_underscore_ok s = sc_uok_loop (base =? 16) body SawDigit ->
  sl_sep_digits (isd_of base) body = true ->
  sc_parse_uint bits s =
    if sl_digits_value base body <? 2 ^ bits then ScOk (sl_digits_value base body) else ScRange.
Proof.
  intros Hne Hbits Hb Hby Hbase Huok Hsep.
  unfold sc_parse_uint. destruct s as [|c0 t0]; [congruence|]. rewrite Hbase.
  pose proof (pow2_bounds bits Hbits) as Hp. remember (2 ^ bits) as P eqn:HP.
  assert (Hchars := sep_digits_chars _ _ Hsep).
  assert (Hok : sc_body_ok base body = true) by (rewrite body_ok_bridge; assumption).
  assert (Hm : P - 1 < 18446744073709551616) by lia.
  destruct (loop_value base (P - 1) body Hb Hm Hok 0 false ltac:(lia)) as [L1 L2].
  rewrite (fold_val_spec base body Hb Hby Hchars) in L1, L2.
  destruct (sc_loop base (sc_max_u64 / base + 1) (P - 1) body 0 false) as [r us].
  cbn [fst snd] in L1, L2. subst r.
  destruct (sl_digits_value base body <? P) eqn:Ev.
  - replace (sl_digits_value base body <=? P - 1) with true by lia.
    rewrite (L2 ltac:(lia)). cbn [orb].
    destruct (sc_has_us body); [|reflexivity].
    destruct (uok_sep (base =? 16) (isd_of base) body (fun c => isd_uok base c Hb) Hchars) as [U _].
    rewrite Huok, U, Hsep. reflexivity.
  - replace (sl_digits_value base body <=? P - 1) with false by lia. reflexivity.
Qed.

Lemma digits1_sep isd s : sl_digits1 isd s = true -> s <> [] /\ sl_sep_digits isd s = true.
Proof. destruct s; cbn; [discriminate|]. intros H. split; [discriminate|exact H]. Qed.

Lemma sep_from_ok base body : sc_known_base base -> bytesb body = true ->
  sc_body_ok base body = true ->
  (sc_has_us body = false \/ sc_uok_loop (base =? 16) body SawDigit = true) ->
  sl_sep_digits (isd_of base) body = true.
Proof.
  intros Hb Hby Hok Hus. pose proof Hok as Hchars. rewrite (body_ok_bridge base body Hb Hby) in Hchars.
  destruct Hus as [Hno|Hu].
  - apply sep_digits_all. rewrite <- (no_us_all base body Hok Hno).
    apply forallb_ext_in. intros c Hc. symmetry. apply isd_bridge; [exact Hb|]. exact (bytes_in body c Hby Hc).
  - destruct (uok_sep (base =? 16) (isd_of base) body (fun c => isd_uok base c Hb) Hchars) as [U _].
    rewrite <- U. exact Hu.
Qed.

Lemma parse_ok_parts bits s v :
  sc_parse_uint bits s = ScOk v ->
  s <> [] /\
  let '(base, body) := sc_base_of s in
  sc_body_ok base body = true /\ (sc_has_us body = false \/ sc_underscore_ok s = true).
Proof.
  unfold sc_parse_uint. destruct s as [|c0 t]; [discriminate|]. intros H. split; [discriminate|].
  destruct (sc_base_of (c0 :: t)) as [base body].
  destruct (sc_loop base (sc_max_u64 / base + 1) (2 ^ bits - 1) body 0 false) as [r us] eqn:EL.
  destruct r as [n| |]; try discriminate.
  apply loop_ok_inv in EL as [Hok Hus]. cbn [orb] in Hus. subst us. split; [exact Hok|].
  destruct (sc_has_us body); [|left; reflexivity]. right.
  destruct (sc_underscore_ok (c0 :: t)); [reflexivity|discriminate].
Qed.

(* the base a prefix letter stands for: 0b 0B, 0o 0O, 0x 0X *)
Definition sl_prefix (c : N) : option N :=
  if (c =? 98) || (c =? 66) then Some 2
  else if (c =? 111) || (c =? 79) then Some 8
  else if (c =? 120) || (c =? 88) then Some 16
  else None.

Lemma prefix_some c b : sl_prefix c = Some b -> sc_known_base b /\ 65 < c /\ c <> 95.
Proof.
  unfold sl_prefix, sc_known_base.
  destruct ((c =? 98) || (c =? 66)) eqn:Eb; [intros [= <-]; lia|].
  destruct ((c =? 111) || (c =? 79)) eqn:Eo; [intros [= <-]; lia|].
  destruct ((c =? 120) || (c =? 88)) eqn:Ex; [intros [= <-]; lia|discriminate].
Qed.

Lemma int_lit_prefix c1 t :
  sl_int_lit (48 :: c1 :: t) =
    match sl_prefix c1 with
    | Some b => sl_digits1 (isd_of b) t
    | None => sl_sep_digits sl_is_oct (c1 :: t)
    end.
Proof.
  unfold sl_prefix. cbn [sl_int_lit N.eqb Pos.eqb].
  destruct ((c1 =? 98) || (c1 =? 66)); [reflexivity|].
  destruct ((c1 =? 111) || (c1 =? 79)); [reflexivity|].
  destruct ((c1 =? 120) || (c1 =? 88)); reflexivity.
Qed.

Lemma base_body_prefix c1 t :
  sl_base_body (48 :: c1 :: t) =
    match sl_prefix c1 with Some b => (b, t) | None => (8, c1 :: t) end.
Proof.
  unfold sl_prefix. cbn [sl_base_body N.eqb Pos.eqb].
  destruct ((c1 =? 98) || (c1 =? 66)); [reflexivity|].
  destruct ((c1 =? 111) || (c1 =? 79)); [reflexivity|].
  destruct ((c1 =? 120) || (c1 =? 88)); reflexivity.
Qed.

(* a prefix with nothing behind it is not one: "0x" is read as legacy octal *)
Lemma base_of_prefix c1 t : c1 < 256 ->
  sc_base_of (48 :: c1 :: t) =
    match sl_prefix c1, t with
    | Some b, _ :: _ => (b, t)
    | _, _ => (8, c1 :: t)
    end.
Proof.
  intros H. destruct t as [|c2 t']; [destruct (sl_prefix c1); reflexivity|].
  unfold sc_base_of, sl_prefix. cbn [N.eqb Pos.eqb].
  rewrite (lower_b c1 H), (lower_o c1 H), (lower_x c1 H).
  destruct ((c1 =? 98) || (c1 =? 66)); [reflexivity|].
  destruct ((c1 =? 111) || (c1 =? 79)); [reflexivity|].
  destruct ((c1 =? 120) || (c1 =? 88)); reflexivity.
Qed.

Lemma uok_prefix c1 t : c1 < 256 ->
  sc_underscore_ok (48 :: c1 :: t) =
    match sl_prefix c1 with
    | Some b => sc_uok_loop (b =? 16) t SawDigit
    | None => sc_uok_loop false (c1 :: t) SawDigit
    end.
Proof.
  intros H. unfold sc_underscore_ok, sc_is_prefix_letter, sl_prefix. cbn [N.eqb Pos.eqb orb andb].
  rewrite (lower_b c1 H), (lower_o c1 H), (lower_x c1 H).
  destruct ((c1 =? 98) || (c1 =? 66)) eqn:Eb.
  { replace ((c1 =? 120) || (c1 =? 88)) with false by lia. reflexivity. }
  destruct ((c1 =? 111) || (c1 =? 79)) eqn:Eo.
  { replace ((c1 =? 120) || (c1 =? 88)) with false by lia. reflexivity. }
  destruct ((c1 =? 120) || (c1 =? 88)); reflexivity.
Qed.

(* How parser and grammar take a string apart. Apart from "0" and from strings
   that neither accepts, both see the same base and digit part, underscoreOK
   is its scan of the digit part, and the grammar asks for separated digits
   of the base there. *)
Lemma lit_view s : bytesb s = true -> s <> [] ->
  s = [48] \/
  (sl_int_lit s = false /\ forall bits v, sc_parse_uint bits s <> ScOk v) \/
  exists base body,
    sc_known_base base /\ bytesb body = true /\
    sc_base_of s = (base, body) /\ sl_base_body s = (base, body) /\
    sc_underscore_ok s = sc_uok_loop (base =? 16) body SawDigit /\
    sl_int_lit s = sl_sep_digits (isd_of base) body.
Proof.
  intros Hby Hne. destruct s as [|c0 t]; [congruence|]. apply bytesb_cons in Hby as [Hc0 Hbt].
  destruct (c0 =? 48) eqn:E0.
  - apply N.eqb_eq in E0. subst c0. destruct t as [|c1 t']; [left; reflexivity|]. right.
    pose proof Hbt as Hbt1. apply bytesb_cons in Hbt as [Hc1 Hbt'].
    rewrite int_lit_prefix, base_body_prefix, (base_of_prefix c1 t' Hc1), (uok_prefix c1 t' Hc1).
    destruct (sl_prefix c1) as [b|] eqn:Ep; [destruct t' as [|c2 t'']|].
    + (* "0x": the grammar wants digits, the parser meets a non-octal digit *)
      left. split; [reflexivity|]. intros bits v H.
      apply parse_ok_parts in H as [_ H]. rewrite (base_of_prefix c1 [] Hc1), Ep in H.
      destruct H as [Hok _]. unfold sc_body_ok in Hok. cbn [forallb] in Hok.
      destruct (prefix_some c1 b Ep) as (_ & Hl & H95).
      destruct (char_facts c1 Hc1) as (_ & D8 & _). rewrite D8 in Hok. unfold sl_is_oct in Hok. lia.
    + right. exists b, (c2 :: t''). destruct (prefix_some c1 b Ep) as (Hb & _). repeat split; assumption.
    + right. exists 8, (c1 :: t'). repeat split; [right; left; reflexivity|exact Hbt1].
  - right. destruct (sl_is_dec c0) eqn:Ed.
    + right. exists 10, (c0 :: t).
      assert (Es : sc_uok_loop false (c0 :: t) SawStart = sc_uok_loop false (c0 :: t) SawDigit).
      { cbn [sc_uok_loop]. fold (sl_is_dec c0). rewrite Ed. reflexivity. }
      unfold sl_is_dec in Ed. repeat split.
      * right; right; left; reflexivity.
      * apply bytesb_cons_intro; assumption.
      * unfold sc_base_of. rewrite E0. reflexivity.
      * unfold sl_base_body. destruct t; [reflexivity|]. rewrite E0. reflexivity.
      * unfold sc_underscore_ok. replace ((c0 =? 45) || (c0 =? 43)) with false by lia.
        destruct t as [|c1 t']; [exact Es|]. rewrite E0. exact Es.
      * cbn [sl_int_lit sl_sep_digits]. rewrite E0. unfold isd_of. cbn [N.eqb Pos.eqb].
        unfold sl_is_dec. rewrite Ed. replace ((49 <=? c0) && (c0 <=? 57)) with true by lia. reflexivity.
    + (* not a digit: at best an underscore, which underscoreOK refuses in front *)
      left. split.
      * cbn [sl_int_lit]. rewrite E0. unfold sl_is_dec in Ed.
        replace ((49 <=? c0) && (c0 <=? 57)) with false by lia. reflexivity.
      * intros bits v H. apply parse_ok_parts in H as [_ H].
        unfold sc_base_of in H. rewrite E0 in H. destruct H as [Hok Hus].
        unfold sc_body_ok in Hok. cbn [forallb] in Hok. apply andb_true_iff in Hok as [Hc _].
        destruct (char_facts c0 Hc0) as (_ & _ & D10 & _).
        rewrite D10, Ed, orb_false_r in Hc. apply N.eqb_eq in Hc. subst c0.
        destruct Hus as [Hno|Hu]; [discriminate Hno|]. destruct t; discriminate Hu.
Qed.

Lemma parse_uint_literal bits s :
  1 <= bits <= 64 -> bytesb s = true -> sl_int_lit s = true ->
  sc_parse_uint bits s = if sl_value s <? 2 ^ bits then ScOk (sl_value s) else ScRange.
Proof.
  intros Hbits Hby Hlit. assert (Hne : s <> []) by (intros ->; discriminate Hlit).
  destruct (lit_view s Hby Hne) as [-> | [[Hno _] | (base & body & Hb & Hbb & Eb & Es & Eu & El)]].
  - (* "0" *)
    pose proof (pow2_bounds bits Hbits) as Hp. vm_compute sl_value. unfold sc_parse_uint. cbn.
    replace (0 <? 2 ^ bits) with true by lia. reflexivity.
  - congruence.
  - unfold sl_value. rewrite Es. rewrite El in Hlit. apply parse_assemble; assumption.
Qed.

Lemma parse_uint_only_literals bits s v :
  bytesb s = true -> sc_parse_uint bits s = ScOk v -> sl_int_lit s = true.
Proof.
  intros Hby H. assert (Hne : s <> []) by (intros ->; discriminate H).
  destruct (lit_view s Hby Hne) as [-> | [[_ Hno] | (base & body & Hb & Hbb & Eb & Es & Eu & El)]].
  - reflexivity.
  - destruct (Hno bits v H).
  - rewrite El. apply parse_ok_parts in H as [_ H]. rewrite Eb in H. destruct H as [Hok Hus].
    rewrite Eu in Hus. exact (sep_from_ok base body Hb Hbb Hok Hus).
Qed.

Lemma parse_uint_exact bits s v :
  1 <= bits <= 64 -> bytesb s = true ->
  (sc_parse_uint bits s = ScOk v <-> sl_int_lit s = true /\ sl_value s = v /\ v < 2 ^ bits).
Proof.
  intros Hbits Hby. split.
  - intros H. pose proof (parse_uint_only_literals bits s v Hby H) as Hlit.
    rewrite (parse_uint_literal bits s Hbits Hby Hlit) in H.
    destruct (sl_value s <? 2 ^ bits) eqn:E; [|discriminate]. inversion H; subst. repeat split; [assumption|lia].
  - intros (Hlit & Hv & Hlt). rewrite (parse_uint_literal bits s Hbits Hby Hlit). subst v.
    replace (sl_value s <? 2 ^ bits) with true by lia. reflexivity.
Qed.

Theorem parse_uint_range bits s :
  1 <= bits <= 64 -> bytesb s = true -> sl_int_lit s = true -> 2 ^ bits <= sl_value s ->
  sc_parse_uint bits s = ScRange.
Proof.
  intros Hbits Hby Hlit Hge. rewrite (parse_uint_literal bits s Hbits Hby Hlit).
  replace (sl_value s <? 2 ^ bits) with false by lia. reflexivity.
Qed.

(* what ParseInt makes of the magnitude un (on a range error of ParseUint, of
   the largest magnitude) *)
Definition int_of_mag (bits : N) (neg : bool) (un : N) : sc_ires :=
  if negb neg && (2 ^ (bits - 1) <=? un) then ScIRange
  else if neg && (2 ^ (bits - 1) <? un) then ScIRange
  else ScIOk (if neg then Z.opp (Z.of_N un) else Z.of_N un).

(* the model tests '+' before '-', the grammar '-' before '+' *)
Lemma parse_int_unsign bits s : s <> [] ->
  sc_parse_int bits s =
  match sc_parse_uint bits (snd (sl_unsign s)) with
  | ScOk v => int_of_mag bits (fst (sl_unsign s)) v
  | ScSyntax => ScISyntax
  | ScRange => int_of_mag bits (fst (sl_unsign s)) (2 ^ bits - 1)
  end.
Proof.
  destruct s as [|c t]; [congruence|]. intros _. unfold sc_parse_int, sl_unsign, int_of_mag.
  destruct (c =? 43) eqn:E1.
  - replace (c =? 45) with false by lia. cbn [fst snd]. destruct (sc_parse_uint bits t); reflexivity.
  - destruct (c =? 45); cbn [fst snd]; destruct (sc_parse_uint bits _); reflexivity.
Qed.

Lemma unsign_bytes s : bytesb s = true -> bytesb (snd (sl_unsign s)) = true.
Proof.
  destruct s as [|c t]; [trivial|]. intros H. unfold sl_unsign.
  destruct (c =? 45); [|destruct (c =? 43)]; cbn [snd]; try exact H; exact (proj2 (bytesb_cons c t H)).
Qed.

Lemma pow2_half_bounds bits : 2 <= bits ->
  2 ^ bits = 2 * 2 ^ (bits - 1) /\ 2 <= 2 ^ (bits - 1).
Proof.
  intros H. split.
  - replace bits with (N.succ (bits - 1)) at 1 by lia. apply N.pow_succ_r'.
  - change 2 with (2 ^ 1) at 1. apply N.pow_le_mono_r; lia.
Qed.

Lemma parse_int_literal bits s :
  2 <= bits <= 64 -> bytesb s = true -> sl_signed_lit s = true ->
  sc_parse_int bits s =
    if ((- Z.of_N (2 ^ (bits - 1)) <=? sl_signed_value s) && (sl_signed_value s <? Z.of_N (2 ^ (bits - 1))))%Z
    then ScIOk (sl_signed_value s) else ScIRange.
Proof.
  intros Hbits Hby Hlit.
  assert (Hne : s <> []) by (intros ->; discriminate Hlit).
  rewrite (parse_int_unsign bits s Hne). unfold sl_signed_lit in Hlit. unfold sl_signed_value.
  pose proof (unsign_bytes s Hby) as Hbm.
  destruct (sl_unsign s) as [neg m]. cbn [fst snd] in *.
  rewrite (parse_uint_literal bits m ltac:(lia) Hbm Hlit).
  destruct (pow2_half_bounds bits ltac:(lia)) as [Hh Hpos].
  remember (2 ^ (bits - 1)) as h eqn:Eh. remember (2 ^ bits) as P eqn:EP.
  remember (sl_value m) as V eqn:EV.
  (* in range: the two cutoff tests are the two-sided bound; a magnitude beyond
     2^bits is reported as 2^bits - 1, which is beyond either cutoff *)
  destruct (V <? P) eqn:E; unfold int_of_mag; rewrite <- Eh; destruct neg; cbn [negb andb].
  - replace ((- Z.of_N h <=? - Z.of_N V)%Z && (- Z.of_N V <? Z.of_N h)%Z) with (negb (h <? V)) by lia.
    destruct (h <? V); reflexivity.
  - replace ((- Z.of_N h <=? Z.of_N V)%Z && (Z.of_N V <? Z.of_N h)%Z) with (negb (h <=? V)) by lia.
    destruct (h <=? V); reflexivity.
  - replace (h <? P - 1) with true by lia.
    replace ((- Z.of_N h <=? - Z.of_N V)%Z && (- Z.of_N V <? Z.of_N h)%Z) with false by lia. reflexivity.
  - replace (h <=? P - 1) with true by lia.
    replace ((- Z.of_N h <=? Z.of_N V)%Z && (Z.of_N V <? Z.of_N h)%Z) with false by lia. reflexivity.
Qed.

Lemma parse_int_only_literals bits s z :
  2 <= bits -> bytesb s = true -> sc_parse_int bits s = ScIOk z -> sl_signed_lit s = true.
Proof.
  intros Hbits Hby H.
  assert (Hne : s <> []) by (intros ->; discriminate H).
  rewrite (parse_int_unsign bits s Hne) in H. unfold sl_signed_lit.
  pose proof (unsign_bytes s Hby) as Hbm.
  destruct (sl_unsign s) as [neg m]. cbn [fst snd] in *.
  destruct (sc_parse_uint bits m) as [v| |] eqn:Eu.
  - exact (parse_uint_only_literals bits m v Hbm Eu).
  - discriminate H.
  - (* a range error of the magnitude parser never turns into success *)
    exfalso. destruct (pow2_half_bounds bits Hbits) as [Hh Hpos]. unfold int_of_mag in H.
    remember (2 ^ (bits - 1)) as h eqn:Eh. remember (2 ^ bits) as P eqn:EP.
    destruct neg; cbn [negb andb] in H.
    + replace (h <? P - 1) with true in H by lia. discriminate H.
    + replace (h <=? P - 1) with true in H by lia. discriminate H.
Qed.

Lemma parse_int_exact bits s z :
  2 <= bits <= 64 -> bytesb s = true ->
  (sc_parse_int bits s = ScIOk z <->
   sl_signed_lit s = true /\ sl_signed_value s = z /\
   (- Z.of_N (2 ^ (bits - 1)) <= z < Z.of_N (2 ^ (bits - 1)))%Z).
Proof.
  intros Hbits Hby. split.
  - intros H. pose proof (parse_int_only_literals bits s z ltac:(lia) Hby H) as Hlit.
    rewrite (parse_int_literal bits s Hbits Hby Hlit) in H.
    match type of H with (if ?b then _ else _) = _ => destruct b eqn:E; [|discriminate] end.
    inversion H; subst. repeat split; [assumption|lia|lia].
  - intros (Hlit & Hv & Hr). rewrite (parse_int_literal bits s Hbits Hby Hlit). subst z.
    match goal with |- (if ?b then _ else _) = _ => replace b with true by lia end. reflexivity.
Qed.

Lemma digit_char_props base d : sc_known_base base -> d < base ->
  let c := sl_digit_char d in
  c < 256 /\ (c =? 95) = false /\ sl_val c = d /\ isd_of base c = true /\ (d <> 0 -> c <> 48) /\ (d = 0 -> c = 48).
Proof.
  intros Hb Hd. unfold sl_digit_char, sl_val.
  assert (d < 16) by by_base Hb.
  destruct (d <? 10) eqn:E; cbn zeta.
  - replace (48 + d <=? 57) with true by lia.
    repeat split; try lia.
    destruct Hb as [-> | [-> | [-> | ->]]]; unfold isd_of; cbn [N.eqb Pos.eqb];
      unfold sl_is_hex, sl_is_dec, sl_is_bin, sl_is_oct; lia.
  - replace (87 + d <=? 57) with false by lia. replace (87 + d <=? 70) with false by lia.
    repeat split; try lia.
    destruct Hb as [-> | [-> | [-> | ->]]]; unfold isd_of; cbn [N.eqb Pos.eqb];
      unfold sl_is_hex, sl_is_dec, sl_is_bin, sl_is_oct; lia.
Qed.

Definition rd_step (base acc c : N) : N := if c =? 95 then acc else acc * base + sl_val c.

Lemma render_unfold f base n acc :
  sl_render_digits (S f) base n acc =
    if n / base =? 0 then sl_digit_char (n mod base) :: acc
    else sl_render_digits f base (n / base) (sl_digit_char (n mod base) :: acc).
Proof. reflexivity. Qed.

Lemma render_spec base : sc_known_base base -> forall f n acc, n < 2 ^ N.of_nat f ->
  exists ds, sl_render_digits (S f) base n acc = ds ++ acc /\ ds <> [] /\
    forallb (isd_of base) ds = true /\ bytesb ds = true /\
    fold_left (rd_step base) ds 0 = n /\ (n <> 0 -> hd 0 ds <> 48) /\ (n = 0 -> ds = [48]).
Proof.
  intros Hb. assert (Hb2 : 2 <= base) by by_base Hb.
  induction f as [|f IH]; intros n acc Hn; rewrite render_unfold.
  - assert (n = 0) by (cbn in Hn; lia). subst n.
    rewrite N.div_0_l, N.mod_0_l by lia. cbn [N.eqb].
    exists [48]. repeat split; try discriminate; try reflexivity; try lia.
    destruct Hb as [-> | [-> | [-> | ->]]]; reflexivity.
  - destruct (n / base =? 0) eqn:Ediv.
    + assert (Hlt : n < base) by (apply N.div_small_iff; lia).
      rewrite (N.mod_small n base Hlt).
      destruct (digit_char_props base n Hb Hlt) as (P1 & P2 & P3 & P4 & P5 & P6).
      exists [sl_digit_char n]. repeat split; try discriminate.
      * cbn. rewrite P4. reflexivity.
      * unfold bytesb, is_byte. cbn. lia.
      * cbn. unfold rd_step. rewrite P2, P3. lia.
      * cbn. exact P5.
      * intros ->. rewrite (P6 eq_refl). reflexivity.
    + rewrite Nat2N.inj_succ, N.pow_succ_r' in Hn. remember (2 ^ N.of_nat f) as p eqn:Hp.
      assert (Hq : n / base < p) by (apply N.div_lt_upper_bound; [lia|nia]).
      assert (Hm : n mod base < base) by (apply N.mod_lt; lia).
      destruct (IH (n / base) (sl_digit_char (n mod base) :: acc) Hq) as (ds & E & Hne & Hall & Hby & Hv & Hhd & _).
      destruct (digit_char_props base (n mod base) Hb Hm) as (P1 & P2 & P3 & P4 & _).
      exists (ds ++ [sl_digit_char (n mod base)]). repeat split.
      * rewrite E, <- app_assoc. reflexivity.
      * destruct ds; discriminate.
      * rewrite forallb_app, Hall. cbn. rewrite P4. reflexivity.
      * rewrite bytesb_app, Hby. unfold bytesb, is_byte. cbn. lia.
      * rewrite fold_left_app, Hv. cbn. unfold rd_step. rewrite P2, P3.
        rewrite N.mul_comm. symmetry. apply N.div_mod. lia.
      * intros _. destruct ds as [|x ds']; [congruence|]. cbn. cbn in Hhd. apply Hhd. lia.
      * intros ->. rewrite N.div_0_l in Ediv by lia. discriminate Ediv.
Qed.

Lemma render_props base n : sc_known_base base ->
  let ds := sl_render base n in
  ds <> [] /\ forallb (isd_of base) ds = true /\ bytesb ds = true /\
  sl_digits_value base ds = n /\ (n <> 0 -> hd 0 ds <> 48) /\ (n = 0 -> ds = [48]).
Proof.
  intros Hb. unfold sl_render.
  destruct (render_spec base Hb (N.to_nat (N.size n)) n []) as (ds & E & H).
  - rewrite N2Nat.id. apply N.size_gt.
  - rewrite E, app_nil_r. exact H.
Qed.

Lemma decimal_is_literal n :
  bytesb (sl_decimal n) = true /\ sl_int_lit (sl_decimal n) = true /\ sl_value (sl_decimal n) = n.
Proof.
  assert (Hb : sc_known_base 10) by (right; right; left; reflexivity).
  destruct (render_props 10 n Hb) as (Hne & Hall & Hby & Hv & Hhd & Hz).
  unfold sl_decimal. remember (sl_render 10 n) as ds. split; [exact Hby|].
  destruct ds as [|c0 t]; [congruence|]. cbn [forallb] in Hall. apply andb_true_iff in Hall as [Hc0 Hall].
  unfold isd_of in Hc0, Hall. cbn [N.eqb Pos.eqb] in Hc0, Hall.
  destruct (N.eq_dec n 0) as [->|Hn0].
  - rewrite (Hz eq_refl). split; reflexivity.
  - specialize (Hhd Hn0). cbn in Hhd.
    assert (E0 : (c0 =? 48) = false) by lia. split.
    + cbn [sl_int_lit]. rewrite E0. unfold sl_is_dec in Hc0.
      replace ((49 <=? c0) && (c0 <=? 57)) with true by lia. cbn [andb].
      apply sep_digits_all. exact Hall.
    + unfold sl_value, sl_base_body. destruct t; [exact Hv|]. rewrite E0. exact Hv.
Qed.

Lemma prefixed_is_literal base p n :
  sc_known_base base ->
  (base = 2 /\ p = 98 \/ base = 8 /\ p = 111 \/ base = 16 /\ p = 120) ->
  let s := [48; p] ++ sl_render base n in
  bytesb s = true /\ sl_int_lit s = true /\ sl_value s = n.
Proof.
  intros Hb Hp.
  destruct (render_props base n Hb) as (Hne & Hall & Hby & Hv & _ & _).
  cbn zeta. remember (sl_render base n) as ds.
  assert (Hsep : sl_digits1 (isd_of base) ds = true).
  { destruct ds; [congruence|]. cbn [sl_digits1]. apply sep_digits_all. exact Hall. }
  destruct Hp as [[-> ->] | [[-> ->] | [-> ->]]]; (split; [|split]);
    try (unfold bytesb, is_byte in *; cbn [app forallb]; rewrite Hby; reflexivity);
    try exact Hsep; try exact Hv.
Qed.

Lemma roundtrip bits n :
  1 <= bits <= 64 ->
  let r := if n <? 2 ^ bits then ScOk n else ScRange in
  sc_parse_uint bits (sl_decimal n) = r /\ sc_parse_uint bits (sl_hex n) = r /\
  sc_parse_uint bits (sl_octal n) = r /\ sc_parse_uint bits (sl_binary n) = r.
Proof.
  intros Hbits. cbn zeta.
  destruct (decimal_is_literal n) as (D1 & D2 & D3).
  destruct (prefixed_is_literal 16 120 n) as (X1 & X2 & X3); [right; right; right; reflexivity|tauto|].
  destruct (prefixed_is_literal 8 111 n) as (O1 & O2 & O3); [right; left; reflexivity|tauto|].
  destruct (prefixed_is_literal 2 98 n) as (B1 & B2 & B3); [left; reflexivity|tauto|].
  unfold sl_hex, sl_octal, sl_binary.
  rewrite (parse_uint_literal bits _ Hbits D1 D2), D3.
  rewrite (parse_uint_literal bits _ Hbits X1 X2), X3.
  rewrite (parse_uint_literal bits _ Hbits O1 O2), O3.
  rewrite (parse_uint_literal bits _ Hbits B1 B2), B3.
  repeat split.
Qed.

(* reverseHexTable against the grammar's hex digits *)
Lemma hexval_spec c v : sc_hexval c = Some v <-> sl_is_hex c = true /\ v = sl_val c.
Proof.
  unfold sc_hexval, sl_is_hex, sl_is_dec, sl_val.
  destruct ((48 <=? c) && (c <=? 57)) eqn:E1; cbn [orb].
  - replace (c <=? 57) with true by lia. split; [intros [= <-]; auto|intros [_ ->]; reflexivity].
  - destruct ((97 <=? c) && (c <=? 102)) eqn:E2; cbn [orb].
    + replace (c <=? 57) with false by lia. replace (c <=? 70) with false by lia.
      split; [intros [= <-]; auto|intros [_ ->]; reflexivity].
    + destruct ((65 <=? c) && (c <=? 70)) eqn:E3.
      * replace (c <=? 57) with false by lia. replace (c <=? 70) with true by lia.
        split; [intros [= <-]; auto|intros [_ ->]; reflexivity].
      * split; [discriminate|intros [H _]; discriminate H].
Qed.

Lemma hexval_bound c v : sc_hexval c = Some v -> v < 16.
Proof.
  intros H. apply hexval_spec in H as [H ->]. unfold sl_is_hex, sl_is_dec in H. unfold sl_val.
  destruct (c <=? 57) eqn:E1; [lia|]. destruct (c <=? 70) eqn:E2; lia.
Qed.

(* hex.DecodeString: a success took an even number of hex digits, two per byte *)
Lemma hex_decode_ok s bs :
  sc_hex_decode s = Some bs -> length s = (2 * length bs)%nat /\ bytesb bs = true.
Proof.
  revert bs. induction s as [|p| p q t IH] using list_ind2; intros bs H; cbn [sc_hex_decode] in H.
  - inversion H. split; reflexivity.
  - discriminate.
  - destruct (sc_hexval p) as [a|] eqn:Ea; [|discriminate].
    destruct (sc_hexval q) as [b|] eqn:Eb; [|discriminate].
    destruct (sc_hex_decode t) as [r|] eqn:Er; [|discriminate]. inversion H; subst.
    destruct (IH r eq_refl) as [I1 I2]. split; [cbn; lia|].
    apply hexval_bound in Ea, Eb. unfold bytesb, is_byte in *. cbn [forallb]. rewrite I2.
    replace (a * 16 + b <? 256) with true by lia. reflexivity.
Qed.

Definition sc_hex_render (bs : list N) : list N :=
  flat_map (fun b => [sl_digit_char (b / 16); sl_digit_char (b mod 16)]) bs.

Lemma hex_decode_roundtrip bs : bytesb bs = true -> sc_hex_decode (sc_hex_render bs) = Some bs.
Proof.
  induction bs as [|b t IH]; intros H; [reflexivity|]. apply bytesb_cons in H as [Hb Ht].
  cbn [sc_hex_render flat_map app sc_hex_decode]. fold (sc_hex_render t). rewrite (IH Ht).
  assert (Hx : forall d, d < 16 -> sc_hexval (sl_digit_char d) = Some d).
  { intros d Hd. apply hexval_spec.
    destruct (digit_char_props 16 d ltac:(right; right; right; reflexivity) Hd) as (_ & _ & V & I & _).
    split; [exact I|symmetry; exact V]. }
  rewrite (Hx (b / 16)) by lia. rewrite (Hx (b mod 16)) by lia. f_equal. f_equal. lia.
Qed.
