(* Proofs about Model/TailErr.v: io.ReadFull over a connection whose Reads may
   report the end of the stream together with the last bytes agrees with
   read_full over the flat stream, hence (generic lemmas of Proofs/ChunksP.v)
   so do every reader, the client call and the server session: where the end
   is reported cannot be observed, and the C13 facts about cuts carry over. *)
From Modbus Require Import Base.Bytes Model.Crc Model.Encoding Model.Wire Model.Client Model.Server
  Model.Chunks Model.TailErr
  Spec.ModbusSpec Spec.ClientSpec Spec.ServerSpec Spec.ServerSessionSpec Spec.SegmentSpec Spec.CutSpec
  Proofs.ClientRespP Proofs.ServerP Proofs.ChunksP Proofs.CutP.

Definition tc_measure (c : tconn) : nat := length (tc_chunks c).

Lemma tail_read_ok : rde_ok tail_read tc_flat tc_measure.
Proof.
  intros n c Hn. unfold tail_read, tc_flat, tc_measure. destruct c as [cs tl]. cbn [tc_chunks tc_tail].
  destruct cs as [|ch cs'].
  - cbn [concat app length]. repeat split. lia.
  - destruct (Nat.leb (length ch) n) eqn:El.
    + apply Nat.leb_le in El. cbn [tc_chunks concat]. split; [reflexivity|]. split; [exact El|].
      destruct (andb tl (is_nil cs')) eqn:Ef.
      * apply andb_prop in Ef. destruct Ef as [_ Ef]. destruct cs'; [reflexivity|discriminate Ef].
      * cbn [length]. split; [lia|]. intros _. lia.
    + apply Nat.leb_gt in El. cbn [tc_chunks concat length]. rewrite app_assoc, firstn_skipn.
      split; [reflexivity|]. split; [rewrite firstn_length; lia|]. split; [lia|].
      intros H0. apply (f_equal (@length N)) in H0. rewrite firstn_length in H0. cbn [length] in H0. lia.
Qed.

Lemma read_full_tail_ok : rdf_ok read_full_tail tc_flat.
Proof. exact (rdf_ok_of_rde tail_read tc_flat tc_measure tail_read_ok). Qed.

Lemma tc_size_ok c : tc_size c = length (tc_flat c).
Proof. reflexivity. Qed.

Lemma read_mbap_tail e c :
  read_mbap e (tc_flat c) = (fst (read_mbap_t e c), tc_flat (snd (read_mbap_t e c))).
Proof. exact (g_read_mbap_flat read_full_tail tc_flat read_full_tail_ok e c). Qed.

Lemma read_rtu_tail e c :
  read_rtu e (tc_flat c) = (fst (read_rtu_t e c), tc_flat (snd (read_rtu_t e c))).
Proof. exact (g_read_rtu_flat read_full_tail tc_flat read_full_tail_ok e c). Qed.

Lemma client_call_tail fr cfg txn o e c :
  client_call fr cfg txn o e (tc_flat c) =
  let r := client_call_t fr cfg txn o e c in
  mkcall (gcr_res r) (gcr_writes r) (tc_flat (gcr_rest r)) (gcr_txn r).
Proof.
  exact (g_client_call_flat read_full_tail tc_size tc_flat read_full_tail_ok tc_size_ok fr cfg txn o e c).
Qed.

Lemma server_run_tail {St : Type} (h : handler St) st e c :
  server_run_t h st e c = server_run h st e (tc_flat c).
Proof.
  symmetry.
  exact (g_server_run_flat read_full_tail tc_size tc_flat read_full_tail_ok tc_size_ok h st e c).
Qed.

(* where the end is reported cannot be observed: the same chunks with the end
   in the last data Read, or in a Read of its own (Model/Chunks.v) *)
Lemma client_call_tail_any fr cfg txn o e cs tl :
  let r := client_call_t fr cfg txn o e (mktconn cs tl) in
  let r' := client_call_c fr cfg txn o e cs in
  gcr_res r = gcr_res r' /\ gcr_writes r = gcr_writes r' /\ gcr_txn r = gcr_txn r' /\
  tc_flat (gcr_rest r) = concat (gcr_rest r').
Proof.
  pose proof (client_call_tail fr cfg txn o e (mktconn cs tl)) as H1.
  pose proof (client_call_chunks fr cfg txn o e cs) as H2.
  unfold tc_flat in H1 at 1. cbn [tc_chunks] in H1. rewrite H1 in H2. cbv zeta in H2.
  injection H2 as Ha Hb Hc Hd. cbv zeta. auto.
Qed.

Lemma server_run_tail_of {St : Type} (h : handler St) st e cs tl s : concat cs = s ->
  server_run_t h st e (mktconn cs tl) = server_run h st e s.
Proof. intros <-. exact (server_run_tail h st e (mktconn cs tl)). Qed.

Lemma client_res_tail_of fr cfg txn o e cs tl s : concat cs = s ->
  gcr_res (client_call_t fr cfg txn o e (mktconn cs tl)) = cr_res (client_call fr cfg txn o e s).
Proof. intros <-. change (concat cs) with (tc_flat (mktconn cs tl)). rewrite client_call_tail. reflexivity. Qed.

Section CutTail.
  Context {St : Type} (h : handler St).

  Lemma server_full_tail st e t p cs tl :
    t < 65536 -> pdu_wf p -> concat cs = spec_mbap t p ->
    server_run_t h st e (mktconn cs tl) =
    let '(st', calls, act) := server_process h st p in
    map EvCall calls ++
    match act with
    | Respond r => [EvResp (spec_mbap t r); EvClosed]
    | CloseLink => [EvClosed]
    end.
  Proof.
    intros Ht Hp Hc. rewrite (server_run_tail_of h st e cs tl _ Hc).
    apply server_full; assumption.
  Qed.

  Lemma server_pipelined_tail frames rest st e cs tl :
    Forall (fun f => fst f < 65536 /\ pdu_wf (snd f)) frames ->
    concat cs = concat (map (fun f => spec_mbap (fst f) (snd f)) frames) ++ rest ->
    server_run_t h st e (mktconn cs tl) =
    spec_session h st frames (fun st' => server_run h st' e rest).
  Proof.
    intros HF Hc. rewrite (server_run_tail_of h st e cs tl _ Hc). apply server_pipelined. exact HF.
  Qed.

End CutTail.

Lemma client_full_tail_mbap cfg txn o e res vs frames cs tl :
  op_wf o -> cfg_wf cfg -> txn < 65536 -> valid_op o = true ->
  bytesb (p_payload res) = true -> answers cfg o res vs ->
  Forall (skippable (u16 (txn + 1))) frames ->
  concat cs = concat frames ++ spec_frame FMbap (u16 (txn + 1)) res ->
  gcr_res (client_call_t FMbap cfg txn o e (mktconn cs tl)) = Ok vs.
Proof.
  intros Hwf Hcfg Ht V Hb Hans HF Hc. rewrite (client_res_tail_of _ _ _ _ _ cs tl _ Hc).
  pose proof (client_complete_mbap cfg txn o e res vs frames [] Hwf Hcfg Ht V Hb Hans HF) as H.
  cbv zeta in H. rewrite app_nil_r in H. exact (proj1 H).
Qed.

Lemma client_full_tail_rtu cfg txn o e res vs cs tl :
  op_wf o -> cfg_wf cfg -> valid_op o = true ->
  bytesb (p_payload res) = true -> answers cfg o res vs ->
  concat cs = spec_frame FRtu 0 res ->
  gcr_res (client_call_t FRtu cfg txn o e (mktconn cs tl)) = Ok vs.
Proof.
  intros Hwf Hcfg V Hb Hans Hc. rewrite (client_res_tail_of _ _ _ _ _ cs tl _ Hc).
  pose proof (client_complete_rtu cfg txn o e res vs [] Hwf Hcfg V Hb Hans) as H.
  cbv zeta in H. rewrite app_nil_r in H. exact (proj1 H).
Qed.
