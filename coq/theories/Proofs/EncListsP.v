(* Lists of values to register bytes and back, for every width, byte order,
   word order and list: layout, length, position independence, and the decoder
   as the exact inverse of the encoder on byte strings. *)
From Modbus Require Import Base.Bytes Model.Encoding Spec.ModbusSpec Model.EncLists Proofs.EncodingP.

Definition enc1 (k : vwidth) (e : endian) (w : wordorder) : N -> list N :=
  match k with
  | W16 => u16_to_bytes e
  | W32 => u32_to_bytes e w
  | W64 => u64_to_bytes e w
  end.

Lemma enc_list_flat k e w vs : enc_list k e w vs = flat_map (enc1 k e w) vs.
Proof. destruct k; reflexivity. Qed.

(* as for u16_layout, the bound plays no part *)
Lemma enc_list_layout k e w vs : Forall (fun v => v < vbound k) vs ->
  enc_list k e w vs = spec_list k e w vs.
Proof.
  intros H. rewrite enc_list_flat. unfold spec_list.
  apply (flat_map_ext_forall _ _ (fun v => v < vbound k)); [|exact H]. intros x Hx.
  destruct k; [apply u16_layout|apply u32_layout|apply u64_layout]; exact Hx.
Qed.

Lemma enc_list_roundtrip k e w vs : Forall (fun v => v < vbound k) vs ->
  dec_list k e w (enc_list k e w vs) = Some vs.
Proof.
  intros H. destruct k; [apply u16s_roundtrip|apply u32s_roundtrip|apply u64s_roundtrip]; exact H.
Qed.

Lemma enc_list_app k e w a b : enc_list k e w (a ++ b) = enc_list k e w a ++ enc_list k e w b.
Proof. rewrite !enc_list_flat. apply flat_map_app. Qed.

Lemma enc_list_length k e w vs : length (enc_list k e w vs) = (2 * vregs k * length vs)%nat.
Proof.
  rewrite enc_list_flat. apply flat_map_length_const. intros v _. destruct k, e, w; reflexivity.
Qed.

Lemma enc_list_bytes k e w vs : bytesb (enc_list k e w vs) = true.
Proof.
  rewrite enc_list_flat. apply bytesb_flat_map. intros v.
  destruct k; [apply u16_to_bytes_bytes|apply u32_to_bytes_bytes|apply u64_to_bytes_bytes].
Qed.

Lemma dec_list_sound k e w : forall vs bs, bytesb bs = true ->
  dec_list k e w bs = Some vs ->
  bs = enc_list k e w vs /\ Forall (fun v => v < vbound k) vs.
Proof.
  destruct k; cbn [dec_list enc_list vbound]; unfold u16s_to_bytes, u32s_to_bytes, u64s_to_bytes;
    induction vs as [|v r IH]; intros bs Hb H.
  - destruct bs as [|a [|b t]]; cbn [bytes_to_u16s] in H; try discriminate.
    + split; [reflexivity|constructor].
    + destruct (bytes_to_u16s e t); discriminate.
  - destruct bs as [|a [|b t]]; cbn [bytes_to_u16s] in H; try discriminate.
    destruct (bytes_to_u16s e t) as [r'|] eqn:Et; [|discriminate].
    injection H as <- <-. rewrite !bytesb_cons_eq, !andb_true_iff in Hb. destruct Hb as (Ha & Hb & Ht).
    destruct (IH t Ht Et) as [-> HF].
    destruct (u16_inverse e a b) as (v' & Hv1 & Hv2 & Hv3); [lia|lia|].
    injection Hv1 as <-. cbn [flat_map]. rewrite Hv3.
    split; [reflexivity|constructor; assumption].
  - destruct bs as [|a [|b [|c [|d t]]]]; cbn [bytes_to_u32s] in H; try discriminate.
    + split; [reflexivity|constructor].
    + destruct (bytes_to_u32s e w t); discriminate.
  - destruct bs as [|a [|b [|c [|d t]]]]; cbn [bytes_to_u32s] in H; try discriminate.
    destruct (bytes_to_u32s e w t) as [r'|] eqn:Et; [|discriminate].
    injection H as <- <-. rewrite !bytesb_cons_eq, !andb_true_iff in Hb.
    destruct Hb as (Ha & Hb & Hc & Hd & Ht).
    destruct (IH t Ht Et) as [-> HF].
    destruct (u32_inverse e w a b c d) as (Hv2 & Hv3); try lia.
    cbn [flat_map]. rewrite Hv3. split; [reflexivity|constructor; assumption].
  - destruct bs as [|i0 [|i1 [|i2 [|i3 [|i4 [|i5 [|i6 [|i7 t]]]]]]]];
      cbn [bytes_to_u64s] in H; try discriminate.
    + split; [reflexivity|constructor].
    + destruct (bytes_to_u64s e w t); discriminate.
  - destruct bs as [|i0 [|i1 [|i2 [|i3 [|i4 [|i5 [|i6 [|i7 t]]]]]]]];
      cbn [bytes_to_u64s] in H; try discriminate.
    destruct (bytes_to_u64s e w t) as [r'|] eqn:Et; [|discriminate].
    injection H as <- <-. rewrite !bytesb_cons_eq, !andb_true_iff in Hb.
    destruct Hb as (H0 & H1 & H2 & H3 & H4 & H5 & H6 & H7 & Ht).
    destruct (IH t Ht Et) as [-> HF].
    destruct (u64_inverse e w i0 i1 i2 i3 i4 i5 i6 i7) as (Hv2 & Hv3); try lia.
    cbn [flat_map]. rewrite Hv3. split; [reflexivity|constructor; assumption].
Qed.

Lemma dec_list_iff k e w bs vs : bytesb bs = true ->
  (dec_list k e w bs = Some vs <->
   bs = enc_list k e w vs /\ Forall (fun v => v < vbound k) vs).
Proof.
  intros Hb. split; [apply dec_list_sound; exact Hb|].
  intros [-> HF]. apply enc_list_roundtrip. exact HF.
Qed.

Lemma dec_list_total k e w : forall n bs, length bs = (2 * vregs k * n)%nat ->
  exists vs, dec_list k e w bs = Some vs.
Proof.
  destruct k; cbn [dec_list vregs]; induction n as [|n IH]; intros bs Hl;
    try (destruct bs; [eexists; reflexivity|discriminate]).
  - destruct bs as [|a [|b t]]; cbn [length] in Hl; try lia.
    destruct (IH t ltac:(lia)) as [xs Hx]. cbn [bytes_to_u16s]. rewrite Hx. eexists; reflexivity.
  - destruct bs as [|a [|b [|c [|d t]]]]; cbn [length] in Hl; try lia.
    destruct (IH t ltac:(lia)) as [xs Hx]. cbn [bytes_to_u32s]. rewrite Hx. eexists; reflexivity.
  - destruct bs as [|i0 [|i1 [|i2 [|i3 [|i4 [|i5 [|i6 [|i7 t]]]]]]]]; cbn [length] in Hl; try lia.
    destruct (IH t ltac:(lia)) as [xs Hx]. cbn [bytes_to_u64s]. rewrite Hx. eexists; reflexivity.
Qed.
