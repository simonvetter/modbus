(* The translated client methods (client.go) ON TOP OF the translated tcp transport (tcp_transport.go), both
   inside the linked program [src_pure], on a peer byte stream: the transport oracle of Proofs/SrcClientLinkP.v
   is what the translated transport returns ([src_tcp_reply]), and the public result is the model's
   [client_call], up to the one thing the model does not distinguish: io.EOF / io.ErrUnexpectedEOF / any other
   i/o error ([norm_io]). *)
From Coq Require Import List NArith String Lia Bool.
Import ListNotations.
From Modbus Require Import Base.Bytes Model.GoLite Gen.SrcPure Model.Crc Model.Encoding.
From Modbus Require Import Model.Wire Model.Client Model.Transport Spec.ClientSpec.
From Modbus Require Proofs.ClientReqP.
From Modbus Require Import Proofs.FramingP.
From Modbus Require Import Proofs.GoLiteP Proofs.GoLiteLinkP Proofs.SrcMiscP.
From Modbus Require Import Proofs.TransportStreamP Proofs.SrcTransportP Proofs.SrcTransportLinkP Proofs.SrcTransportWorldsP.
From Modbus Require Import Proofs.SrcClientP Proofs.SrcClientLinkP.
Open Scope string_scope.
Open Scope N_scope.

(* nil flag, unit, function code, payload, error value of the returned list *)
Definition bad_reply : treply := TErr other_error true 0 0 [].

Definition dec_reply (rnil : bool) (u f : N) (p : list N) (c : N) : treply :=
  if c =? 0 then
    (if andb (negb rnil) (bytesb p) then TOk (mkpdu u f p) else bad_reply)
  else TErr c rnil u f p.

Definition reply_of_run (r : GoLite.res (list val)) : treply :=
  match r with
  | GOk [_; _; _; VB rnil; VN u; VN f; VL p; VN c] => dec_reply rnil u f (unvn p) c
  | _ => bad_reply
  end.

Definition src_tcp_reply (fuel : nat) (tmo last : N) (e : send) (s : list N) (req : pdu) : treply :=
  reply_of_run
    (call_with src_pure (world_base (sw e)) fuel "tcpTransport.ExecuteRequest"
               ([VN tmo; VN last] ++ pdu_args req ++ [vbytes s])%list).

Lemma bad_reply_wf : treply_wf bad_reply.
Proof. cbn [bad_reply treply_wf]. unfold other_error. discriminate. Qed.

Lemma dec_reply_wf rnil u f p c : treply_wf (dec_reply rnil u f p c).
Proof.
  unfold dec_reply. destruct (N.eqb_spec c 0) as [E|E].
  - destruct (negb rnil); cbn [andb]; [|apply bad_reply_wf].
    destruct (bytesb p) eqn:Hb; [exact Hb|apply bad_reply_wf].
  - exact E.
Qed.

Lemma reply_of_run_wf r : treply_wf (reply_of_run r).
Proof.
  unfold reply_of_run.
  repeat match goal with
         | |- treply_wf (match ?x with _ => _ end) => destruct x
         end;
    first [apply bad_reply_wf|apply dec_reply_wf].
Qed.

Lemma src_tcp_reply_wf_all fuel tmo last e s req : treply_wf (src_tcp_reply fuel tmo last e s req).
Proof. unfold src_tcp_reply. apply reply_of_run_wf. Qed.

Lemma src_tcp_reply_wf tmo last e s req : bytesb s = true -> pdu_ok req ->
  treply_wf (src_tcp_reply (S (List.length s)) tmo last e s req).
Proof. intros _ _. apply src_tcp_reply_wf_all. Qed.

(* the i/o errors the model does not tell apart *)
Definition norm_io (c : N) : N :=
  if orb (c =? src_eof) (c =? c_ueof src_codes) then other_error else c.

Definition sout_norm (o : sout) : sout :=
  match o with
  | SCode c => SCode (norm_io c)
  | o' => o'
  end.

Lemma norm_io_2 : norm_io 2 = 2.
Proof. vm_compute. reflexivity. Qed.

(* no error class of the model has the value of io.EOF / io.ErrUnexpectedEOF *)
Lemma norm_err_code x : norm_io (err_code x) = err_code x.
Proof.
  destruct x as [| | | | | |c|c| |]; try (vm_compute; reflexivity).
  unfold err_code, exc_name.
  repeat match goal with |- context [if ?b then _ else _] => destruct b end; vm_compute; reflexivity.
Qed.

Lemma sout_norm_sout_of r : sout_norm (sout_of r) = sout_of r.
Proof.
  destruct r as [v|x| |]; cbn [sout_of sout_norm]; try reflexivity.
  rewrite norm_err_code. reflexivity.
Qed.

(* what [call_out] reads of two replies: the frame, or the error value up to [norm_io] *)
Definition reply_rel (a b : treply) : Prop :=
  match a, b with
  | TOk p, TOk q => p = q
  | TErr c _ _ _ _, TErr c' _ _ _ _ => norm_io c = c'
  | _, _ => False
  end.

(* (an i/o timeout is the value 2 on both sides: [norm_io 2 = 2]) *)
Lemma reply_rel_timeout a b : reply_rel a b ->
  forall n u f p, a = TErr 2 n u f p -> exists n' u' f' p', b = TErr 2 n' u' f' p'.
Proof.
  intros H n u f p Ha. subst a. destruct b as [q|c' n' u' f' p']; cbn [reply_rel] in H; [contradiction|].
  rewrite norm_io_2 in H. subst c'. exists n', u', f', p'. reflexivity.
Qed.

Lemma dec_reply_frame q : bytesb (p_payload q) = true ->
  dec_reply false (p_unit q) (p_fc q) (unvn (map VN (p_payload q))) 0 = TOk q.
Proof. intros Hb. unfold dec_reply. rewrite unvn_map. cbn [N.eqb negb andb]. rewrite Hb. destruct q; reflexivity. Qed.

Lemma dec_reply_err c : c <> 0 -> dec_reply true 0 0 [] c = TErr c true 0 0 [].
Proof. intros Hc. unfold dec_reply. destruct (N.eqb_spec c 0); [contradiction|reflexivity]. Qed.

Lemma reply_rel_code c x : CK c x -> reply_rel (TErr c true 0 0 []) (treply_of (Err x)).
Proof.
  unfold CK, code_ok, code_table. cbn [In].
  intros [H|[H|[H|[H|[H|[H|[H|[H|[]]]]]]]]]; injection H as <- <-; vm_compute; reflexivity.
Qed.

Lemma reply_rel_result rep (r : result pdu) :
  match r with
  | MOk q => rep = TOk q
  | Err x => exists c, rep = TErr c true 0 0 [] /\ CK c x
  | _ => False
  end -> reply_rel rep (treply_of r).
Proof.
  destruct r as [q|x| |]; try contradiction.
  - intros ->. reflexivity.
  - intros (c & -> & Hc). exact (reply_rel_code c x Hc).
Qed.

Theorem src_tcp_reply_model tmo last e s req : bytesb s = true -> pdu_ok req -> last < 65536 ->
  reply_rel (src_tcp_reply (S (List.length s)) tmo last e s req) (model_transport FMbap last e s req).
Proof.
  intros Hs Hok _.
  unfold model_transport. rewrite transport_result_eq. unfold u16. apply reply_rel_result.
  pose proof (src_tcp_ExecuteRequest_stream (S (List.length s)) e tmo last req s Hs Hok) as H.
  cbv zeta in H.
  pose proof (mbap_no_panic (S (List.length s)) e ((last + 1) mod 65536) s) as H1.
  pose proof (mbap_no_oof (S (List.length s)) e ((last + 1) mod 65536) s (Nat.lt_succ_diag_r _)) as H2.
  destruct (mbap_read_response (S (List.length s)) e ((last + 1) mod 65536) s) as [r s'] eqn:E.
  cbn [fst] in *. unfold src_tcp_reply.
  destruct r as [q|x| |]; try congruence.
  - rewrite H. cbn [app enc_opdu reply_of_run vbytes].
    apply dec_reply_frame. exact (mbap_response_bytes _ _ _ _ _ _ Hs E).
  - destruct H as (c & H & Hc). exists c. split; [|exact Hc].
    rewrite H. cbn [app enc_opdu reply_of_run unvn]. apply dec_reply_err. exact (proj1 (CK_EC c x Hc)).
Qed.

(* sanity, on samples: a frame is read on both sides; on a closed empty stream
   the translated transport returns io.EOF, after a partial header
   io.ErrUnexpectedEOF, where the model has its one class of i/o errors: this
   is what [norm_io] is for *)
Example sample_frame :
  src_tcp_reply 11 1000 7 Stall frame2 req1 = TOk (mkpdu 9 3 [2; 0x11]) /\
  model_transport FMbap 7 Stall frame2 req1 = TOk (mkpdu 9 3 [2; 0x11]).
Proof. vm_compute. split; reflexivity. Qed.

Example sample_eof :
  src_tcp_reply 1 1000 7 Closed [] req1 = TErr src_eof true 0 0 [] /\
  model_transport FMbap 7 Closed [] req1 = TErr other_error true 0 0 [].
Proof. vm_compute. split; reflexivity. Qed.

Example sample_ueof :
  src_tcp_reply 4 1000 7 Closed [0; 8; 0] req1 = TErr (c_ueof src_codes) true 0 0 [] /\
  model_transport FMbap 7 Closed [0; 8; 0] req1 = TErr other_error true 0 0 [].
Proof. vm_compute. split; reflexivity. Qed.

Example sample_timeout :
  src_tcp_reply 4 1000 7 Stall [0; 8; 0] req1 = TErr 2 true 0 0 [] /\
  model_transport FMbap 7 Stall [0; 8; 0] req1 = TErr 2 true 0 0 [].
Proof. vm_compute. split; reflexivity. Qed.

Arguments src_tcp_reply : simpl never.
Global Opaque src_tcp_reply.

Lemma call_out_rel cfg o X Y :
  (forall req, client_request cfg o = MOk req -> reply_rel (X req) (Y req)) ->
  sout_norm (call_out cfg o (xchg X)) = call_out cfg o (xchg Y).
Proof.
  intros H. unfold call_out.
  destruct (client_request cfg o) as [req|x| |]; cbn [sout_of sout_norm]; try reflexivity.
  - specialize (H req eq_refl). unfold xchg.
    destruct (X req) as [p|c n u f pl], (Y req) as [q|c' n' u' f' pl'];
      cbn [reply_rel] in H; try contradiction.
    + subst q. cbn [exec_spec].
      destruct (unit_check req p); [|apply sout_norm_sout_of].
      cbn [sout_norm]. rewrite norm_err_code. reflexivity.
    + subst c'. cbn [exec_spec sout_norm].
      destruct (N.eqb_spec c 2) as [E|E].
      * subst c. rewrite norm_io_2. change (2 =? 2) with true. cbv iota.
        vm_compute. reflexivity.
      * assert (E' : (norm_io c =? 2) = false).
        { unfold norm_io. destruct (orb _ _); [reflexivity|]. apply N.eqb_neq. exact E. }
        rewrite E'. reflexivity.
  - rewrite norm_err_code. reflexivity.
Qed.

Lemma req_read_regs_len cfg a n rt p :
  req_read_regs cfg a n rt = MOk p -> (List.length (p_payload p) <= 260)%nat.
Proof.
  unfold req_read_regs.
  destruct rt; try discriminate;
    (destruct (n =? 0); [discriminate|]; destruct (125 <? n); [discriminate|];
     destruct (65535 <? a + n - 1); [discriminate|];
     intros H; injection H as H; subst p; cbn [p_payload be16 app List.length]; lia).
Qed.

Lemma req_write_regs_len cfg a bytes p :
  req_write_regs cfg a bytes = MOk p -> (List.length (p_payload p) <= 260)%nat.
Proof.
  unfold req_write_regs.
  destruct (246 <? lenN bytes) eqn:E; [discriminate|].
  destruct (u16 (lenN bytes) / 2 =? 0); [discriminate|].
  destruct (123 <? u16 (lenN bytes) / 2); [discriminate|].
  destruct (65535 <? a + u16 (lenN bytes) / 2 - 1); [discriminate|].
  intros H. injection H as H. subst p. cbn [p_payload be16 app List.length].
  rewrite ?app_length. cbn [List.length]. unfold lenN in E. lia.
Qed.

Lemma client_request_len cfg o p :
  client_request cfg o = MOk p -> (List.length (p_payload p) <= 260)%nat.
Proof.
  destruct o as [di a q|w a q rt|raw a q rt|a v|a vs|a v|w a vs|raw a bs]; cbn [client_request].
  - unfold req_read_bools.
    destruct (q =? 0); [discriminate|]. destruct (2000 <? q); [discriminate|].
    destruct (65535 <? a + q - 1); [discriminate|].
    intros H. injection H as H. subst p. cbn [p_payload be16 app List.length]. lia.
  - apply req_read_regs_len.
  - apply req_read_regs_len.
  - intros H. injection H as H. subst p.
    destruct v; cbn [p_payload be16 app List.length]; lia.
  - destruct (1968 <? lenN vs) eqn:E; [discriminate|].
    destruct (u16 (lenN vs) =? 0); [discriminate|].
    destruct (1968 <? u16 (lenN vs)); [discriminate|].
    destruct (65535 <? a + u16 (lenN vs) - 1); [discriminate|].
    intros H. injection H as H. subst p. cbn [p_payload be16 app List.length].
    rewrite ?app_length. cbn [List.length].
    pose proof (ClientReqP.encode_bools_lenN vs) as L. unfold lenN in L, E. lia.
  - intros H. injection H as H. subst p. cbn [p_payload be16 app List.length].
    rewrite EncodingP.u16_to_bytes_len. lia.
  - apply req_write_regs_len.
  - apply req_write_regs_len.
Qed.

Lemma client_request_pdu_ok cfg o req : op_wf o -> cfg_wf cfg ->
  client_request cfg o = MOk req -> pdu_ok req.
Proof.
  intros Hwf Hcfg H.
  destruct (ClientReqP.client_request_bytes cfg o req Hwf H) as (Hu & Hf & Hp).
  pose proof (client_request_len cfg o req H) as Hl.
  unfold cfg_wf in Hcfg. unfold pdu_ok. split.
  - change (bytesb (p_unit req :: p_fc req :: p_payload req))
      with (andb (is_byte (p_unit req)) (andb (is_byte (p_fc req)) (bytesb (p_payload req)))).
    rewrite Hp. unfold is_byte. lia.
  - apply N.le_lt_trans with 260; [lia|reflexivity].
Qed.

Lemma call_out_stack_gen fr cfg o txn e s rep :
  (forall req, client_request cfg o = MOk req -> reply_rel (rep req) (model_transport fr txn e s req)) ->
  sout_norm (call_out cfg o (xchg rep)) = sout_of (cr_res (client_call fr cfg txn o e s)).
Proof. intros H. rewrite <- call_out_client_call. apply call_out_rel. exact H. Qed.

Lemma src_tcp_reply_hyp fuel' tmo last e s :
  transport_hyp (oracle_of (src_tcp_reply fuel' tmo last e s)) (src_tcp_reply fuel' tmo last e s).
Proof. apply oracle_of_hyp. intros req. apply src_tcp_reply_wf_all. Qed.

Print Assumptions src_tcp_reply_wf.
Print Assumptions src_tcp_reply_model.
