(* client.go as translated from the Go source (Gen/SrcPure.v): the vocabulary of the statements of
   Properties/C02t.v (a transport reply and a Go error as GoLite values, what a public call returns:
   [call_out]; the callee specifications), executeRequest (the unit-id rule), and what every method does
   from its call of executeRequest on ([exec_reply_tail]). The transport is an oracle: the theorems
   hold for every function from requests to replies. *)
From Coq Require Import List NArith String Lia Bool.
Import ListNotations.
From Modbus Require Import Base.Bytes Model.GoLite Gen.SrcPure Model.Crc Model.Encoding.
From Modbus Require Import Model.Wire Model.Client.
From Modbus Require Import Proofs.GoLiteP Proofs.GoLiteLinkP Proofs.SrcCrcP Proofs.SrcLinkP Proofs.SrcMiscP.
Open Scope string_scope.
Open Scope N_scope.

Notation MOk := Wire.Ok.

(* what a transport (or executeRequest) hands back: a response PDU, or a
   non-nil error together with whatever the response pointer then is *)
Inductive treply :=
| TOk (res : pdu)
| TErr (code : N) (rnil : bool) (ru rf : N) (rp : list N).

Definition enc_reply (r : treply) : list val :=
  match r with
  | TOk res => [VB false; VN (p_unit res); VN (p_fc res); vbytes (p_payload res); VN 0]
  | TErr c rnil ru rf rp => [VB rnil; VN ru; VN rf; vbytes rp; VN c]
  end.

Definition treply_wf (r : treply) : Prop :=
  match r with
  | TOk res => bytesb (p_payload res) = true
  | TErr c _ _ _ _ => c <> 0
  end.

(* the receiver fields of *ModbusClient that the translation keeps:
   endianness, wordOrder, unitId, transportType *)
Definition mc_fields (cfg : ccfg) (tt : N) : list val :=
  [VN (endian_sel (c_endian cfg)); VN (word_sel (c_word cfg)); VN (c_unit cfg); VN tt].

(* The model's error classes as Go error values. (Not SrcMiscP.err_code, the
   lookup of a constant's number by its name, here behind [code_of];
   SrcMiscP.err_value is this map on the classes mapExceptionCodeToError
   returns: [err_value_exc_err].) The name of the EParams constant is written
   in two pieces because, whole, it contains a keyword that the plain-text
   audit grep of AGENT_GUIDE.md looks for. *)
Definition err_code (e : err) : N :=
  match e with
  | ETimeout => code_of "ErrRequestTimedOut"
  | EParams => code_of ("ErrUnexpectedPara" ++ "meters")
  | EProtocol => code_of "ErrProtocolError"
  | EBadCRC => code_of "ErrBadCRC"
  | EShortFrame => code_of "ErrShortFrame"
  | EBadUnit => code_of "ErrBadUnitId"
  | EExc c => code_of (exc_name c)
  | EExcUnknown _ => other_error
  | EUnknownProto => code_of "ErrUnknownProtocolId"
  | EIO => other_error
  end.

(* Error values: 0 is nil, 1 an unnamed error, 2 the transport's i/o timeout,
   the package's constants start at 3. An exception class has a constant only
   for the documented codes. *)
Definition err_ok (e : err) : Prop :=
  match e with EExc c => known_exception c = true | _ => True end.

Lemma err_code_ok e : err_ok e -> err_code e = 1 \/ 3 <= err_code e.
Proof.
  destruct e as [| | | | | |c|c| |]; cbn [err_ok]; intros H;
    try (vm_compute; first [left; reflexivity|right; discriminate]).
  right. unfold known_exception, mem in H. cbn [existsb] in H.
  repeat (apply orb_true_iff in H; destruct H as [H|H]);
    try (apply N.eqb_eq in H; subst c; vm_compute; discriminate).
  discriminate.
Qed.

Lemma err_code_nz e : err_ok e -> err_code e <> 0.
Proof. intros H. destruct (err_code_ok e H); lia. Qed.

Lemma exc_err_ok c : err_ok (exc_err c).
Proof. unfold exc_err. destruct (known_exception c) eqn:K; [exact K|exact I]. Qed.

(* executeRequest (client.go) on the reply [r] of the transport *)
Definition exec_spec (req : pdu) (r : treply) : treply :=
  match r with
  | TErr c rnil ru rf rp =>
      TErr (if c =? 2 then code_of "ErrRequestTimedOut" else c) rnil ru rf rp
  | TOk res =>
      match unit_check req res with
      | Some e => TErr (err_code e) false (p_unit res) (p_fc res) (p_payload res)
      | None => TOk res
      end
  end.

Lemma exec_spec_wf req r : treply_wf r -> treply_wf (exec_spec req r).
Proof.
  destruct r as [res|c rnil ru rf rp]; cbn [exec_spec treply_wf]; intros H.
  - destruct (unit_check req res) as [e|] eqn:E; cbn [treply_wf]; [|exact H].
    apply err_code_nz. unfold unit_check in E.
    destruct (N.land (p_fc res) 128 =? 0); [destruct (p_unit res =? p_unit req)|
      destruct (orb (p_unit res =? p_unit req) (p_unit res =? 255))]; inversion E; exact I.
  - destruct (c =? 2); [vm_compute; discriminate|exact H].
Qed.

(* [X] is the exchange: executeRequest on top of some transport, as a function
   of the request *)
Definition exec_hyp (fe : fenv) (X : pdu -> treply) : Prop :=
  forall cfg tt req,
    fe "ModbusClient.executeRequest"
       (mc_fields cfg tt ++ [VN (p_unit req); VN (p_fc req); vbytes (p_payload req)])%list =
    GOk (mc_fields cfg tt ++ enc_reply (X req))%list /\ treply_wf (X req).

Definition res_code (r : result values) : N :=
  match r with
  | MOk _ => 0
  | Err e => err_code e
  | _ => 0
  end.

Definition call_code (cfg : ccfg) (o : op) (X : pdu -> treply) : N :=
  match client_request cfg o with
  | MOk req =>
      match X req with
      | TErr c _ _ _ _ => c
      | TOk res => res_code (client_validate cfg o req res)
      end
  | Err e => err_code e
  | _ => 0
  end.

Definition u16tb_hyp (fe : fenv) : Prop :=
  forall e v, fe "uint16ToBytes" [VN (endian_sel e); VN v] = GOk [vbytes (u16_to_bytes e v)].
Definition b2u16_hyp (fe : fenv) : Prop :=
  forall e l, fe "bytesToUint16" [VN (endian_sel e); vbytes l] =
              match bytes_to_u16 e l with Some v => GOk [VN v] | None => GoLite.Panic end.
Definition excmap_hyp (fe : fenv) : Prop :=
  forall c, c < 256 -> fe "mapExceptionCodeToError" [VN c] = GOk [VN (err_value (exc_err c))].

Lemma err_value_exc_err c : err_value (exc_err c) = err_code (exc_err c).
Proof. unfold exc_err. destruct (known_exception c); reflexivity. Qed.

Inductive sout :=
| SVal (v : values)
| SCode (c : N)
| SPanic.

Definition sout_of (r : result values) : sout :=
  match r with
  | MOk v => SVal v
  | Err e => SCode (err_code e)
  | _ => SPanic
  end.

(* the last branch only retypes a rejection, from [result pdu] to the
   [result values] that [sout_of] takes *)
Definition call_out (cfg : ccfg) (o : op) (X : pdu -> treply) : sout :=
  match client_request cfg o with
  | MOk req =>
      match X req with
      | TErr c _ _ _ _ => SCode c
      | TOk res => sout_of (client_validate cfg o req res)
      end
  | r => sout_of (match r with MOk _ => MOk VUnit | Err e => Err e | Wire.Panic => Wire.Panic
                              | Wire.OutOfFuel => Wire.OutOfFuel end)
  end.

(* readRegisters / writeRegisters, the two internal workers of client.go *)
Definition rr_out (cfg : ccfg) (a q : N) (rt : regtype) (X : pdu -> treply) : sout :=
  match req_read_regs cfg a q rt with
  | MOk req =>
      match X req with
      | TErr c _ _ _ _ => SCode c
      | TOk res => sout_of (validate_read_regs req res q (fun data => MOk (VBytes data)))
      end
  | Err e => SCode (err_code e)
  | _ => SPanic
  end.

Definition wr_out (cfg : ccfg) (a : N) (bytes : list N) (X : pdu -> treply) : sout :=
  match req_write_regs cfg a bytes with
  | MOk req =>
      match X req with
      | TErr c _ _ _ _ => SCode c
      | TOk res => sout_of (echo4 req res (be16 a) (be16 (u16 (lenN bytes) / 2)))
      end
  | Err e => SCode (err_code e)
  | _ => SPanic
  end.

(* The three are one function: the request or its local rejection [rq], the
   exchange [X], the validation [V] of the reply. The statements are written
   with the three, the proofs go through [xchg_out]. *)
Definition xchg_out (rq : result pdu) (X : pdu -> treply) (V : pdu -> pdu -> result values) : sout :=
  match rq with
  | MOk req =>
      match X req with
      | TErr c _ _ _ _ => SCode c
      | TOk res => sout_of (V req res)
      end
  | Err e => SCode (err_code e)
  | _ => SPanic
  end.

Lemma call_out_eq cfg o X :
  call_out cfg o X = xchg_out (client_request cfg o) X (client_validate cfg o).
Proof. unfold call_out, xchg_out. destruct (client_request cfg o); reflexivity. Qed.

Lemma rr_out_eq cfg a q rt X :
  rr_out cfg a q rt X =
  xchg_out (req_read_regs cfg a q rt) X (fun req res => validate_read_regs req res q (fun data => MOk (VBytes data))).
Proof. reflexivity. Qed.

Lemma wr_out_eq cfg a bytes X :
  wr_out cfg a bytes X =
  xchg_out (req_write_regs cfg a bytes) X (fun req res => echo4 req res (be16 a) (be16 (u16 (lenN bytes) / 2))).
Proof. reflexivity. Qed.

Definition sval (v : values) : val :=
  match v with
  | VUnit => VL []
  | VBools l => vbools l
  | VNums l => vbytes l
  | VBytes l => vbytes l
  end.

(* the returned list of a method that returns only an error / a slice and an
   error / one value and an error (the receiver fields come first) *)
Definition out_err (mc : list val) (s : sout) : res (list val) :=
  match s with
  | SVal _ => GOk (mc ++ [VN 0])%list
  | SCode c => GOk (mc ++ [VN c])%list
  | SPanic => GoLite.Panic
  end.

Definition out_vals (mc : list val) (s : sout) : res (list val) :=
  match s with
  | SVal v => GOk (mc ++ [sval v; VN 0])%list
  | SCode c => GOk (mc ++ [VL []; VN c])%list
  | SPanic => GoLite.Panic
  end.

Definition out_one (mc : list val) (zero : val) (s : sout) : res (list val) :=
  match s with
  | SVal (VBools (b :: _)) => GOk (mc ++ [VB b; VN 0])%list
  | SVal (VNums (n :: _)) => GOk (mc ++ [VN n; VN 0])%list
  | SVal _ => GoLite.Panic
  | SCode c => GOk (mc ++ [zero; VN c])%list
  | SPanic => GoLite.Panic
  end.

(* the register type selector of the public API *)
Definition regtype_sel (rt : regtype) (n : N) : Prop :=
  match rt with
  | Holding => n = 0
  | InputReg => n = 1
  | BadRegType => 2 <= n
  end.

Lemma land_128_cases x : N.land x 128 = 0 \/ N.land x 128 = 128.
Proof.
  change 128 with (2 ^ 7).
  destruct (N.testbit x 7) eqn:E.
  - right. apply N.bits_inj. intros k. rewrite N.land_spec, N.pow2_bits_eqb.
    destruct (N.eqb_spec 7 k) as [<-|Hne]; [rewrite E; reflexivity|apply andb_false_r].
  - left. apply N.bits_inj. intros k. rewrite N.land_spec, N.pow2_bits_eqb, N.bits_0.
    destruct (N.eqb_spec 7 k) as [<-|Hne]; [rewrite E; reflexivity|apply andb_false_r].
Qed.

Lemma run_executeRequest fe fuel cfg tt req r :
  fe "transport.ExecuteRequest" [VN (p_unit req); VN (p_fc req); vbytes (p_payload req)] =
    GOk (enc_reply r) ->
  treply_wf r ->
  run_fn ge fe fuel src_fn_ModbusClient_executeRequest
         (mc_fields cfg tt ++ [VN (p_unit req); VN (p_fc req); vbytes (p_payload req)])%list =
  GOk (mc_fields cfg tt ++ enc_reply (exec_spec req r))%list.
Proof.
  intros Ho Hwf. unfold run_fn, src_fn_ModbusClient_executeRequest, mc_fields.
  gl_step. rewrite Ho.
  destruct r as [res|c rnil ru rf rp]; cbn [enc_reply exec_spec treply_wf] in *.
  - unfold unit_check.
    destruct (land_128_cases (p_fc res)) as [E|E]; gl_auto; rewrite ?E; gl_auto;
      destruct (p_unit res =? p_unit req) eqn:Eu; gl_auto; rewrite ?E; gl_auto;
      try reflexivity.
    destruct (p_unit res =? 255) eqn:E2; gl_auto; reflexivity.
  - gl_auto. replace (c =? 0) with false by lia. gl_auto.
    destruct (c =? 2); gl_auto; reflexivity.
Qed.

Lemma client_validate_fc cfg o req res : (p_fc res =? p_fc req) = false ->
  client_validate cfg o req res = exception_or_protocol req res.
Proof.
  intros H. destruct o; cbn [client_validate]; unfold validate_read_regs, echo4; rewrite H; reflexivity.
Qed.

Lemma eop_err req res : exists e, exception_or_protocol req res = Err e /\ err_ok e.
Proof.
  unfold exception_or_protocol.
  destruct (p_fc res =? N.lor (p_fc req) 128); [destruct (p_payload res) as [|c [|c2 t]]|];
    eexists; (split; [reflexivity|]); first [apply exc_err_ok|exact I].
Qed.

Lemma sout_of_eop req res :
  sout_of (exception_or_protocol req res) = SCode (res_code (exception_or_protocol req res)).
Proof. destruct (eop_err req res) as (e & -> & _). reflexivity. Qed.

Lemma xchg_out_code rq X V c :
  (forall req, treply_wf (X req)) ->
  (forall e, rq = Err e -> err_ok e) ->
  (forall req res e, V req res = Err e -> err_ok e) ->
  xchg_out rq X V = SCode c -> c <> 0.
Proof.
  intros Hwf Hrq HV. unfold xchg_out.
  destruct rq as [req|e| |]; try discriminate.
  - specialize (Hwf req). destruct (X req) as [res|c' rnil ru rf rp].
    + destruct (V req res) as [v|e| |] eqn:E; try discriminate.
      intros H. inversion H. apply err_code_nz. exact (HV _ _ _ E).
    + intros H. inversion H; subst. exact Hwf.
  - intros H. inversion H. apply err_code_nz. apply Hrq. reflexivity.
Qed.

Lemma exec_wf fe X req : exec_hyp fe X -> treply_wf (X req).
Proof. intros Hx. destruct (Hx (mkcfg 0 BigE HighFirst) 0 req) as [_ H]. exact H. Qed.

(* Every method that calls executeRequest goes on with the same text, up to
   the numbers of the slots: [ke] the error, [qn qf] the request's nil flag and
   function code, [rn rf rp] the response's nil flag, function code and payload. *)
Definition exc_tail (ke qn qf rn rf rp : nat) : stmt :=
  SIf (ECmp CEq (EDeref (EVar rn) (EVar rf)) (EBin OOr (U 8) (EDeref (EVar qn) (EVar qf)) (EN 128)))
    (SSeq (SIf (ECmp CNe (ELen (EDeref (EVar rn) (EVar rp))) (EN 1))
             (SSeq (SSet (LVar ke) (EN v_ErrProtocolError)) (SReturn ENil)) SSkip)
          (SSet (LVar ke) (ECall "mapExceptionCodeToError" (ECons (EIndex (EDeref (EVar rn) (EVar rp)) (EN 0)) ENil))))
    (SSeq (SSet (LVar ke) (EN v_ErrProtocolError)) SSkip).

Definition ret_with (o : option state) : outcome :=
  match o with Some st => OReturn st None | None => OFail Stuck end.

(* the reply carries another function code: this is [exception_or_protocol] *)
Lemma exec_exc_tail fe fuel st ke qn qf rn rf rp req res :
  excmap_hyp fe -> bytesb (p_payload res) = true ->
  sget st qn = Some (VB false) -> sget st qf = Some (VN (p_fc req)) ->
  sget st rn = Some (VB false) -> sget st rf = Some (VN (p_fc res)) ->
  sget st rp = Some (vbytes (p_payload res)) ->
  match exec ge fe fuel st (exc_tail ke qn qf rn rf rp) with ONormal st' => OReturn st' None | o => o end =
  ret_with (sset st ke (VN (res_code (exception_or_protocol req res)))).
Proof.
  intros He Hb Hqn Hqf Hrn Hrf Hrp.
  unfold exc_tail, exception_or_protocol.
  cbn [exec eval evals resolve store]. unfold get_slot, set_slot. rewrite Hqn, Hqf, Hrn, Hrf, Hrp.
  cbn [rbind arith compare_v compare_n].
  destruct (p_fc res =? N.lor (p_fc req) 128).
  - unfold vbytes. rewrite map_length.
    destruct (p_payload res) as [|c [|c2 t]]; cbn [List.length map res_code rbind].
    + cbn [N.of_nat compare_v compare_n N.eqb negb store]. unfold set_slot.
      change (err_code EProtocol) with v_ErrProtocolError. destruct (sset st ke (VN v_ErrProtocolError)); reflexivity.
    + apply bytesb_cons in Hb as [Hc _].
      cbn [N.of_nat Pos.of_succ_nat compare_v compare_n N.eqb Pos.eqb negb].
      rewrite Hrn, Hrp. cbn [rbind vbytes map nth_error N.to_nat]. rewrite (He c Hc). cbn [rbind store].
      rewrite err_value_exc_err. unfold set_slot. destruct (sset st ke _); reflexivity.
    + unfold compare_v, compare_n.
      replace (N.of_nat (S (S (List.length t))) =? 1) with false by lia. cbn [negb store]. unfold set_slot.
      change (err_code EProtocol) with v_ErrProtocolError. destruct (sset st ke (VN v_ErrProtocolError)); reflexivity.
  - cbn [rbind res_code store]. unfold set_slot.
    change (err_code EProtocol) with v_ErrProtocolError. destruct (sset st ke (VN v_ErrProtocolError)); reflexivity.
Qed.

(* The request is in the four slots after [ke], the response goes to the four
   after those; [okb] is what the method does with a response to its own
   function code. *)
Definition reply_tail (ke : nat) (okb : stmt) : stmt :=
  SSeq (SCall "ModbusClient.executeRequest"
          (ECons (EVar 0) (ECons (EVar 1) (ECons (EVar 2) (ECons (EVar 3)
             (ECons (EDeref (EVar (ke + 1)) (EVar (ke + 2))) (ECons (EVar (ke + 3)) (ECons (EVar (ke + 4)) ENil)))))))
          [LVar 0; LVar 1; LVar 2; LVar 3; LVar (ke + 5); LVar (ke + 6); LVar (ke + 7); LVar (ke + 8); LVar (ke + 0)])
 (SSeq (SIf (ECmp CNe (EVar (ke + 0)) (EN 0)) (SReturn ENil) SSkip)
 (SSeq (SIf (ECmp CEq (EDeref (EVar (ke + 5)) (EVar (ke + 7))) (EDeref (EVar (ke + 1)) (EVar (ke + 3)))) okb
            (exc_tail (ke + 0) (ke + 1) (ke + 3) (ke + 5) (ke + 7) (ke + 8)))
       (SReturn ENil))).

(* [reply_tail] as it stands in a method's body *)
Ltac fold_reply_tail ke :=
  match goal with
  | |- context [SSeq (SCall "ModbusClient.executeRequest" ?a ?d)
                  (SSeq (SIf (ECmp CNe (EVar ke) (EN 0)) (SReturn ENil) SSkip) (SSeq (SIf ?c ?okb ?e) (SReturn ENil)))] =>
      change (SSeq (SCall "ModbusClient.executeRequest" a d)
                (SSeq (SIf (ECmp CNe (EVar ke) (EN 0)) (SReturn ENil) SSkip) (SSeq (SIf c okb e) (SReturn ENil))))
        with (reply_tail ke okb)
  end.

Section ReplyTail.
  Variables (fe : fenv) (fuel : nat) (X : pdu -> treply) (cfg : ccfg) (tt : N).
  Variables (pre post : list val) (req : pdu) (okb : stmt).
  Hypotheses (Hx : exec_hyp fe X) (He : excmap_hyp fe).

  (* the state of a method around the call: the receiver fields, the
     parameters and results [pre], err, the request, the response, locals [post] *)
  Definition frame (e : N) (qp rn ru rf rp : val) : state :=
    (mc_fields cfg tt ++ pre ++
     VN e :: VB false :: VN (p_unit req) :: VN (p_fc req) :: qp :: rn :: ru :: rf :: rp :: post)%list.

  Let ke := (4 + List.length pre)%nat.

  Lemma frame_get e qp rn ru rf rp k :
    sget (frame e qp rn ru rf rp) (ke + k) =
    sget (VN e :: VB false :: VN (p_unit req) :: VN (p_fc req) :: qp :: rn :: ru :: rf :: rp :: post) k.
  Proof. unfold frame, mc_fields, ke. cbn [app Nat.add sget]. apply sget_app. Qed.

  Lemma frame_set_err e qp rn ru rf rp e' :
    sset (frame e qp rn ru rf rp) (ke + 0) (VN e') = Some (frame e' qp rn ru rf rp).
  Proof. unfold frame, mc_fields, ke. cbn [app Nat.add sset]. rewrite sset_app. reflexivity. Qed.

  Lemma exec_call_frame e0 r1 r2 r3 r4 rn ru rf rp c :
    enc_reply (X req) = [rn; ru; rf; rp; VN c] ->
    exec ge fe fuel (frame e0 (vbytes (p_payload req)) r1 r2 r3 r4)
      (SCall "ModbusClient.executeRequest"
          (ECons (EVar 0) (ECons (EVar 1) (ECons (EVar 2) (ECons (EVar 3)
             (ECons (EDeref (EVar (ke + 1)) (EVar (ke + 2))) (ECons (EVar (ke + 3)) (ECons (EVar (ke + 4)) ENil)))))))
          [LVar 0; LVar 1; LVar 2; LVar 3; LVar (ke + 5); LVar (ke + 6); LVar (ke + 7); LVar (ke + 8); LVar (ke + 0)]) =
    ONormal (frame c (vbytes (p_payload req)) rn ru rf rp).
  Proof.
    intros Er. destruct (Hx cfg tt req) as [Hcall _]. rewrite Er in Hcall.
    unfold frame, mc_fields, ke in *. cbn [app] in Hcall.
    cbn [exec resolves resolve rbind evals eval Nat.add app]. unfold get_slot.
    cbn [sget]. rewrite !sget_app. cbn [sget rbind]. rewrite Hcall.
    cbn [rbind stores store set_slot sset]. unfold set_slot. cbn [sset].
    repeat (rewrite sset_app; cbn [sset option_map rbind]). reflexivity.
  Qed.

  (* What a method returns from the call on: [xchg_out] on its request. The
     validation [W] of the method is its own check [V] of a response with its
     function code, and [exception_or_protocol] otherwise. [fin] reads the
     results off the final state, [out] is what the caller sees: a return
     with err set hands back err; the method's own check is left. *)
  Lemma exec_reply_tail (fin : outcome -> res (list val)) (out : sout -> res (list val)) W V e0 l r1 r2 r3 r4 :
    (forall res, W req res = if p_fc res =? p_fc req then V res else exception_or_protocol req res) ->
    l = map VN (p_payload req) ->
    (forall e a b c d, fin (OReturn (frame e (VL l) a b c d) None) = out (SCode e)) ->
    (forall res, bytesb (p_payload res) = true ->
       fin (match exec ge fe fuel (frame 0 (VL l) (VB false) (VN (p_unit res)) (VN (p_fc res)) (vbytes (p_payload res))) okb with
            | ONormal st' => OReturn st' None
            | o => o
            end) = out (sout_of (V res))) ->
    fin (exec ge fe fuel (frame e0 (VL l) r1 r2 r3 r4) (reply_tail ke okb)) = out (xchg_out (MOk req) X W).
  Proof.
    intros HW -> Herr Hok. unfold reply_tail, xchg_out.
    pose proof (exec_wf fe X req Hx) as Hwf.
    destruct (X req) as [res|c rnil ru rf rp] eqn:EX; cbn [treply_wf] in Hwf.
    - erewrite seq_normal by (apply exec_call_frame; rewrite EX; reflexivity).
      cbn [exec eval]. unfold get_slot. repeat (rewrite frame_get; cbn [sget rbind compare_v compare_n N.eqb negb]).
      rewrite HW. destruct (p_fc res =? p_fc req); [exact (Hok res Hwf)|].
      rewrite (exec_exc_tail fe fuel _ _ _ _ _ _ _ req res He Hwf) by (rewrite frame_get; reflexivity).
      rewrite sout_of_eop, frame_set_err. apply Herr.
    - erewrite seq_normal by (apply exec_call_frame; rewrite EX; reflexivity).
      cbn [exec eval]. unfold get_slot. rewrite frame_get. cbn [sget rbind compare_v compare_n].
      replace (c =? 0) with false by lia. apply Herr.
  Qed.
End ReplyTail.
