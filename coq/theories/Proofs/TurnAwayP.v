(* Proofs about Model/TurnAway.v: Stop on a server at its connection limit,
   with connections served and connections turned away, whatever their peers
   have sent (nothing, the first bytes of a request, whole requests). *)
From Coq Require Import List Arith Bool Lia.
Import ListNotations.
From Modbus Require Import Base.Trace Model.Slots Model.TurnAway Proofs.SlotsP.

(* run_snoc of Base/Trace.v in terms of ta_run, for rewriting *)
Lemma ta_run_snoc b tr l : ta_run b (tr ++ [l]) = ta_step (ta_run b tr) l.
Proof. apply run_snoc. Qed.

(* the system extends Slots.v in the sense of SlotsP.v, section Extension *)
Lemma ta_step_srv b l :
  ta_srv (ta_step b l) = ta_srv b \/
  exists x, l = ASrv x /\ ta_srv (ta_step b l) = step (ta_srv b) x.
Proof.
  destruct l as [x|c].
  - destruct x; try (right; eexists; split; reflexivity).
    unfold ta_step. destruct (ta_live b c); [|left; reflexivity].
    right. eexists. split; reflexivity.
  - left. reflexivity.
Qed.

Lemma ta_reach_proj m tr : exists tr', ta_srv (ta_run (ta_init m) tr) = run (init m) tr'.
Proof. exact (ext_reach_proj ta_step ta_srv ASrv ta_step_srv (ta_init m) tr). Qed.

Lemma ta_reachable_inv m tr : Inv (ta_srv (ta_run (ta_init m) tr)).
Proof. exact (ext_inv_run ta_step ta_srv ASrv ta_step_srv (ta_init m) tr (inv_init m)). Qed.

Lemma ta_stopped_all_closed m tr c :
  let b := ta_run (ta_init m) tr in
  started (ta_srv b) = false -> ta_accepted b c = true ->
  ta_peer_closed b c = true /\ ta_live b c = false.
Proof.
  cbn zeta. intros Hs Ha. unfold ta_accepted in Ha.
  pose proof (ta_reachable_inv m tr) as I.
  assert (E : StoppedClosed (ta_srv (ta_run (ta_init m) tr)))
    by (destruct (ta_reach_proj m tr) as [tr' ->]; apply reachable_stopped_closed).
  set (b := ta_run (ta_init m) tr) in *.
  assert (Hc : closed (ta_srv b) c = true).
  { destruct (stat (ta_srv b) c) eqn:St; try discriminate.
    - apply (E Hs), (inv_members _ I). left. exact St.
    - apply (E Hs), (inv_members _ I). right. exact St.
    - apply (inv_closed _ I c). left. exact St.
    - apply (inv_closed _ I c). right. exact St. }
  split; [exact Hc|]. unfold ta_live. rewrite Hc. apply andb_false_r.
Qed.

Lemma accepted_after_stop b c :
  ta_accepted (ta_step b (ASrv Stop)) c = ta_accepted b c.
Proof.
  unfold ta_accepted. cbn [ta_step ta_srv]. unfold step. cbn [enabled negb].
  destruct (started (ta_srv b)); cbn [negb]; [|reflexivity].
  cbn [stat]. unfold drop_queued. destruct (stat (ta_srv b) c); reflexivity.
Qed.

Lemma ta_write_needs_live b l :
  (ta_calls (ta_step b l) = ta_calls b /\ ta_wrote (ta_step b l) = ta_wrote b) \/
  (exists c, l = ASrv (Req c) /\ ta_live b c = true /\
             ta_calls (ta_step b l) = S (ta_calls b) /\
             ta_wrote (ta_step b l) = upd (ta_wrote b) c (S (ta_wrote b c))).
Proof.
  destruct l as [x|c].
  - destruct x; try (left; split; reflexivity).
    unfold ta_step. destruct (ta_live b c) eqn:E; [|left; split; reflexivity].
    right. exists c. repeat split. exact E.
  - left. split; reflexivity.
Qed.

(* ext_frozen for the pair of the counter and the responses; ta_live b c is
   enabled (ta_srv b) (Req c) *)
Lemma silent_while_stopped tr' b : Inv (ta_srv b) -> started (ta_srv b) = false ->
  (forall l, In l tr' -> l <> ASrv Start) ->
  ta_calls (ta_run b tr') = ta_calls b /\ ta_wrote (ta_run b tr') = ta_wrote b /\
  started (ta_srv (ta_run b tr')) = false.
Proof.
  intros I Hs Hn.
  destruct (ext_frozen ta_step ta_srv ASrv ta_step_srv (fun b => (ta_calls b, ta_wrote b))) with (tr := tr') (b := b)
    as [E Hs']; try assumption.
  - intros b' l. destruct (ta_write_needs_live b' l) as [[H1 H2]|(c & El & L & _)].
    + left. rewrite H1, H2. reflexivity.
    + right. exists c. split; [exact El|exact L].
  - injection E as E1 E2. split; [exact E1|]. split; [exact E2|exact Hs'].
Qed.

(* the statuses of a connection that has joined the active list at some time
   (listed of SlotsP.v: is on it) *)
Definition was_served (v : cstat) : bool :=
  match v with Serving | Ended | Removed => true | _ => false end.

Lemma served_stays s l c : was_served (stat s c) = true -> was_served (stat (step s l) c) = true.
Proof.
  intros H. destruct (stat_step s l c) as [->|E]; [exact H|].
  destruct E; try discriminate H; reflexivity.
Qed.

Definition WroteServed (b : ta_state) : Prop :=
  forall c, ta_wrote b c <> 0 -> was_served (stat (ta_srv b) c) = true.

Lemma wrote_served_step b l : WroteServed b -> WroteServed (ta_step b l).
Proof.
  intros W. destruct l as [x|d].
  - destruct x; try (intros e He; cbn [ta_step ta_srv ta_wrote] in *; apply served_stays; apply W; exact He).
    unfold ta_step. destruct (ta_live b c) eqn:L; [|exact W].
    intros d Hd. cbn [ta_srv ta_wrote] in *. rewrite step_req.
    upd_cases d c.
    + unfold ta_live in L. apply andb_true_iff in L as [L _]. apply stat_eqb_eq in L. rewrite L. reflexivity.
    + apply W. exact Hd.
  - exact W.
Qed.

Lemma wrote_served_reachable m tr : WroteServed (ta_run (ta_init m) tr).
Proof.
  apply (run_keeps ta_step WroteServed).
  - intros b l. apply wrote_served_step.
  - intros c H. cbn in H. congruence.
Qed.
