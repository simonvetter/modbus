(* Proofs about Model/Encoding.v: round trips, bijection, reference layout.
   The encoders list the base-256 digits `byte_of v k` of a value in one of four
   orders and the decoders take the value of such a list in the inverse order,
   so all of it follows from the two directions of "digits <-> value" (be_digits,
   byte_of_le_val): no proof does arithmetic on more than one digit at a time. *)
From Modbus Require Import Base.Bytes Model.Encoding Spec.ModbusSpec.

Lemma byte_of_0 v : byte_of v 0 = v mod 256.
Proof. unfold byte_of. change (2 ^ (8 * 0)) with 1. rewrite N.div_1_r. reflexivity. Qed.

Lemma byte_of_succ v k : byte_of v (N.succ k) = byte_of (v / 256) k.
Proof.
  unfold byte_of. rewrite N.div_div by (try apply N.pow_nonzero; lia).
  replace (8 * N.succ k) with (8 + 8 * k) by lia. rewrite N.pow_add_r. reflexivity.
Qed.

(* Proofs/CrcP.v has the same function under the same name for the statements
   of C06; the two files do not depend on each other. *)
Fixpoint le_val (l : list N) : N :=
  match l with [] => 0 | b :: t => b + 256 * le_val t end.

Definition digits (n : nat) (v : N) : list N := map (fun k => byte_of v (N.of_nat k)) (seq 0 n).

Lemma be_val_le l : be_val l = le_val (rev l).
Proof.
  rewrite <- (rev_involutive l) at 1. generalize (rev l) as m. unfold be_val.
  induction m as [|b t IH]; [reflexivity|].
  cbn [rev le_val]. rewrite fold_left_app, IH. cbn [fold_left]. lia.
Qed.

Lemma le_val_digits n : forall v, v < 256 ^ N.of_nat n -> le_val (digits n v) = v.
Proof.
  unfold digits. induction n as [|n IH]; intros v Hv.
  - cbn in *. lia.
  - cbn [seq map le_val]. change (N.of_nat 0) with 0. rewrite byte_of_0, <- seq_shift, map_map.
    rewrite (map_ext _ (fun k => byte_of (v / 256) (N.of_nat k)))
      by (intros k; rewrite Nat2N.inj_succ; apply byte_of_succ).
    rewrite IH; [lia|]. rewrite Nat2N.inj_succ, N.pow_succ_r' in Hv.
    remember (256 ^ N.of_nat n) as p eqn:Hp. clear - Hv. lia.
Qed.

Lemma be_digits n v : v < 256 ^ N.of_nat n -> be_val (rev (digits n v)) = v.
Proof. intros Hv. rewrite be_val_le, rev_involutive. apply le_val_digits, Hv. Qed.

Lemma le_val_bound l : bytesb l = true -> le_val l < 256 ^ N.of_nat (length l).
Proof.
  induction l as [|b t IH]; intros Hl; [cbn; lia|].
  apply bytesb_cons in Hl as [Hb Ht]. specialize (IH Ht).
  cbn [length le_val]. rewrite Nat2N.inj_succ, N.pow_succ_r'.
  remember (256 ^ N.of_nat (length t)) as p. clear - Hb IH. lia.
Qed.

Lemma byte_of_le_val l : bytesb l = true -> forall k, byte_of (le_val l) k = nth (N.to_nat k) l 0.
Proof.
  induction l as [|b t IH]; intros Hl k.
  - unfold byte_of. cbn [le_val]. rewrite N.div_0_l by (apply N.pow_nonzero; lia).
    destruct (N.to_nat k); reflexivity.
  - apply bytesb_cons in Hl as [Hb Ht]. cbn [le_val].
    destruct k as [|k] using N.peano_ind.
    + rewrite byte_of_0. cbn [N.to_nat nth]. lia.
    + rewrite byte_of_succ, N2Nat.inj_succ. cbn [nth]. rewrite <- (IH Ht). f_equal. lia.
Qed.

Lemma be_digits2 v : v < 65536 -> be_val [byte_of v 1; byte_of v 0] = v.
Proof. exact (be_digits 2 v). Qed.

Lemma be_digits4 v : v < 2 ^ 32 -> be_val [byte_of v 3; byte_of v 2; byte_of v 1; byte_of v 0] = v.
Proof. exact (be_digits 4 v). Qed.

Lemma be_digits8 v : v < 2 ^ 64 ->
  be_val [byte_of v 7; byte_of v 6; byte_of v 5; byte_of v 4;
          byte_of v 3; byte_of v 2; byte_of v 1; byte_of v 0] = v.
Proof. exact (be_digits 8 v). Qed.

(* a decoded value is below 256^n and its digits are the bytes it was decoded from *)
Ltac bytes_hyps := unfold bytesb, is_byte; cbn [forallb]; lia.
Ltac decoded_digits :=
  rewrite be_val_le; cbn [rev app];
  split; [refine (le_val_bound _ _); bytes_hyps
         |rewrite !byte_of_le_val by bytes_hyps; reflexivity].

Lemma word_bytes_digits e v k :
  word_bytes e ((v / 2 ^ (16 * k)) mod 65536) =
  match e with BigE => [byte_of v (2 * k + 1); byte_of v (2 * k)]
             | LittleE => [byte_of v (2 * k); byte_of v (2 * k + 1)] end.
Proof.
  unfold byte_of.
  replace (8 * (2 * k + 1)) with (16 * k + 8) by lia. replace (8 * (2 * k)) with (16 * k) by lia.
  rewrite N.pow_add_r, <- N.div_div by (try apply N.pow_nonzero; lia).
  generalize (v / 2 ^ (16 * k)) as x. intros x. change (2 ^ 8) with 256.
  destruct e; cbn [word_bytes]; f_equal; [|f_equal| |f_equal]; lia.
Qed.

Ltac layout_digits :=
  unfold spec_bytes, layout, words_of; cbn [seq rev app map flat_map];
  rewrite !word_bytes_digits; reflexivity.

Lemma byte_of_byte v k : is_byte (byte_of v k) = true.
Proof. apply N.ltb_lt. unfold byte_of. lia. Qed.

Ltac digits_are_bytes := cbv beta delta [bytesb u16_to_bytes u32_to_bytes u64_to_bytes] iota; cbn [forallb];
  rewrite !byte_of_byte; reflexivity.

Lemma u16_roundtrip e v : v < 65536 -> bytes_to_u16 e (u16_to_bytes e v) = Some v.
Proof.
  intros Hv. rewrite <- (be_digits2 v Hv) at 2. unfold be_val.
  destruct e; cbn [u16_to_bytes bytes_to_u16 fold_left]; f_equal; lia.
Qed.

Lemma u16_inverse e a b : a < 256 -> b < 256 ->
  exists v, bytes_to_u16 e [a; b] = Some v /\ v < 65536 /\ u16_to_bytes e v = [a; b].
Proof.
  intros Ha Hb. exists (be_val (match e with BigE => [a; b] | LittleE => [b; a] end)).
  split; [destruct e; unfold be_val; cbn [bytes_to_u16 fold_left]; f_equal; lia|].
  destruct e; unfold u16_to_bytes; decoded_digits.
Qed.

(* encoder and documented layout take the same digits of any number: the bound
   on v, under which C17 states the layout, plays no part here nor in
   u32_layout and u64_layout *)
Lemma u16_layout e v : v < 65536 -> u16_to_bytes e v = spec_bytes 1 e HighFirst v.
Proof. intros _. destruct e; layout_digits. Qed.

Lemma u16_to_bytes_len e v : length (u16_to_bytes e v) = 2%nat.
Proof. destruct e; reflexivity. Qed.

Lemma u16_to_bytes_bytes e v : bytesb (u16_to_bytes e v) = true.
Proof. destruct e; digits_are_bytes. Qed.

Lemma u16s_roundtrip e vs : Forall (fun v => v < 65536) vs ->
  bytes_to_u16s e (u16s_to_bytes e vs) = Some vs.
Proof.
  induction 1 as [|v vs Hv _ IH]; [reflexivity|].
  unfold u16s_to_bytes in *. cbn [flat_map]. rewrite <- (be_digits2 v Hv) at 2. unfold be_val.
  destruct e; cbn [u16_to_bytes app bytes_to_u16s fold_left]; rewrite IH; f_equal; f_equal; lia.
Qed.

Lemma u16s_to_bytes_len e vs : length (u16s_to_bytes e vs) = (2 * length vs)%nat.
Proof.
  induction vs as [|v vs IH]; [reflexivity|]. unfold u16s_to_bytes in *.
  cbn [flat_map]. rewrite app_length, IH, u16_to_bytes_len. cbn [length]. lia.
Qed.

Lemma bytes_to_u16s_total e l : Nat.even (length l) = true ->
  exists vs, bytes_to_u16s e l = Some vs /\ length l = (2 * length vs)%nat.
Proof.
  induction l as [|a|a b t IH] using list_ind2; intros He.
  - exists []. split; reflexivity.
  - discriminate.
  - cbn [length Nat.even] in He. destruct (IH He) as [vs [Hvs Hl]].
    cbn [bytes_to_u16s]. rewrite Hvs. eexists; split; [reflexivity|]. cbn [length]. lia.
Qed.

Lemma bytes_to_u16s_ragged e l : Nat.even (length l) = false -> bytes_to_u16s e l = None.
Proof.
  induction l as [|a|a b t IH] using list_ind2; intros He.
  - discriminate.
  - reflexivity.
  - cbn [length Nat.even] in He. cbn [bytes_to_u16s]. rewrite (IH He). reflexivity.
Qed.

(* whatever the order, decoding what was encoded reads the digits most significant first *)
Lemma u32_dec_enc e w v t : v < 2 ^ 32 ->
  bytes_to_u32s e w (u32_to_bytes e w v ++ t) =
  match bytes_to_u32s e w t with Some r => Some (v :: r) | None => None end.
Proof.
  intros Hv.
  destruct e, w; cbn [u32_to_bytes app bytes_to_u32s]; unfold dec_u32; rewrite (be_digits4 v Hv);
    reflexivity.
Qed.

Lemma u32_roundtrip e w v : v < 2 ^ 32 ->
  bytes_to_u32s e w (u32_to_bytes e w v) = Some [v].
Proof. intros Hv. rewrite <- (app_nil_r (u32_to_bytes e w v)). apply (u32_dec_enc e w v [] Hv). Qed.

Lemma u32_inverse e w a b c d : a < 256 -> b < 256 -> c < 256 -> d < 256 ->
  dec_u32 e w a b c d < 2 ^ 32 /\
  u32_to_bytes e w (dec_u32 e w a b c d) = [a; b; c; d].
Proof. intros. destruct e, w; unfold dec_u32, u32_to_bytes; decoded_digits. Qed.

Lemma u32_layout e w v : v < 2 ^ 32 -> u32_to_bytes e w v = spec_bytes 2 e w v.
Proof. intros _. destruct e, w; layout_digits. Qed.

Lemma u32_to_bytes_len e w v : length (u32_to_bytes e w v) = 4%nat.
Proof. destruct e, w; reflexivity. Qed.

Lemma u32_to_bytes_bytes e w v : bytesb (u32_to_bytes e w v) = true.
Proof. destruct e, w; digits_are_bytes. Qed.

Lemma u32s_roundtrip e w vs : Forall (fun v => v < 2 ^ 32) vs ->
  bytes_to_u32s e w (flat_map (u32_to_bytes e w) vs) = Some vs.
Proof.
  induction 1 as [|v vs Hv _ IH]; [reflexivity|].
  cbn [flat_map]. rewrite u32_dec_enc, IH by exact Hv. reflexivity.
Qed.

Lemma u64_dec_enc e w v t : v < 2 ^ 64 ->
  bytes_to_u64s e w (u64_to_bytes e w v ++ t) =
  match bytes_to_u64s e w t with Some r => Some (v :: r) | None => None end.
Proof.
  intros Hv.
  destruct e, w; cbn [u64_to_bytes app bytes_to_u64s]; unfold dec_u64; rewrite (be_digits8 v Hv);
    reflexivity.
Qed.

Lemma u64_roundtrip e w v : v < 2 ^ 64 ->
  bytes_to_u64s e w (u64_to_bytes e w v) = Some [v].
Proof. intros Hv. rewrite <- (app_nil_r (u64_to_bytes e w v)). apply (u64_dec_enc e w v [] Hv). Qed.

Lemma u64_inverse e w i0 i1 i2 i3 i4 i5 i6 i7 :
  i0 < 256 -> i1 < 256 -> i2 < 256 -> i3 < 256 ->
  i4 < 256 -> i5 < 256 -> i6 < 256 -> i7 < 256 ->
  dec_u64 e w i0 i1 i2 i3 i4 i5 i6 i7 < 2 ^ 64 /\
  u64_to_bytes e w (dec_u64 e w i0 i1 i2 i3 i4 i5 i6 i7) = [i0; i1; i2; i3; i4; i5; i6; i7].
Proof. intros. destruct e, w; unfold dec_u64, u64_to_bytes; decoded_digits. Qed.

Lemma u64_layout e w v : v < 2 ^ 64 -> u64_to_bytes e w v = spec_bytes 4 e w v.
Proof. intros _. destruct e, w; layout_digits. Qed.

Lemma u64_to_bytes_len e w v : length (u64_to_bytes e w v) = 8%nat.
Proof. destruct e, w; reflexivity. Qed.

Lemma u64_to_bytes_bytes e w v : bytesb (u64_to_bytes e w v) = true.
Proof. destruct e, w; digits_are_bytes. Qed.

Lemma u64s_roundtrip e w vs : Forall (fun v => v < 2 ^ 64) vs ->
  bytes_to_u64s e w (flat_map (u64_to_bytes e w) vs) = Some vs.
Proof.
  induction 1 as [|v vs Hv _ IH]; [reflexivity|].
  cbn [flat_map]. rewrite u64_dec_enc, IH by exact Hv. reflexivity.
Qed.
