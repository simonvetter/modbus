(* udp.go (udpSockWrapper), tls_utils.go (tlsSockWrapper) and serial.go
   (serialPortWrapper) as translated from the Go source: vocabulary of the
   statements. The wrapped socket / port is a set of external functions over the
   state of the world. *)
From Coq Require Import List NArith String Lia Bool.
Import ListNotations.
From Modbus Require Import Base.Bytes Model.GoLite Gen.SrcPure Model.Wire Model.Transport Replay.SrcReplayLib.
From Modbus Require Import Proofs.GoLiteP Proofs.GoLiteLinkP Proofs.SrcCrcP Proofs.SrcMiscP Proofs.SrcClientP Proofs.SrcTransportP.
Open Scope string_scope.
Open Scope N_scope.

Definition sock_hyp (fe : fenv) (T : tworld) : Prop :=
  (forall w n, fe "sock.Read" [w; VN n] = let '(w', got, e) := t_readfull T w n in GOk [w'; vbytes got; VN e]) /\
  (forall w bs, fe "sock.Write" [w; vbytes bs] = let '(w', n, e) := t_write T w bs in GOk [w'; VN n; VN e]) /\
  (forall w, fe "sock.Close" [w] = GOk [fst (t_close T w); VN (snd (t_close T w))]) /\
  (forall w t, fe "sock.SetDeadline" [w; VN t] = GOk [fst (t_setdl T w t); VN (snd (t_setdl T w t))]).

Definition sock_base (T : tworld) : fenv := fun name args =>
  let is s := String.eqb name s in
  if is "sock.Read" then
    match args with [w; VN n] => let '(w', got, e) := t_readfull T w n in GOk [w'; vbytes got; VN e] | _ => Stuck end
  else if is "sock.Write" then
    match args with [w; VL l] => let '(w', n, e) := t_write T w (unbytes l) in GOk [w'; VN n; VN e] | _ => Stuck end
  else if is "sock.Close" then
    match args with [w] => GOk [fst (t_close T w); VN (snd (t_close T w))] | _ => Stuck end
  else if is "sock.SetDeadline" then
    match args with [w; VN t] => GOk [fst (t_setdl T w t); VN (snd (t_setdl T w t))] | _ => Stuck end
  else Stuck.

Lemma sock_hyp_env base T caller fuel : sock_hyp base T -> sock_hyp (env_in_with src_pure base caller fuel) T.
Proof. intros (H1 & H2 & H3 & H4). repeat split; intros; rewrite env_ext by reflexivity; auto. Qed.

Definition out_udp_read (T : tworld) (left : N) (rxbuf buf : list N) (w : val) : GoLite.res (list val) :=
  let '(left', rxbuf', buf', w', rlen, e) := t_udp_read T left rxbuf buf w in
  GOk [VN left'; vbytes rxbuf'; vbytes buf'; w'; VN rlen; VN e].

Definition out_udp_write (T : tworld) (left : N) (rxbuf buf : list N) (w : val) : GoLite.res (list val) :=
  let '(w', n, e) := t_write T w buf in GOk [VN left; vbytes rxbuf; w'; VN n; VN e].

Definition out_udp_close (T : tworld) (left : N) (rxbuf : list N) (w : val) : GoLite.res (list val) :=
  GOk [VN left; vbytes rxbuf; fst (t_close T w); VN (snd (t_close T w))].

Definition out_udp_setdl (T : tworld) (left : N) (rxbuf : list N) (d : N) (w : val) : GoLite.res (list val) :=
  GOk [VN left; vbytes rxbuf; fst (t_setdl T w d); VN (snd (t_setdl T w d))].

Definition out_tls_read (T : tworld) (buf : list N) (w : val) : GoLite.res (list val) :=
  let '(buf', w', rlen, e) := t_tls_read T buf w in GOk [vbytes buf'; w'; VN rlen; VN e].

Definition out_tls_write (T : tworld) (buf : list N) (w : val) : GoLite.res (list val) :=
  let '(w', n, e) := t_tls_write T 2 buf w in GOk [w'; VN n; VN e].

Definition out_tls_close (T : tworld) (w : val) : GoLite.res (list val) :=
  GOk [fst (t_close T w); VN (snd (t_close T w))].

Definition out_tls_setdl (T : tworld) (d : N) (w : val) : GoLite.res (list val) :=
  GOk [fst (t_setdl T w d); VN (snd (t_setdl T w d))].

(* the interpreter on the linked program agrees with the model on concrete worlds *)
(* a socket that hands out the world's bytes [chunk] at a time (a datagram is never larger than that) *)
Definition dgram_world (chunk : N) (err : N) : tworld := {|
  t_now := fun w => (w, 0);
  t_sleep := fun w _ => w;
  t_setdl := fun w d => (w, d mod 2);
  t_write := fun w bs => (VL [w; vbytes bs], lenN bs, err);
  t_readfull := fun w n =>
    let s := match w with VL l => unbytes l | _ => [] end in
    match s with
    | [] => (w, [], 2)
    | _ => let k := N.to_nat (N.min chunk n) in (vbytes (skipn k s), firstn k s, 0)
    end;
  t_close := fun w => (VL [w], 7)
|}.

Definition zeros (n : nat) : list N := repeat 0 n.
Definition udp_tests : list (N * list N * list N * list N) :=
  [(0, zeros 10, zeros 4, [1; 2; 3; 4; 5; 6; 7; 8; 9]); (0, zeros 10, zeros 7, [1; 2; 3; 4; 5; 6; 7; 8; 9]);
   (3, [7; 8; 9; 0; 0; 0], zeros 2, [1]); (3, [7; 8; 9; 0; 0; 0], zeros 3, [1]); (3, [7; 8; 9; 0; 0; 0], zeros 5, [1]);
   (0, zeros 10, zeros 4, []); (0, zeros 10, [], [1; 2]); (1, [5; 0], zeros 1, [])].

Example sanity_udp_read :
  forallb (fun c => let '(lft, rx, buf, s) := c in
     res_eqb (call_with src_pure (sock_base (dgram_world 6 0)) 50 "udpSockWrapper.Read" [VN lft; vbytes rx; vbytes buf; vbytes s])
             (out_udp_read (dgram_world 6 0) lft rx buf (vbytes s))) udp_tests = true.
Proof. vm_compute. reflexivity. Qed.

Example sanity_udp_others :
  andb (res_eqb (call_with src_pure (sock_base (dgram_world 6 3)) 50 "udpSockWrapper.Write" [VN 2; vbytes [1; 2]; vbytes [9; 8]; VN 5])
                (out_udp_write (dgram_world 6 3) 2 [1; 2] [9; 8] (VN 5)))
  (andb (res_eqb (call_with src_pure (sock_base (dgram_world 6 3)) 50 "udpSockWrapper.Close" [VN 2; vbytes [1; 2]; VN 5])
                (out_udp_close (dgram_world 6 3) 2 [1; 2] (VN 5)))
        (res_eqb (call_with src_pure (sock_base (dgram_world 6 3)) 50 "udpSockWrapper.SetDeadline" [VN 2; vbytes [1; 2]; VN 77; VN 5])
                (out_udp_setdl (dgram_world 6 3) 2 [1; 2] 77 (VN 5)))) = true.
Proof. vm_compute. reflexivity. Qed.

Example sanity_tls :
  forallb (fun b => b)
    [res_eqb (call_with src_pure (sock_base (dgram_world 3 0)) 50 "tlsSockWrapper.Read" [vbytes (zeros 5); vbytes [1; 2; 3; 4]])
             (out_tls_read (dgram_world 3 0) (zeros 5) (vbytes [1; 2; 3; 4]));
     res_eqb (call_with src_pure (sock_base (dgram_world 3 0)) 50 "tlsSockWrapper.Read" [vbytes (zeros 5); vbytes []])
             (out_tls_read (dgram_world 3 0) (zeros 5) (vbytes []));
     res_eqb (call_with src_pure (sock_base (dgram_world 3 0)) 50 "tlsSockWrapper.Write" [vbytes [4; 5]; VN 1])
             (out_tls_write (dgram_world 3 0) [4; 5] (VN 1));
     res_eqb (call_with src_pure (sock_base (dgram_world 3 2)) 50 "tlsSockWrapper.Write" [vbytes [4; 5]; VN 1])
             (out_tls_write (dgram_world 3 2) [4; 5] (VN 1));
     res_eqb (call_with src_pure (sock_base (dgram_world 3 9)) 50 "tlsSockWrapper.Write" [vbytes [4; 5]; VN 1])
             (out_tls_write (dgram_world 3 9) [4; 5] (VN 1));
     res_eqb (call_with src_pure (sock_base (dgram_world 3 9)) 50 "tlsSockWrapper.Close" [VN 1])
             (out_tls_close (dgram_world 3 9) (VN 1));
     res_eqb (call_with src_pure (sock_base (dgram_world 3 9)) 50 "tlsSockWrapper.SetDeadline" [VN 33; VN 1])
             (out_tls_setdl (dgram_world 3 9) 33 (VN 1))] = true.
Proof. vm_compute. reflexivity. Qed.

Definition src_ser_tmo : N := N.of_nat (List.length src_error_codes) + 5.   (* serial.ErrTimeout *)

Definition port_hyp (fe : fenv) (T : tworld) : Prop :=
  (forall w, fe "time.Now" [w] = GOk [fst (t_now T w); VN (snd (t_now T w))]) /\
  (forall w n, fe "port.Read" [w; VN n] = let '(w', got, e) := t_readfull T w n in GOk [w'; vbytes got; VN e]) /\
  (forall w bs, fe "port.Write" [w; vbytes bs] = let '(w', n, e) := t_write T w bs in GOk [w'; VN n; VN e]) /\
  (forall w, fe "port.Close" [w] = GOk [fst (t_close T w); VN (snd (t_close T w))]).

Definition port_base (T : tworld) : fenv := fun name args =>
  let is s := String.eqb name s in
  if is "time.Now" then
    match args with [w] => GOk [fst (t_now T w); VN (snd (t_now T w))] | _ => Stuck end
  else if is "port.Read" then
    match args with [w; VN n] => let '(w', got, e) := t_readfull T w n in GOk [w'; vbytes got; VN e] | _ => Stuck end
  else if is "port.Write" then
    match args with [w; VL l] => let '(w', n, e) := t_write T w (unvn l) in GOk [w'; VN n; VN e] | _ => Stuck end
  else if is "port.Close" then
    match args with [w] => GOk [fst (t_close T w); VN (snd (t_close T w))] | _ => Stuck end
  else Stuck.

Lemma port_hyp_env base T caller fuel : port_hyp base T -> port_hyp (env_in_with src_pure base caller fuel) T.
Proof. intros (H1 & H2 & H3 & H4). repeat split; intros; rewrite env_ext by reflexivity; auto. Qed.

Definition out_serial_read (T : tworld) (deadline : N) (buf : list N) (w : val) : GoLite.res (list val) :=
  let '(buf', w', cnt, e) := t_serial_read T (c_timedout src_codes) src_ser_tmo deadline buf w in
  GOk [VN deadline; vbytes buf'; w'; VN cnt; VN e].
Definition out_serial_write (T : tworld) (deadline : N) (buf : list N) (w : val) : GoLite.res (list val) :=
  let '(w', n, e) := t_write T w buf in GOk [VN deadline; w'; VN n; VN e].
(* SetDeadline only stores the instant: the port is not touched *)
Definition out_serial_setdl (d : N) (w : val) : GoLite.res (list val) := GOk [VN d; w; VN 0].
Definition out_serial_close (T : tworld) (deadline : N) (w : val) : GoLite.res (list val) :=
  GOk [VN deadline; fst (t_close T w); VN (snd (t_close T w))].

(* a port whose clock is the first number of the world, the rest being the bytes it still has; after them a read fails with [e] *)
Definition port_world (e : N) : tworld := {|
  t_now := fun w => (w, match w with VL (VN c :: _) => c | _ => 0 end);
  t_sleep := fun w _ => w;
  t_setdl := fun w _ => (w, 0);
  t_write := fun w bs => (w, lenN bs, e);
  t_readfull := fun w n =>
    match w with
    | VL (VN c :: rest) =>
        match unbytes rest with
        | [] => (w, [], e)
        | s => let k := N.to_nat (N.min 2 n) in (VL (VN c :: map VN (skipn k s)), firstn k s, 0)
        end
    | _ => (w, [], e)
    end;
  t_close := fun w => (w, e)
|}.

Example sanity_serial :
  forallb (fun b => b)
    [res_eqb (call_with src_pure (port_base (port_world 23)) 50 "serialPortWrapper.Read" [VN 100; vbytes (zeros 4); VL [VN 50; VN 7; VN 8; VN 9]])
             (out_serial_read (port_world 23) 100 (zeros 4) (VL [VN 50; VN 7; VN 8; VN 9]));
     res_eqb (call_with src_pure (port_base (port_world 23)) 50 "serialPortWrapper.Read" [VN 100; vbytes (zeros 4); VL [VN 100; VN 7]])
             (out_serial_read (port_world 23) 100 (zeros 4) (VL [VN 100; VN 7]));
     res_eqb (call_with src_pure (port_base (port_world 23)) 50 "serialPortWrapper.Read" [VN 100; vbytes (zeros 4); VL [VN 101; VN 7]])
             (out_serial_read (port_world 23) 100 (zeros 4) (VL [VN 101; VN 7]));
     res_eqb (call_with src_pure (port_base (port_world 23)) 50 "serialPortWrapper.Read" [VN 100; vbytes (zeros 4); VL [VN 5]])
             (out_serial_read (port_world 23) 100 (zeros 4) (VL [VN 5]));
     res_eqb (call_with src_pure (port_base (port_world 9)) 50 "serialPortWrapper.Read" [VN 100; vbytes (zeros 4); VL [VN 5]])
             (out_serial_read (port_world 9) 100 (zeros 4) (VL [VN 5]));
     res_eqb (call_with src_pure (port_base (port_world 9)) 50 "serialPortWrapper.Write" [VN 100; vbytes [1; 2]; VL [VN 5]])
             (out_serial_write (port_world 9) 100 [1; 2] (VL [VN 5]));
     res_eqb (call_with src_pure (port_base (port_world 9)) 50 "serialPortWrapper.SetDeadline" [VN 100; VN 777; VL [VN 5]])
             (out_serial_setdl 777 (VL [VN 5]));
     res_eqb (call_with src_pure (port_base (port_world 9)) 50 "serialPortWrapper.Close" [VN 100; VL [VN 5]])
             (out_serial_close (port_world 9) 100 (VL [VN 5]))] = true.
Proof. vm_compute. reflexivity. Qed.
