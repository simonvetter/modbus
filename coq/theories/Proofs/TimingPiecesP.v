(* Proofs about Model/TimingPieces.v (a reply read in pieces): the send-time
   machine keeps the inter-frame silence for every history, every clock and
   every way the replies are cut into reads, PROVIDED the instant recorded as
   the end of a received frame is not earlier than the return of the read
   that consumed its last byte (sound_policy); see Properties/C19c.v. *)
From Modbus Require Import Base.Bytes Model.Timing Model.TimingPieces Proofs.TimingP.
Local Open Scope Z_scope.

Definition step_ok (xp : xchg * list piece) : Prop := admissible (fst xp) /\ Forall piece_ok (snd xp).

Lemma pieces_span_nonneg ps : Forall piece_ok ps -> 0 <= pieces_span ps.
Proof.
  induction 1 as [|p ps (_ & Hd & _) _ IH]; cbn [pieces_span fold_right]; [lia|].
  fold (pieces_span ps). lia.
Qed.

Lemma header_span_bounds ps : Forall piece_ok ps ->
  forall got, 0 <= header_span got ps /\ header_span got ps <= pieces_span ps.
Proof.
  induction 1 as [|p ps (_ & Hd & _) Hps IH]; intros got; cbn [header_span pieces_span fold_right]; [lia|].
  fold (pieces_span ps). pose proof (pieces_span_nonneg ps Hps) as Hs.
  destruct (3 <=? got + pc_len p); [lia|].
  specialize (IH (got + pc_len p)). lia.
Qed.

Lemma pieces_early_nonneg ps : Forall piece_ok ps -> 0 <= pieces_early ps.
Proof.
  unfold pieces_early. induction 1 as [|p ps Hp Hps IH]; [cbn; lia|].
  destruct ps as [|q ps']; [cbn [last]; destruct Hp as (_ & _ & He); exact He|].
  exact IH.
Qed.

Lemma plan_reads_ok segs : plan_ok segs -> Forall piece_ok (plan_reads segs).
Proof.
  unfold plan_ok, plan_reads. induction 1 as [|sp segs (Hl & Hp) _ IH]; cbn [map]; constructor.
  - unfold piece_ok. cbn [pc_len pc_dur pc_early]. lia.
  - exact IH.
Qed.

Lemma plan_reads_early segs : pieces_early (plan_reads segs) = 0.
Proof.
  unfold pieces_early, plan_reads. induction segs as [|sp segs IH]; [reflexivity|].
  cbn [map]. destruct segs as [|sq segs']; [reflexivity|].
  cbn [map] in IH |- *. exact IH.
Qed.

(* with the code's stamp the refined machine is the machine of Model/Timing.v
   run on the reads taken together *)
Lemma exchange_p_flat t1 t35 s x ps :
  exchange_p stamp_now t1 t35 s x ps = exchange t1 t35 s (flat x ps).
Proof.
  unfold exchange_p, flat. destruct (x_out x) eqn:Eo; try reflexivity.
  unfold exchange, stamp_now.
  cbn [x_n x_out x_enter x_sleep1 x_write x_written x_sleep2 x_read x_rx x_stamp rt_now].
  f_equal; f_equal; lia.
Qed.

Lemma flat_admissible x ps : admissible x -> Forall piece_ok ps -> admissible (flat x ps).
Proof.
  intros (Hn & He & Hs1 & Hw & Hwr & Hs2 & Hr & Hrx & Hst) Hps. unfold flat.
  destruct (x_out x); unfold admissible; try (repeat split; assumption).
  pose proof (pieces_span_nonneg ps Hps). pose proof (pieces_early_nonneg ps Hps).
  cbn [x_n x_out x_enter x_sleep1 x_write x_written x_sleep2 x_read x_rx x_stamp].
  repeat split; lia.
Qed.

Lemma run_p_flat t1 t35 xs : forall s,
  run_p stamp_now t1 t35 s xs = run t1 t35 s (map (fun xp => flat (fst xp) (snd xp)) xs).
Proof.
  induction xs as [|[x ps] xs IH]; intros s; cbn [run_p run map fst snd]; [reflexivity|].
  rewrite exchange_p_flat. destruct (exchange t1 t35 s (flat x ps)) as [s' e]. rewrite IH. reflexivity.
Qed.

Lemma exchange_p_facts pol t1 t35 s x ps s' e :
  sound_policy pol -> 0 <= t1 -> 0 <= t35 -> admissible x -> Forall piece_ok ps ->
  exchange_p pol t1 t35 s x ps = (s', e) ->
  last_activity s + t35 <= ev_tx_start e /\
  last_activity s <= last_activity s' /\
  (forall f, frame_end e = Some f -> f <= last_activity s') /\
  clock s <= clock s'.
Proof.
  intros Hpol Ht1 Ht35 Hx Hps Hex.
  unfold exchange_p in Hex. destruct (x_out x) eqn:Eo;
    try (apply (exchange_facts t1 t35 s x s' e Ht1 Ht35 Hx Hex)).
  destruct Hx as (Hn & He & Hs1 & Hw & Hwr & Hs2 & Hr & Hrx & Hst).
  pose proof (pieces_span_nonneg ps Hps) as Hsp.
  pose proof (pieces_early_nonneg ps Hps) as Hea.
  destruct (header_span_bounds ps Hps 0) as [Hh0 Hh1].
  assert (Hnt : 0 <= x_n x * t1) by nia.
  cbv zeta in Hex. rewrite sleep_until in Hex. unfold sleep in Hex.
  (* the policy is only known through its soundness on the trace it is given *)
  match type of Hex with (mk_tstate _ (pol t1 ?tr), _) = _ =>
    assert (Hla : rt_last tr <= pol t1 tr)
      by (apply Hpol; [exact Ht1|unfold trace_ok; cbn [rt_call rt_header rt_last rt_now]; lia])
  end.
  cbn [rt_last] in Hla. injection Hex as <- <-.
  unfold frame_end. cbn [ev_out ev_tx_start ev_tx_end ev_rx_end last_activity clock].
  (repeat split; [| |intros f [= <-]|]); lia.
Qed.

Lemma run_p_quiet pol t1 t35 xs : sound_policy pol -> 0 <= t1 -> 0 <= t35 -> Forall step_ok xs ->
  forall s, quiet_from t35 (last_activity s) (run_p pol t1 t35 s xs).
Proof.
  intros Hpol Ht1 Ht35 Hok. induction Hok as [|[x ps] xs [Hx Hps] _ IH]; intros s; cbn [run_p]; [constructor|].
  cbn [fst snd] in Hx, Hps.
  destruct (exchange_p pol t1 t35 s x ps) as [s' e] eqn:Ex.
  destruct (exchange_p_facts pol t1 t35 s x ps s' e Hpol Ht1 Ht35 Hx Hps Ex) as (Hstart & Hmono & Hend & _).
  econstructor; [exact Hstart|exact Hmono|exact Hend|apply IH].
Qed.

Lemma run_p_silence pol t1 t35 xs s : sound_policy pol -> 0 <= t1 -> 0 <= t35 -> Forall step_ok xs ->
  ForallOrdPairs
    (fun e1 e2 => forall f, frame_end e1 = Some f -> f + t35 <= ev_tx_start e2)
    (run_p pol t1 t35 s xs).
Proof. intros Hpol Ht1 Ht35 Hok. eapply quiet_from_silence, run_p_quiet; assumption. Qed.

Lemma plan_gap_now : forall rate n segs, 1 <= rate -> rate <= 10000000 ->
  plan_gap stamp_now rate n segs = t35 rate.
Proof.
  intros rate n segs H1 H2. destruct (timing_pos rate H1 H2) as [_ Ht].
  unfold plan_gap. cbn [run_p]. unfold exchange_p, quiet_xchg, stamp_now.
  cbn [x_n x_out x_enter x_sleep1 x_write x_written x_sleep2 x_read x_rx x_stamp rt_now
       clock last_activity ev_tx_start ev_rx_end].
  rewrite !sleep_until, plan_reads_early. unfold sleep.
  remember (pieces_span (plan_reads segs)) as sp. remember (n * char_time rate) as nt.
  lia.
Qed.

Lemma plan_gap_sound : forall pol rate n segs, sound_policy pol -> 1 <= rate -> rate <= 10000000 ->
  0 <= n -> plan_ok segs -> t35 rate <= plan_gap pol rate n segs.
Proof.
  intros pol rate n segs Hpol H1 H2 Hn Hsegs.
  destruct (timing_pos rate H1 H2) as [Hc Ht].
  assert (Hc0 : 0 <= char_time rate) by lia. assert (Ht0 : 0 <= t35 rate) by lia.
  assert (Hq : admissible (quiet_xchg n)).
  { unfold admissible, quiet_xchg.
    cbn [x_n x_enter x_sleep1 x_write x_written x_sleep2 x_read x_rx x_stamp]. lia. }
  pose proof (plan_reads_ok segs Hsegs) as Hps.
  assert (Hok : Forall step_ok [(quiet_xchg n, plan_reads segs); (quiet_xchg n, plan_reads segs)]).
  { constructor; [split; assumption|]. constructor; [split; assumption|]. constructor. }
  pose proof (run_p_silence pol (char_time rate) (t35 rate) _ (mk_tstate 0 (- t35 rate))
                Hpol Hc0 Ht0 Hok) as Hsil.
  unfold plan_gap. cbn [run_p] in Hsil |- *.
  destruct (exchange_p pol (char_time rate) (t35 rate) (mk_tstate 0 (- t35 rate))
              (quiet_xchg n) (plan_reads segs)) as [s1 e1] eqn:E1.
  destruct (exchange_p pol (char_time rate) (t35 rate) s1 (quiet_xchg n) (plan_reads segs)) as [s2 e2] eqn:E2.
  inversion Hsil as [|a l Ha _]; subst. inversion Ha as [|b l' Hb _]; subst.
  assert (He1 : frame_end e1 = Some (ev_rx_end e1)).
  { unfold exchange_p, quiet_xchg in E1. cbn [x_out] in E1. inversion E1. reflexivity. }
  specialize (Hb _ He1). lia.
Qed.
