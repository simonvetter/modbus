(* server.go handleTransport, one iteration of the loop on a write-multiple
   request (function codes 15 and 16): the translated body does what the
   model's server_process says. *)
From Coq Require Import List NArith String Lia Bool.
Import ListNotations.
From Modbus Require Import Base.Bytes Model.GoLite Gen.SrcPure Model.Crc Model.Encoding.
From Modbus Require Import Model.Wire Model.Client Model.Server.
From Modbus Require Import Proofs.GoLiteP Proofs.GoLiteLinkP Proofs.SrcCrcP Proofs.SrcLinkP Proofs.SrcMiscP Proofs.SrcClientP Proofs.SrcServerP.
Open Scope string_scope.
Open Scope N_scope.
(* decode_bools_total, bytes_to_u16s_total: the decoders cannot fail behind the length checks *)
From Modbus Require Import Proofs.EncodingP Proofs.ServerP.

Lemma herr_match_exc {A} e (a : A) (f : herr -> A) : e <> HNone ->
  match e with HNone => a | HModbus c => f (HModbus c) | HProtocol => f HProtocol | HOther => f HOther end = f e.
Proof. destruct e; congruence. Qed.

(* slices and indices into the payload stay within a list that is known to
   be at least six long *)
Ltac len_leb :=
  repeat match goal with
  | |- context [?a <=? N.of_nat ?b] => replace (a <=? N.of_nat b) with true by lia
  end.

Lemma srv_iter_write_multi fe fuel W started tt ca cr w rest req :
  world_hyp fe W -> srv_callee_hyp fe -> List.length rest = 18%nat ->
  snd (w_read W w) = RdOk req -> (p_fc req = 15 \/ p_fc req = 16) ->
  srv_iter_spec fe fuel W started tt ca cr w rest req.
Proof.
  intros HW HC Hlen Hrd Hfc.
  destruct req as [u fc pl]. cbn [p_fc] in Hfc.
  apply srv_iter_by_case; try assumption. clear w rest Hlen Hrd.
  intros w1 r9 r10 r11 r12 s14 s15 s16 s17 s18 s19 s20 s21 s22 Hb.
  unfold server_process. cbn [p_fc p_payload p_unit].
  destruct Hfc as [-> | ->]; cbn [class_of N.eqb Pos.eqb orb]; cbv [srv_case].
  - (* write multiple coils *)
    gl_seq. (* var expectedLen int *)
    apply (len6_check fe fuel W HW). intros a0 a1 a2 a3 a4 a5 tl ->.
    apply bytesb_cons in Hb as [B0 Hb]. apply bytesb_cons in Hb as [B1 Hb]. apply bytesb_cons in Hb as [B2 Hb].
    apply bytesb_cons in Hb as [B3 Hb]. apply bytesb_cons in Hb as [B4 Hb].
    cbn [skipn be_word nth].
    apply (addr_qty_header fe fuel W HW HC) with (lim := 1968); try assumption. intros Eq Ea.
    set (addr := a0 * 256 + a1) in *. set (qty := a2 * 256 + a3) in *.
    (* the byte count field (one byte for 8 coils, rounded up), and the number of bytes that follow it *)
    set (expected := qty / 8 + (if qty mod 8 =? 0 then 0 else 1)).
    gl_seq. (* expectedLen = int(quantity) / 8 *)
    (* if quantity % 8 != 0 { expectedLen++ } *)
    erewrite seq_normal with
      (st1 := [started; tt; VN ca; VN cr; w1; VB false; VN u; VN 15; _; r9; r10; r11; r12; VN 0; VN addr; VN qty;
               s16; s17; VN expected; s19; s20; s21; s22]).
    2:{ rewrite (exec_if_eval _ _ _ _ _ _ _ (negb (qty mod 8 =? 0))) by (gl_run; reflexivity).
        unfold expected. destruct (qty mod 8 =? 0); gl_wrap; gl_run; rewrite ?N.add_0_r; reflexivity. }
    gl_guard. (* req.payload[4] != uint8(expectedLen) *)
    unfold u8. change (2 ^ 8) with 256.
    destruct (a4 =? expected mod 256) eqn:Ebc; cbn [negb]; [|apply (tail_close fe fuel W HW)].
    (* len(req.payload) - 5 != expectedLen *)
    erewrite seq_guard by first [exact I | gl_run; len_leb; gl_run; reflexivity].
    unfold lenN. cbn [List.length]. rewrite map_length.
    destruct (_ - 5 =? expected) eqn:El; cbn [negb]; [|apply (tail_close fe fuel W HW)].
    destruct (decode_bools_total (N.to_nat qty) (a5 :: tl)) as [args Hargs].
    { cbn [List.length]. unfold expected in El. destruct (qty mod 8 =? 0) eqn:Em; lia. }
    rewrite Hargs. unfold model_handler.
    pose proof (handle_code fe W HW w1 ca cr (mkhreq HCoils u addr qty true args [])) as Hin.
    destruct (w_handle W w1 ca cr _) as [w2 [xb xr c]] eqn:Eh. cbn [snd hr_code r_err] in *.
    erewrite seq_normal.
    2:{ gl_run. len_leb. gl_run.
        rewrite firstn_all2 by (cbn [List.length]; rewrite map_length; lia).
        change (VN a5 :: map VN tl) with (map VN (a5 :: tl)).
        rewrite (decb_call fe HC qty (a5 :: tl)) by (lia || exact Hb). rewrite Hargs. gl_run.
        rewrite (coils_call fe W HW), Eh. reflexivity. }
    cbn [hr_code]. rewrite hfinish_code. apply (handler_done fe fuel W HW HC); [exact Hin|].
    (* the response echoes address and quantity *)
    gl_seq. (* res = &pdu{unitId, functionCode} *)
    erewrite seq_normal by (gl_run; rewrite (u16tb_be fe HC); gl_run; reflexivity).
    erewrite after_normal by (gl_run; rewrite (u16tb_be fe HC); gl_run; reflexivity).
    apply (tail_ok fe fuel W HW) with (rp := (be16 addr ++ be16 qty)%list).
  - (* write multiple registers *)
    gl_seq. (* var expectedLen int *)
    apply (len6_check fe fuel W HW). intros a0 a1 a2 a3 a4 a5 tl ->.
    apply bytesb_cons in Hb as [B0 Hb]. apply bytesb_cons in Hb as [B1 Hb]. apply bytesb_cons in Hb as [B2 Hb].
    apply bytesb_cons in Hb as [B3 Hb]. apply bytesb_cons in Hb as [B4 Hb].
    cbn [skipn be_word nth].
    apply (addr_qty_header fe fuel W HW HC) with (lim := 123); try assumption. intros Eq Ea.
    set (addr := a0 * 256 + a1) in *. set (qty := a2 * 256 + a3) in *.
    gl_seq. (* expectedLen = int(quantity) * 2 *)
    gl_guard. (* req.payload[4] != uint8(expectedLen) *)
    unfold u8. change (2 ^ 8) with 256.
    destruct (a4 =? (qty * 2) mod 256) eqn:Ebc; cbn [negb]; [|apply (tail_close fe fuel W HW)].
    (* len(req.payload) - 5 != expectedLen *)
    erewrite seq_guard by first [exact I | gl_run; len_leb; gl_run; reflexivity].
    unfold lenN. cbn [List.length]. rewrite map_length.
    destruct (_ - 5 =? qty * 2) eqn:El; cbn [negb];
      [|apply (tail_close fe fuel W HW)].
    destruct (bytes_to_u16s_total BigE (a5 :: tl)) as [args [Hargs _]].
    { replace (List.length (a5 :: tl)) with (2 * N.to_nat qty)%nat by (cbn [List.length]; lia).
      rewrite Nat.even_mul. reflexivity. }
    rewrite Hargs. unfold model_handler.
    pose proof (handle_code fe W HW w1 ca cr (mkhreq HHolding u addr qty true [] args)) as Hin.
    destruct (w_handle W w1 ca cr _) as [w2 [xb xr c]] eqn:Eh. cbn [snd hr_code r_err] in *.
    erewrite seq_normal.
    2:{ gl_run. len_leb. gl_run.
        rewrite firstn_all2 by (cbn [List.length]; rewrite map_length; lia).
        change (VN a5 :: map VN tl) with (map VN (a5 :: tl)).
        rewrite (b2u16s_call fe HC (a5 :: tl)) by (cbn [List.length]; lia). rewrite Hargs. gl_run.
        rewrite (holding_call fe W HW), Eh. reflexivity. }
    cbn [hr_code]. rewrite hfinish_code. apply (handler_done fe fuel W HW HC); [exact Hin|].
    (* the response echoes address and quantity *)
    gl_seq. (* res = &pdu{unitId, functionCode} *)
    erewrite seq_normal by (gl_run; rewrite (u16tb_be fe HC); gl_run; reflexivity).
    erewrite after_normal by (gl_run; rewrite (u16tb_be fe HC); gl_run; reflexivity).
    apply (tail_ok fe fuel W HW) with (rp := (be16 addr ++ be16 qty)%list).
Qed.
