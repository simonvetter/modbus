(* Facts about the DER length encoding of Spec/RoleSpec.v: the recursion
   equation of be_digits (fuel independence) and the closed forms of der_len
   for lengths below 2^32. *)
From Modbus Require Import Base.Bytes Spec.RoleSpec.

Lemma be_digits_fuel_enough f : forall n g, n < 256 ^ N.of_nat f -> (f <= g)%nat ->
  be_digits_fuel g n = be_digits_fuel f n.
Proof.
  induction f as [|f IH]; intros n g Hn Hg.
  - cbn in Hn. assert (n = 0) by lia. subst n. destruct g; reflexivity.
  - destruct g as [|g]; [lia|]. cbn [be_digits_fuel].
    destruct (n =? 0) eqn:E; [reflexivity|].
    rewrite (IH (n / 256) g); [reflexivity| |lia].
    rewrite Nat2N.inj_succ, N.pow_succ_r' in Hn. remember (256 ^ N.of_nat f) as p. clear - Hn. lia.
Qed.

Lemma lt_pow256_log2 n : n < 256 ^ N.of_nat (S (N.to_nat (N.log2 n))).
Proof.
  destruct (N.eq_dec n 0) as [->|Hn]; [cbn; lia|].
  rewrite Nat2N.inj_succ, N2Nat.id.
  destruct (N.log2_spec n ltac:(lia)) as [_ H].
  eapply N.lt_le_trans; [exact H|].
  apply N.pow_le_mono_l. lia.
Qed.

Lemma be_digits_eq n : be_digits n = if n =? 0 then [] else be_digits (n / 256) ++ [n mod 256].
Proof.
  unfold be_digits at 1. cbn [be_digits_fuel].
  destruct (n =? 0) eqn:E; [reflexivity|]. f_equal.
  unfold be_digits.
  assert (Hle : N.log2 (n / 256) <= N.log2 n) by (apply N.log2_le_mono; lia).
  destruct (N.eq_dec (n / 256) 0) as [Hz|Hnz].
  { rewrite Hz. destruct (N.to_nat (N.log2 n)); reflexivity. }
  assert (Hlt : N.log2 (n / 256) < N.log2 n).
  { assert (H8 : N.log2 n = N.log2 (n / 256) + 8).
    { replace (n / 256) with (N.shiftr n 8) by (rewrite N.shiftr_div_pow2; reflexivity).
      rewrite N.log2_shiftr. assert (8 <= N.log2 n); [|lia].
      change 8 with (N.log2 256). apply N.log2_le_mono. lia. }
    lia. }
  apply be_digits_fuel_enough; [apply lt_pow256_log2|lia].
Qed.

Lemma be_digits_length n : (length (be_digits n) <= S (N.to_nat (N.log2 n)))%nat.
Proof.
  unfold be_digits. generalize (S (N.to_nat (N.log2 n))). intros f. revert n.
  induction f as [|f IH]; intros n; cbn [be_digits_fuel]; [apply Nat.le_refl|].
  destruct (n =? 0); cbn [length]; [lia|].
  rewrite app_length. cbn [length]. specialize (IH (n / 256)). lia.
Qed.

Lemma be_digits_0 : be_digits 0 = [].
Proof. reflexivity. Qed.

Lemma be_digits_1 n : 0 < n < 256 -> be_digits n = [n].
Proof.
  intros H. rewrite be_digits_eq. destruct (n =? 0) eqn:E; [lia|].
  replace (n / 256) with 0 by lia. rewrite be_digits_0. cbn [app]. f_equal. lia.
Qed.

Lemma be_digits_2 n : 256 <= n < 65536 -> be_digits n = [n / 256; n mod 256].
Proof.
  intros H. rewrite be_digits_eq. destruct (n =? 0) eqn:E; [lia|].
  rewrite be_digits_1 by lia. reflexivity.
Qed.

Lemma be_digits_3 n : 65536 <= n < 16777216 ->
  be_digits n = [n / 65536; (n / 256) mod 256; n mod 256].
Proof.
  intros H. rewrite be_digits_eq. destruct (n =? 0) eqn:E; [lia|].
  rewrite be_digits_2 by lia. cbn [app]. repeat (f_equal; try lia).
Qed.

Lemma be_digits_4 n : 16777216 <= n < 4294967296 ->
  be_digits n = [n / 16777216; (n / 65536) mod 256; (n / 256) mod 256; n mod 256].
Proof.
  intros H. rewrite be_digits_eq. destruct (n =? 0) eqn:E; [lia|].
  rewrite be_digits_3 by lia. cbn [app]. repeat (f_equal; try lia).
Qed.

Lemma der_len_short n : n < 128 -> der_len n = [n].
Proof. intros H. unfold der_len. destruct (n <? 128) eqn:E; [reflexivity|lia]. Qed.

Lemma der_len_1 n : 128 <= n < 256 -> der_len n = [0x81; n].
Proof.
  intros H. unfold der_len. destruct (n <? 128) eqn:E; [lia|].
  rewrite be_digits_1 by lia. reflexivity.
Qed.

Lemma der_len_2 n : 256 <= n < 65536 -> der_len n = [0x82; n / 256; n mod 256].
Proof.
  intros H. unfold der_len. destruct (n <? 128) eqn:E; [lia|].
  rewrite be_digits_2 by lia. reflexivity.
Qed.

Lemma der_len_3 n : 65536 <= n < 16777216 ->
  der_len n = [0x83; n / 65536; (n / 256) mod 256; n mod 256].
Proof.
  intros H. unfold der_len. destruct (n <? 128) eqn:E; [lia|].
  rewrite be_digits_3 by lia. reflexivity.
Qed.

Lemma der_len_4 n : 16777216 <= n < 4294967296 ->
  der_len n = [0x84; n / 16777216; (n / 65536) mod 256; (n / 256) mod 256; n mod 256].
Proof.
  intros H. unfold der_len. destruct (n <? 128) eqn:E; [lia|].
  rewrite be_digits_4 by lia. reflexivity.
Qed.
