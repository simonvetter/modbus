(* server.go handleTransport as translated from the Go source (Gen/SrcPure.v):
   one iteration of the request loop on function codes 1 and 2 (read coils /
   discrete inputs) is the model's server_process followed by WriteResponse or
   Close (Proofs/SrcServerP.v: srv_iter_spec). *)
From Coq Require Import List NArith String Lia Bool.
Import ListNotations.
From Modbus Require Import Base.Bytes Model.GoLite Gen.SrcPure Model.Crc Model.Encoding.
From Modbus Require Import Model.Wire Model.Client Model.Server.
From Modbus Require Import Proofs.GoLiteP Proofs.GoLiteLinkP Proofs.SrcCrcP Proofs.SrcLinkP Proofs.SrcMiscP Proofs.SrcClientP Proofs.SrcServerP.
Open Scope string_scope.
Open Scope N_scope.

Lemma srv_iter_read_bits fe fuel W started tt ca cr w rest req :
  world_hyp fe W -> srv_callee_hyp fe -> List.length rest = 18%nat ->
  snd (w_read W w) = RdOk req -> (p_fc req = 1 \/ p_fc req = 2) ->
  srv_iter_spec fe fuel W started tt ca cr w rest req.
Proof.
  intros HW HC Hlen Hrd Hfc.
  destruct req as [u fc pl]. cbn [p_fc] in Hfc.
  apply srv_iter_by_case; try assumption. clear w rest Hlen Hrd.
  intros w1 r9 r10 r11 r12 s14 s15 s16 s17 s18 s19 s20 s21 s22 Hb.
  replace (class_of fc) with K12 by (destruct Hfc as [->| ->]; reflexivity).
  unfold server_process. cbn [p_fc p_payload p_unit].
  replace (orb (fc =? 1) (fc =? 2)) with true by (destruct Hfc as [->| ->]; reflexivity).
  cbv [srv_case].
  gl_seq. gl_seq. (* var coils []bool; var resCount int *)
  apply (len4_check fe fuel W HW). intros b0 b1 b2 b3 ->.
  cbn [bytesb forallb] in Hb. unfold is_byte in Hb. cbn [be_word skipn].
  apply (addr_qty_header fe fuel W HW HC) with (lim := 2000); try lia. intros Eq Ea.
  set (addr := b0 * 256 + b1) in *. set (qty := b2 * 256 + b3) in *. clear Hb.
  unfold model_handler. cbn [p_unit].
  pose proof (handle_code fe W HW w1 ca cr (mkhreq (if fc =? 1 then HCoils else HDiscrete) u addr qty false [] [])) as Hin.
  destruct (w_handle W w1 ca cr _) as [w2 [xb xr c]] eqn:Eh. cbn [snd hr_code hr_regs hr_bools r_err r_bools] in *.
  erewrite seq_normal.
  2:{ rewrite (exec_if_eval _ _ _ _ _ _ _ (fc =? 1)) by (gl_run; reflexivity).
      destruct (fc =? 1); gl_run; [rewrite (coils_call fe W HW _ _ _ _ _ _ false [])|rewrite (discrete_call fe W HW)];
        rewrite Eh; reflexivity. }
  cbn [hr_code hr_bools].
  gl_seq. (* resCount = len(coils) *)
  rewrite map_length.
  (* a result of the wrong size is a server device failure *)
  rewrite hfinish_code. set (n := N.of_nat (List.length xb)).
  apply (handler_done_if fe fuel W HW HC) with (v := negb (n =? qty)); [exact Hin|gl_wrap; gl_run; reflexivity|].
  intros El.
  gl_seq. (* res = &pdu{unitId, functionCode, payload: []byte{0}} *)
  gl_seq. (* res.payload[0] = uint8(resCount / 8) *)
  (* if resCount % 8 != 0 { res.payload[0]++ } *)
  erewrite seq_normal with
    (st1 := [started; tt; VN ca; VN cr; w2; VB false; VN u; VN fc; _; VB false; VN u; VN fc;
             VL [VN (u8 (n / 8 + (if n mod 8 =? 0 then 0 else 1)))]; VN 0; VN addr; VN qty; _; VN n;
             s18; s19; s20; s21; s22]).
  2:{ rewrite (exec_if_eval _ _ _ _ _ _ _ (negb (n mod 8 =? 0))) by (gl_run; reflexivity).
      unfold u8. change (2 ^ 8) with 256.
      destruct (n mod 8 =? 0); gl_run; change (2 ^ 8) with 256;
        [rewrite N.add_0_r|rewrite N.add_mod_idemp_l by discriminate]; reflexivity. }
  (* res.payload = append(res.payload, encodeBools(coils)...) *)
  erewrite after_normal by (gl_run; rewrite (encb_call fe HC) by lia; gl_run; reflexivity).
  apply (tail_ok fe fuel W HW).
Qed.

Lemma srv_iter_read_coils fe fuel W started tt ca cr w rest req :
  world_hyp fe W -> srv_callee_hyp fe -> List.length rest = 18%nat ->
  snd (w_read W w) = RdOk req -> p_fc req = 1 ->
  srv_iter_spec fe fuel W started tt ca cr w rest req.
Proof. intros HW HC Hlen Hrd Hfc. apply srv_iter_read_bits; try assumption. left. exact Hfc. Qed.

Lemma srv_iter_read_discrete fe fuel W started tt ca cr w rest req :
  world_hyp fe W -> srv_callee_hyp fe -> List.length rest = 18%nat ->
  snd (w_read W w) = RdOk req -> p_fc req = 2 ->
  srv_iter_spec fe fuel W started tt ca cr w rest req.
Proof. intros HW HC Hlen Hrd Hfc. apply srv_iter_read_bits; try assumption. right. exact Hfc. Qed.
