(* Proofs about Model/TimingIdle.v (bytes that reach the client while it is
   idle): the send-time machine keeps the inter-frame silence after EVERY read
   that took bytes off the link, PROVIDED the rule that reads when a call
   begins records the instant after that read (stamps; the code reads nothing
   at entry). Draining without recording does not: drain_no_stamp_not_quiet. *)
From Modbus Require Import Base.Bytes Model.Timing Model.TimingIdle Proofs.TimingP.
Local Open Scope Z_scope.

(* rt.lastActivity in a state of the session *)
Definition la (s : istate) : Z := last_activity (i_t s).

Definition starts_after (l t35 : Z) (ev : lev) : Prop :=
  match ev with Sent b => l + t35 <= b | Took _ => True end.

Definition taken_by (l : Z) (ev : lev) : Prop :=
  match ev with Took a => a <= l | Sent _ => True end.

Lemma fop_app {A} (R : A -> A -> Prop) l1 l2 :
  ForallOrdPairs R l1 -> ForallOrdPairs R l2 ->
  Forall (fun a => Forall (R a) l2) l1 -> ForallOrdPairs R (l1 ++ l2).
Proof.
  intros H1 H2 H12. induction H1 as [|a l1 Ha H1 IH]; cbn [app]; [exact H2|].
  inversion H12 as [|? ? Ha2 H12']; subst.
  constructor; [apply Forall_app; split; assumption | apply IH; exact H12'].
Qed.

Lemma heard_as_admissible x o : admissible x -> admissible (heard_as x o).
Proof.
  intros (Hn & He & Hs1 & Hw & Hwr & Hs2 & Hr & Hrx & Hst).
  unfold admissible, heard_as. cbn. repeat split; try assumption; lia.
Qed.

Lemma heard_as_out x o : x_out (heard_as x o) = o.
Proof. reflexivity. Qed.

Lemma entry_facts rule s q dr s0 q0 evs0 :
  stamps rule -> 0 <= dr -> entry rule s q dr = (s0, q0, evs0) ->
  last_activity s <= last_activity s0 /\
  (evs0 = [] \/ exists a, evs0 = [Took a] /\ a <= last_activity s0).
Proof.
  intros Hst Hdr He. destruct rule; [| |destruct Hst]; destruct q as [|f q];
    cbn [entry] in He; inversion He; subst; clear He; cbn [last_activity clock].
  - split; [lia|left; reflexivity].
  - split; [lia|left; reflexivity].
  - split; [lia|left; reflexivity].
  - split; [lia|right]. eexists. split; [reflexivity|lia].
Qed.

Lemma istep_call_shape rule t1 t35 s x dr reply s' evs s0 q0 evs0 :
  entry rule (i_t s) (i_q s) dr = (s0, q0, evs0) ->
  istep_run rule t1 t35 s (SCall x dr reply) = (s', evs) ->
  exists x' e tail,
    (admissible x -> admissible x') /\ exchange t1 t35 s0 x' = (i_t s', e) /\
    evs = evs0 ++ Sent (ev_tx_start e) :: tail /\
    (tail = [] \/ (tail = [Took (ev_rx_end e)] /\ frame_end e = Some (ev_rx_end e))).
Proof.
  intros Een Hrun. cbn [istep_run] in Hrun. rewrite Een in Hrun.
  destruct (x_out x).
  1,2: destruct (q0 ++ (if 0 <? reply then [reply] else [])) as [|f q2].
  1,3: destruct (exchange t1 t35 s0 (heard_as x Silent)) as [s1 e] eqn:Ex; inversion Hrun; subst;
       exists (heard_as x Silent), e, [];
       split; [apply heard_as_admissible|split; [exact Ex|split; [reflexivity|left; reflexivity]]].
  1,2: destruct (exchange t1 t35 s0 (heard_as x Heard)) as [s1 e] eqn:Ex; inversion Hrun; subst;
       exists (heard_as x Heard), e, [Took (ev_rx_end e)];
       split; [apply heard_as_admissible|split; [exact Ex|split; [reflexivity|right; split; [reflexivity|]]]];
       unfold exchange in Ex; cbn [heard_as x_out] in Ex; inversion Ex; reflexivity.
  destruct (exchange t1 t35 s0 x) as [s1 e] eqn:Ex. inversion Hrun; subst.
  exists x, e, []. split; [auto|split; [exact Ex|split; [reflexivity|left; reflexivity]]].
Qed.

Lemma istep_facts rule t1 t35 s st s' evs :
  stamps rule -> 0 <= t1 -> 0 <= t35 -> istep_ok st ->
  istep_run rule t1 t35 s st = (s', evs) ->
  la s <= la s' /\
  Forall (starts_after (la s) t35) evs /\
  Forall (taken_by (la s')) evs /\
  ForallOrdPairs (quiet t35) evs.
Proof.
  intros Hst Ht1 Ht35 Hok Hrun. unfold la. destruct st as [d|len|x dr reply].
  - cbn [istep_run] in Hrun. inversion Hrun; subst. cbn [i_t last_activity].
    repeat split; try constructor. lia.
  - cbn [istep_run] in Hrun. inversion Hrun; subst. cbn [i_t]. repeat split; try constructor. lia.
  - destruct Hok as (Hadm & Hdr & Hrep).
    destruct (entry rule (i_t s) (i_q s) dr) as [[s0 q0] evs0] eqn:Een.
    destruct (entry_facts rule (i_t s) (i_q s) dr s0 q0 evs0 Hst Hdr Een) as (Hmono0 & Hevs0).
    destruct (istep_call_shape rule t1 t35 s x dr reply s' evs s0 q0 evs0 Een Hrun)
      as (x' & e & tail & Hadm' & Ex & -> & Htail).
    destruct (exchange_facts t1 t35 s0 x' _ e Ht1 Ht35 (Hadm' Hadm) Ex) as (Hstart & Hmono & Hend & _).
    split; [lia|].
    (* the timeline of the call is [Took a;] Sent b [; Took r] with a <= la s0,
       la s0 + t35 <= b and r <= la s': four lists of at most three events *)
    destruct Hevs0 as [->|(a & -> & Ha)]; destruct Htail as [->|[-> Hf]]; cbn [app];
      try specialize (Hend _ Hf); repeat split;
      repeat (constructor; cbn [starts_after taken_by quiet]; try exact I; try lia).
Qed.

Lemma irun_after rule t1 t35 steps : stamps rule -> 0 <= t1 -> 0 <= t35 -> Forall istep_ok steps ->
  forall s, Forall (starts_after (la s) t35) (irun rule t1 t35 s steps).
Proof.
  intros Hst Ht1 Ht35 Hok. induction Hok as [|st steps Hs _ IH]; intros s; cbn [irun]; [constructor|].
  destruct (istep_run rule t1 t35 s st) as [s' evs] eqn:Er.
  destruct (istep_facts rule t1 t35 s st s' evs Hst Ht1 Ht35 Hs Er) as (Hmono & Hafter & _ & _).
  apply Forall_app. split; [exact Hafter|].
  eapply Forall_impl; [|apply IH]. intros [a|b]; cbn [starts_after]; lia.
Qed.

Lemma irun_quiet rule t1 t35 steps : stamps rule -> 0 <= t1 -> 0 <= t35 -> Forall istep_ok steps ->
  forall s, ForallOrdPairs (quiet t35) (irun rule t1 t35 s steps).
Proof.
  intros Hst Ht1 Ht35 Hok. induction Hok as [|st steps Hs Hss IH]; intros s; cbn [irun]; [constructor|].
  destruct (istep_run rule t1 t35 s st) as [s' evs] eqn:Er.
  destruct (istep_facts rule t1 t35 s st s' evs Hst Ht1 Ht35 Hs Er) as (_ & _ & Htaken & Hq).
  apply fop_app; [exact Hq|apply IH|].
  eapply Forall_impl; [|exact Htaken]. intros [a|b] Hev; cbn [taken_by] in Hev.
  - eapply Forall_impl; [|apply (irun_after rule t1 t35 steps Hst Ht1 Ht35 Hss s')].
    intros [a'|b']; cbn [starts_after quiet]; [trivial|lia].
  - apply Forall_forall. intros ev _. destruct ev; exact I.
Qed.

Lemma sent_count_took a l : sent_count (Took a :: l) = sent_count l.
Proof. reflexivity. Qed.

Lemma sent_count_sent b l : sent_count (Sent b :: l) = 1 + sent_count l.
Proof. reflexivity. Qed.

Lemma sent_count_app l1 l2 : sent_count (l1 ++ l2) = sent_count l1 + sent_count l2.
Proof.
  induction l1 as [|[a|b] l1 IH]; cbn [app].
  - reflexivity.
  - rewrite !sent_count_took. exact IH.
  - rewrite !sent_count_sent, IH. lia.
Qed.

Lemma istep_sent rule t1 t35 s st s' evs : istep_run rule t1 t35 s st = (s', evs) ->
  sent_count evs = match st with SCall _ _ _ => 1 | _ => 0 end.
Proof.
  destruct st as [d|len|x dr reply]; intros H; [inversion H; reflexivity..|].
  destruct (entry rule (i_t s) (i_q s) dr) as [[s0 q0] evs0] eqn:Een.
  assert (He0 : sent_count evs0 = 0).
  { destruct rule; destruct (i_q s); cbn [entry] in Een; inversion Een; reflexivity. }
  destruct (istep_call_shape rule t1 t35 s x dr reply s' evs s0 q0 evs0 Een H)
    as (x' & e & tail & _ & _ & -> & Htail).
  rewrite sent_count_app, sent_count_sent, He0.
  destruct Htail as [->|[-> _]]; reflexivity.
Qed.

Lemma irun_sent_count rule t1 t35 steps : forall s,
  sent_count (irun rule t1 t35 s steps) = script_calls steps.
Proof.
  induction steps as [|st steps IH]; intros s; cbn [irun]; [reflexivity|].
  destruct (istep_run rule t1 t35 s st) as [s' evs] eqn:Er.
  rewrite sent_count_app, IH, (istep_sent rule t1 t35 s st s' evs Er).
  unfold script_calls. cbn [fold_right]. destruct st; lia.
Qed.

Lemma gaps_quiet t35 evs : ForallOrdPairs (quiet t35) evs ->
  forall last, (forall a, last = Some a -> Forall (quiet t35 (Took a)) evs) ->
  Forall (fun g => t35 <= g) (gaps last evs).
Proof.
  induction 1 as [|ev evs Hev _ IH]; intros last Hlast; cbn [gaps]; [constructor|].
  destruct ev as [a|b].
  - apply IH. intros a' Ha'. inversion Ha'; subst a'; clear Ha'.
    destruct last as [a0|]; [|exact Hev].
    specialize (Hlast a0 eq_refl). inversion Hlast as [|? ? _ Hl0]; subst.
    destruct (Z.max_spec a0 a) as [[_ ->]|[_ ->]]; assumption.
  - destruct last as [a0|].
    + specialize (Hlast a0 eq_refl). inversion Hlast as [|? ? Hb Hl0]; subst. cbn [quiet] in Hb.
      constructor; [lia|]. apply IH. intros a' Ha'. inversion Ha'; subst a'. exact Hl0.
    + apply IH. intros a' Ha'. discriminate.
Qed.

Lemma min_gap_bound t35 gs g : Forall (fun g => t35 <= g) gs -> min_gap gs = Some g -> t35 <= g.
Proof.
  intros Hgs Hm. destruct gs as [|g0 gs]; [discriminate|]. cbn [min_gap] in Hm. inversion Hm; subst g; clear Hm.
  inversion Hgs as [|? ? H0 Hrest]; subst. clear Hgs.
  induction Hrest as [|g1 gs H1 _ IH]; cbn [fold_right]; lia.
Qed.

Lemma quiet_call_ok n reply : 0 <= n -> 0 <= reply -> istep_ok (quiet_call n reply).
Proof. intros Hn Hr. unfold quiet_call, istep_ok, admissible. cbn. lia. Qed.

(* draining the buffer at the beginning of a call WITHOUT recording it does
   not keep the silence: 2400 bps, a request without answer, the late answer
   30 ms after the call returned, the next call 20 ms later *)
Lemma drain_no_stamp_not_quiet :
  ~ (forall steps, Forall istep_ok steps ->
       ForallOrdPairs (quiet (t35 2400))
         (irun DrainNoStamp (char_time 2400) (t35 2400) (idle_start 2400) steps)).
Proof.
  intros H.
  specialize (H [quiet_call 8 0; SIdle 30000000; SArrive 7; SIdle 20000000; quiet_call 8 7]).
  assert (Hok : Forall istep_ok [quiet_call 8 0; SIdle 30000000; SArrive 7; SIdle 20000000; quiet_call 8 7]).
  { repeat (constructor; [first [apply quiet_call_ok; lia | cbn [istep_ok]; lia]|]). constructor. }
  specialize (H Hok).
  (* events 1 and 2 of the run, by evaluation: the drain returns at 102708329 ns
     and the request starts at the same instant *)
  assert (Hq : quiet (t35 2400) (Took 102708329) (Sent 102708329)).
  { apply (ordpairs_nth _ _ H 1%nat 2%nat); [lia| |]; vm_compute; reflexivity. }
  cbn [quiet] in Hq. assert (Ht : t35 2400 = 16041665) by (vm_compute; reflexivity). lia.
Qed.
