(* Proofs about the timed model (Model/Timed.v): time bounds that hold whatever
   the peer sends, the simulation "timed exchange with deadline D = untimed
   exchange on what has arrived by D" (net.Conn), the result of a call against
   a silent peer, and, from the simulation, that timely replies are accepted
   (via C02). *)
From Modbus Require Import Base.Bytes Model.Crc Model.Encoding Model.Wire Model.Client
  Model.Timed Spec.ModbusSpec Spec.ClientSpec Spec.TimedSpec
  Proofs.FramingP Proofs.ClientReqP Proofs.ClientRespP Proofs.TxnP.

Lemma tm_horizon_bounds g cur D : (0 <= g)%Z -> (cur <= D)%Z ->
  (D <= tm_horizon g cur D <= D + g)%Z /\ (0 < g -> D < tm_horizon g cur D)%Z.
Proof.
  intros Hg Hc. unfold tm_horizon. destruct (g <=? 0)%Z eqn:E; [lia|].
  assert (Hpos : (0 < g)%Z) by lia.
  pose proof (Z.div_mod (D - cur) g ltac:(lia)) as Hdm.
  pose proof (Z.mod_pos_bound (D - cur) g Hpos) as Hm.
  replace ((cur + ((D - cur) / g + 1) * g))%Z with (cur + g * ((D - cur) / g) + g)%Z by ring.
  lia.
Qed.

Lemma tm_horizon_zero cur D : tm_horizon 0 cur D = D.
Proof. reflexivity. Qed.

Definition tm_rf_time (r : tm_rf) : Z :=
  match r with TmFull _ t _ => t | TmShort _ _ t _ => t end.

Definition tm_rf_rest (r : tm_rf) : list (Z * N) :=
  match r with TmFull _ _ rest => rest | TmShort _ _ _ rest => rest end.

Lemma tm_rf_cons_rest b r : tm_rf_rest (tm_rf_cons b r) = tm_rf_rest r.
Proof. destruct r; reflexivity. Qed.

Lemma rft_spec g D c n : forall cur s, exists pre,
  let r := read_full_t g D c n cur s in
  s = pre ++ tm_rf_rest r /\
  ((0 <= g)%Z -> (cur <= tm_rf_time r <= Z.max cur (D + g))%Z) /\
  match r with
  | TmFull got _ _ => length got = n /\ length pre = n
  | TmShort _ e _ _ => e = ETimeout \/ e = EIO
  end.
Proof.
  induction n as [|n IH]; intros cur s; cbn [read_full_t].
  - exists []. cbn. split; [reflexivity|]. split; [lia|split; reflexivity].
  - destruct (D <? cur)%Z eqn:E; [exists []; cbn; split; [reflexivity|split; [lia|auto]]|].
    assert (Hh : (0 <= g)%Z -> (D <= tm_horizon g cur D <= D + g)%Z)
      by (intros Hg; apply tm_horizon_bounds; lia).
    assert (Hstop : forall got e t, (e = ETimeout \/ e = EIO) ->
              ((0 <= g)%Z -> (cur <= t <= tm_horizon g cur D)%Z) ->
              exists pre, let r := TmShort got e t s in
                s = pre ++ tm_rf_rest r /\
                ((0 <= g)%Z -> (cur <= tm_rf_time r <= Z.max cur (D + g))%Z) /\ (e = ETimeout \/ e = EIO)).
    { intros got e t He Ht. exists []. cbn. split; [reflexivity|]. split; [|exact He].
      intros Hg. specialize (Hh Hg). specialize (Ht Hg). lia. }
    destruct s as [|[t b] s'].
    + destruct c as [tc|]; [destruct (tc <=? tm_horizon g cur D)%Z eqn:E2|]; apply Hstop; auto;
        intros Hg; specialize (Hh Hg); lia.
    + destruct (t <=? tm_horizon g cur D)%Z eqn:E2; [|apply Hstop; auto; intros Hg; specialize (Hh Hg); lia].
      destruct (IH (Z.max cur t) s') as (pre & Hs & Ht & Hr). cbv zeta in Hs, Ht, Hr.
      exists ((t, b) :: pre). cbv zeta. rewrite tm_rf_cons_rest.
      split; [cbn [app]; f_equal; exact Hs|].
      destruct (read_full_t g D c n (Z.max cur t) s') as [got t2 rest|got e t2 rest];
        cbn [tm_rf_cons tm_rf_time length] in *;
        (split; [intros Hg; specialize (Hh Hg); specialize (Ht Hg); lia|]); [lia|exact Hr].
Qed.

Lemma rft_time g D c n : (0 <= g)%Z -> forall cur s,
  (cur <= tm_rf_time (read_full_t g D c n cur s) <= Z.max cur (D + g))%Z.
Proof. intros Hg cur s. destruct (rft_spec g D c n cur s) as (pre & _ & Ht & _). exact (Ht Hg). Qed.

Lemma rft_time0 D c n cur s : (cur <= D)%Z ->
  (cur <= tm_rf_time (read_full_t 0 D c n cur s) <= D)%Z.
Proof. intros H. pose proof (rft_time 0 D c n ltac:(lia) cur s). lia. Qed.

(* 8 bytes or more in the cases in which the skip loop goes on *)
Lemma tm_read_mbap_consumes g D c now s r t rest : tm_read_mbap g D c now s = (r, t, rest) ->
  exists pre, s = pre ++ rest /\
    match r with
    | FOk _ _ | FErr EUnknownProto => (8 <= length pre)%nat
    | FErr _ => True
    end.
Proof.
  unfold tm_read_mbap.
  destruct (rft_spec g D c 7 now s) as (pre1 & Hs1 & _ & Hr1). cbv zeta in Hs1, Hr1.
  destruct (read_full_t g D c 7 now s) as [hdr t1 r1|got e t1 r1]; cbn [tm_rf_rest] in *.
  2:{ intros [= <- <- <-]. exists pre1. split; [exact Hs1|]. destruct Hr1 as [-> | ->]; exact I. }
  destruct Hr1 as [Hl Hl1].
  destruct hdr as [|a1 [|a0 [|p1 [|p0 [|l1 [|l0 [|unit [|x hdr]]]]]]]]; try discriminate Hl.
  set (len := l1 * 256 + l0).
  destruct (260 <? len - 1 + 7); [intros [= <- <- <-]; exists pre1; auto|].
  destruct (len <=? 1) eqn:C2; [intros [= <- <- <-]; exists pre1; auto|].
  destruct (rft_spec g D c (N.to_nat (len - 1)) t1 r1) as (pre2 & Hs2 & _ & Hr2). cbv zeta in Hs2, Hr2.
  assert (Hs : s = (pre1 ++ pre2) ++ tm_rf_rest (read_full_t g D c (N.to_nat (len - 1)) t1 r1))
    by (rewrite <- app_assoc, <- Hs2; exact Hs1).
  destruct (read_full_t g D c (N.to_nat (len - 1)) t1 r1) as [body t2 r2|got e t2 r2];
    cbn [tm_rf_rest] in *.
  2:{ intros [= <- <- <-]. exists (pre1 ++ pre2). split; [exact Hs|]. destruct Hr2 as [-> | ->]; exact I. }
  (* the whole frame: the 7 header bytes and at least one more *)
  assert (H8 : (8 <= length (pre1 ++ pre2))%nat) by (rewrite app_length; lia).
  destruct (negb (p1 * 256 + p0 =? 0)); [intros [= <- <- <-]; exists (pre1 ++ pre2); auto|].
  destruct body; intros [= <- <- <-]; exists (pre1 ++ pre2); auto.
Qed.

Lemma tm_mbap_loop_spec g D c txn fuel : forall now s r t rest,
  tm_mbap_read_response fuel g D c txn now s = (r, t, rest) ->
  (exists pre, s = pre ++ rest) /\ r <> Panic /\ ((length s < 8 * fuel)%nat -> r <> OutOfFuel).
Proof.
  induction fuel as [|f IH]; intros now s r t rest; cbn [tm_mbap_read_response].
  - intros [= <- <- <-]. split; [exists []; reflexivity|]. split; [discriminate|lia].
  - destruct (tm_read_mbap g D c now s) as [[r1 t1] s1] eqn:E.
    apply tm_read_mbap_consumes in E as (pre1 & -> & H8).
    assert (Hskip : (8 <= length pre1)%nat ->
              tm_mbap_read_response f g D c txn t1 s1 = (r, t, rest) ->
              (exists pre, pre1 ++ s1 = pre ++ rest) /\ r <> Panic /\
              ((length (pre1 ++ s1) < 8 * S f)%nat -> r <> OutOfFuel)).
    { intros H8' H. apply IH in H as ([pre ->] & Hp & Ho).
      split; [exists (pre1 ++ pre); apply app_assoc|]. split; [exact Hp|].
      rewrite !app_length in *. intros Hf. apply Ho. lia. }
    assert (Hstop : forall r', r' <> Panic -> r' <> OutOfFuel -> (r', t1, s1) = (r, t, rest) ->
              (exists pre, pre1 ++ s1 = pre ++ rest) /\ r <> Panic /\
              ((length (pre1 ++ s1) < 8 * S f)%nat -> r <> OutOfFuel)).
    { intros r' Np No [= <- <- <-]. split; [exists pre1; reflexivity|]. split; [exact Np|intros _; exact No]. }
    destruct r1 as [p tid|x].
    + destruct (tid =? txn); [apply Hstop; discriminate|apply Hskip; exact H8].
    + destruct x; try (apply Hstop; discriminate). apply Hskip; exact H8.
Qed.

Lemma mbap_exchange_no_panic timeout t0 c txn s :
  fst (fst (mbap_exchange_t timeout t0 c txn s)) <> Panic /\
  fst (fst (mbap_exchange_t timeout t0 c txn s)) <> OutOfFuel.
Proof.
  unfold mbap_exchange_t.
  destruct (tm_mbap_read_response _ _ _ _ _ _ _) as [[r t] rest] eqn:E.
  apply tm_mbap_loop_spec in E as (_ & Hp & Ho). cbn [fst]. split; [exact Hp|apply Ho; lia].
Qed.

Lemma tm_end_cons D c t b s : (t <= D)%Z -> tm_end D c ((t, b) :: s) = tm_end D c s.
Proof.
  intros H. unfold tm_end. cbn [tm_avail].
  replace (t <=? D)%Z with true by lia. reflexivity.
Qed.

Lemma tm_end_late D c t b s : (D < t)%Z -> tm_end D c ((t, b) :: s) = Stall.
Proof.
  intros H. unfold tm_end. cbn [tm_avail].
  replace (t <=? D)%Z with false by lia. destruct c; reflexivity.
Qed.

Lemma rft_sim D c n : forall cur s, (cur <= D)%Z ->
  match read_full_t 0 D c n cur s, read_full n (map snd (tm_avail D s)) with
  | TmFull got t rest, RFull got' ru =>
      got = got' /\ (cur <= t <= D)%Z /\ map snd (tm_avail D rest) = ru /\
      tm_end D c rest = tm_end D c s
  | TmShort got e t rest, RShort got' =>
      got = got' /\ e = short_err (tm_end D c s) /\ (cur <= t <= D)%Z /\ (e = ETimeout -> t = D) /\
      tm_avail D rest = [] /\ tm_end D c rest = tm_end D c s
  | _, _ => False
  end.
Proof.
  induction n as [|n IH]; intros cur s Hc.
  - cbn [read_full_t]. unfold read_full. cbn [Nat.leb firstn skipn].
    repeat split; lia.
  - cbn [read_full_t]. replace (D <? cur)%Z with false by lia. rewrite tm_horizon_zero.
    destruct s as [|[t b] s'].
    + cbn [tm_avail map]. unfold read_full. cbn [length Nat.leb].
      destruct c as [tc|]; [destruct (tc <=? D)%Z eqn:E|].
      * unfold tm_end. cbn [tm_avail length Nat.eqb andb]. rewrite E. cbn [short_err].
        repeat split; (lia || discriminate).
      * unfold tm_end. cbn [tm_avail length Nat.eqb andb]. rewrite E. cbn [short_err].
        repeat split; lia.
      * cbn [tm_end short_err]. repeat split; lia.
    + cbn [tm_avail]. destruct (t <=? D)%Z eqn:E.
      * cbn [map snd]. rewrite read_full_cons. rewrite (tm_end_cons D c t b s') by lia.
        specialize (IH (Z.max cur t) s' ltac:(lia)).
        destruct (read_full_t 0 D c n (Z.max cur t) s') as [got t2 rest|got e t2 rest];
          destruct (read_full n (map snd (tm_avail D s'))) as [got' ru|got'];
          cbn [tm_rf_cons]; try exact IH.
        -- destruct IH as (-> & Ht & Hr & He). repeat split; try assumption; lia.
        -- destruct IH as (-> & Hx & Ht & Hto & Hr & He). repeat split; try assumption; lia.
      * cbn [map]. unfold read_full. cbn [length Nat.leb].
        rewrite (tm_end_late D c t b s') by lia. cbn [short_err tm_avail]. rewrite E.
        repeat split; lia.
Qed.

Lemma tm_tmax_ge l : forall a, (a <= tm_tmax l a)%Z.
Proof.
  unfold tm_tmax. induction l as [|p l IH]; intros a; cbn [fold_left]; [lia|].
  specialize (IH (Z.max a (fst p))). lia.
Qed.

Lemma tm_tmax_cons t b l a : tm_tmax ((t, b) :: l) a = tm_tmax l (Z.max a t).
Proof. reflexivity. Qed.

Lemma rft_full D c n : forall cur s, (cur <= D)%Z -> (n <= length s)%nat ->
  (tm_tmax (firstn n s) cur <= D)%Z ->
  read_full_t 0 D c n cur s =
    TmFull (map snd (firstn n s)) (tm_tmax (firstn n s) cur) (skipn n s).
Proof.
  induction n as [|n IH]; intros cur s Hc Hl Ht; [reflexivity|].
  destruct s as [|[t b] s']; [cbn [length] in Hl; lia|].
  cbn [firstn] in Ht. rewrite tm_tmax_cons in Ht.
  pose proof (tm_tmax_ge (firstn n s') (Z.max cur t)) as Hge.
  cbn [read_full_t]. replace (D <? cur)%Z with false by lia. rewrite tm_horizon_zero.
  replace (t <=? D)%Z with true by lia.
  rewrite IH by (cbn [length] in Hl; lia).
  cbn [tm_rf_cons firstn skipn map snd]. rewrite tm_tmax_cons. reflexivity.
Qed.

Lemma rft_late D n : forall cur s, (cur <= D)%Z ->
  ((length s < n)%nat \/ (D < tm_tmax (firstn n s) cur)%Z) ->
  read_full_t 0 D None n cur s =
    TmShort (map snd (tm_avail D s)) ETimeout D (skipn (length (tm_avail D s)) s).
Proof.
  induction n as [|n IH]; intros cur s Hc H.
  - cbn [firstn] in H. unfold tm_tmax in H. cbn [fold_left] in H. lia.
  - cbn [read_full_t]. replace (D <? cur)%Z with false by lia. rewrite tm_horizon_zero.
    destruct s as [|[t b] s']; [reflexivity|].
    cbn [tm_avail]. destruct (t <=? D)%Z eqn:E; [|reflexivity].
    rewrite IH.
    + reflexivity.
    + lia.
    + cbn [length firstn] in H. rewrite tm_tmax_cons in H. destruct H as [H|H]; [left; lia|right; exact H].
Qed.

Lemma tm_tmax_sorted n : forall s cur, tm_sorted s -> (n < length s)%nat ->
  tm_tmax (firstn (S n) s) cur = Z.max cur (fst (nth n s (0%Z, 0))).
Proof.
  induction n as [|n IH]; intros s cur Hs Hl.
  - destruct s as [|[t b] s']; [cbn in Hl; lia|]. reflexivity.
  - destruct s as [|[t b] s']; [cbn in Hl; lia|].
    change (firstn (S (S n)) ((t, b) :: s')) with ((t, b) :: firstn (S n) s').
    rewrite tm_tmax_cons. rewrite IH.
    + pose proof (Hs 0%nat (S n) ltac:(lia)) as H0. cbn [nth fst] in *. lia.
    + intros i j Hij. apply (Hs (S i) (S j)). cbn [length]. lia.
    + cbn [length] in Hl. lia.
Qed.

Lemma tm_read_mbap_sim D c now s : (now <= D)%Z ->
  let '(r, t, rest) := tm_read_mbap 0 D c now s in
  let '(r', ru) := read_mbap (tm_end D c s) (map snd (tm_avail D s)) in
  r = r' /\ (now <= t <= D)%Z /\ (r = FErr ETimeout -> t = D) /\
  map snd (tm_avail D rest) = ru /\ tm_end D c rest = tm_end D c s.
Proof.
  intros Hn. unfold tm_read_mbap, read_mbap.
  pose proof (rft_sim D c 7 now s Hn) as H1.
  destruct (read_full_t 0 D c 7 now s) as [hdr t1 r1|got e t1 r1];
    destruct (read_full 7 (map snd (tm_avail D s))) as [hdr' u1|got']; try contradiction.
  2:{ destruct H1 as (_ & -> & Ht & Hto & Hr & He). rewrite Hr.
      repeat split; try assumption; try lia. intros [= E]. exact (Hto E). }
  destruct H1 as (<- & Ht & Hr & He).
  destruct hdr as [|a1 [|a0 [|p1 [|p0 [|l1 [|l0 [|unit [|x hdr]]]]]]]];
    try (repeat split; try assumption; (lia || discriminate)).
  set (len := l1 * 256 + l0).
  destruct (260 <? len - 1 + 7); [repeat split; try assumption; (lia || discriminate)|].
  destruct (len <=? 1); [repeat split; try assumption; (lia || discriminate)|].
  pose proof (rft_sim D c (N.to_nat (len - 1)) t1 r1 ltac:(lia)) as H2.
  rewrite Hr, He in H2.
  destruct (read_full_t 0 D c (N.to_nat (len - 1)) t1 r1) as [body t2 r2|got e t2 r2];
    destruct (read_full (N.to_nat (len - 1)) u1) as [body' u2|got']; try contradiction.
  2:{ destruct H2 as (_ & -> & Ht2 & Hto & Hr2 & He2). rewrite Hr2.
      repeat split; try assumption; try lia. intros [= E]. exact (Hto E). }
  destruct H2 as (<- & Ht2 & Hr2 & He2).
  destruct (negb (p1 * 256 + p0 =? 0)); [repeat split; try assumption; (lia || discriminate)|].
  destruct body; repeat split; try assumption; (lia || discriminate).
Qed.

Lemma tm_mbap_loop_sim D c txn fuel : forall now s, (now <= D)%Z ->
  let '(r, t, rest) := tm_mbap_read_response fuel 0 D c txn now s in
  let '(r', ru) := mbap_read_response fuel (tm_end D c s) txn (map snd (tm_avail D s)) in
  r = r' /\ (now <= t <= D)%Z /\ (r = Err ETimeout -> t = D) /\ map snd (tm_avail D rest) = ru.
Proof.
  induction fuel as [|f IH]; intros now s Hn;
    cbn [tm_mbap_read_response mbap_read_response]; [repeat split; (lia || discriminate)|].
  pose proof (tm_read_mbap_sim D c now s Hn) as H1.
  destruct (tm_read_mbap 0 D c now s) as [[r t] s'].
  destruct (read_mbap (tm_end D c s) (map snd (tm_avail D s))) as [r' u'].
  destruct H1 as (<- & Ht & Hto & Hr & He).
  assert (Hrec : let '(r2, t2, rest2) := tm_mbap_read_response f 0 D c txn t s' in
                 let '(r2', ru2) := mbap_read_response f (tm_end D c s) txn u' in
                 r2 = r2' /\ (now <= t2 <= D)%Z /\ (r2 = Err ETimeout -> t2 = D) /\
                 map snd (tm_avail D rest2) = ru2).
  { specialize (IH t s' ltac:(lia)). rewrite Hr, He in IH.
    destruct (tm_mbap_read_response f 0 D c txn t s') as [[r2 t2] rest2].
    destruct (mbap_read_response f (tm_end D c s) txn u') as [r2' ru2].
    destruct IH as (H & H' & H'' & H'''). repeat split; try assumption; lia. }
  destruct r as [p tid|x].
  - destruct (tid =? txn); [repeat split; try assumption; (lia || discriminate)|exact Hrec].
  - destruct x; first [exact Hrec | repeat split; try assumption; (lia || discriminate)].
Qed.

Lemma tm_avail_len D s : (length (tm_avail D s) <= length s)%nat.
Proof.
  induction s as [|[t b] s IH]; cbn [tm_avail length]; [lia|].
  destruct (t <=? D)%Z; cbn [length]; lia.
Qed.

Lemma mbap_exchange_sim timeout t0 c txn s : (0 <= timeout)%Z ->
  let D := (t0 + timeout)%Z in
  let a := map snd (tm_avail D s) in
  let '(r, t, rest) := mbap_exchange_t timeout t0 c txn s in
  let '(r', ru) := mbap_read_response (S (length a)) (tm_end D c s) txn a in
  r = r' /\ (t0 <= t <= D)%Z /\ (r = Err ETimeout -> t = D) /\ map snd (tm_avail D rest) = ru.
Proof.
  intros Ht D a. unfold mbap_exchange_t. fold D.
  pose proof (tm_mbap_loop_sim D c txn (S (length s)) t0 s ltac:(subst D; lia)) as H.
  fold a in H.
  assert (La : (length a <= length s)%nat).
  { subst a. rewrite map_length. apply tm_avail_len. }
  rewrite (mbap_fuel_indep (S (length s)) (S (length a))) in H by lia.
  exact H.
Qed.

(* T1 for the MBAP transports: whatever the peer sends, the exchange is over
   by the deadline armed at its start *)
Lemma mbap_exchange_time timeout t0 c txn s : (0 <= timeout)%Z ->
  let '(_, t, _) := mbap_exchange_t timeout t0 c txn s in (t0 <= t <= t0 + timeout)%Z.
Proof.
  intros H. pose proof (mbap_exchange_sim timeout t0 c txn s H) as Hs. cbv zeta in Hs.
  destruct (mbap_exchange_t timeout t0 c txn s) as [[r t] rest].
  destruct (mbap_read_response _ _ _ _) as [r' ru]. apply Hs.
Qed.

Lemma tm_read_rtu_spec g D c now s :
  let '(r, t, _) := tm_read_rtu g D c now s in
  ((0 <= g)%Z -> (now <= t <= Z.max now (D + g))%Z) /\ r <> Panic /\ r <> OutOfFuel.
Proof.
  unfold tm_read_rtu.
  destruct (rft_spec g D c 3 now s) as (pre1 & _ & Ht1 & Hr1). cbv zeta in Ht1, Hr1.
  destruct (read_full_t g D c 3 now s) as [hdr t1 rest|got e t1 rest]; cbn [tm_rf_time] in *.
  2:{ destruct got; (split; [exact Ht1|split; discriminate]). }
  destruct Hr1 as [Hl _].
  destruct hdr as [|unit [|fc [|b2 [|x hdr]]]]; try discriminate Hl.
  destruct (expected_len fc b2) as [n|]; [|split; [exact Ht1|split; discriminate]].
  destruct (256 <? 3 + (n + 2)); [split; [exact Ht1|split; discriminate]|].
  destruct (rft_spec g D c (N.to_nat (n + 2)) t1 rest) as (pre2 & _ & Ht2 & Hr2). cbv zeta in Ht2, Hr2.
  assert (Ht : (0 <= g)%Z ->
            (now <= tm_rf_time (read_full_t g D c (N.to_nat (n + 2)) t1 rest) <= Z.max now (D + g))%Z)
    by (intros Hg; specialize (Ht1 Hg); specialize (Ht2 Hg); lia).
  destruct (read_full_t g D c (N.to_nat (n + 2)) t1 rest) as [body t2 r2|got e t2 r2];
    cbn [tm_rf_time] in *.
  2:{ destruct e, got; (split; [exact Ht|split; discriminate]). }
  destruct Hr2 as [Hb _].
  assert (Hsk : length (skipn (N.to_nat n) body) = 2%nat) by (rewrite skipn_length; lia).
  destruct (skipn (N.to_nat n) body) as [|lo [|hi [|y tl]]]; try discriminate Hsk.
  destruct (crc_is_equal _ lo hi); (split; [exact Ht|split; discriminate]).
Qed.

Lemma tm_read_rtu_late g D c now s : (D < now)%Z -> tm_read_rtu g D c now s = (Err ETimeout, now, s).
Proof.
  intros H. unfold tm_read_rtu. cbn [read_full_t]. replace (D <? now)%Z with true by lia. reflexivity.
Qed.

Lemma tm_end_cases D c s : tm_end D c s = Stall \/ tm_end D c s = Closed.
Proof. unfold tm_end. destruct c as [tc|]; [destruct (_ && _)%bool|]; auto. Qed.

Lemma tm_read_rtu_sim D c now s : (now <= D)%Z ->
  let '(r, t, _) := tm_read_rtu 0 D c now s in
  r = fst (read_rtu (tm_end D c s) (map snd (tm_avail D s))) /\ (now <= t <= D)%Z /\
  (r = Err ETimeout -> t = D).
Proof.
  intros Hn. unfold tm_read_rtu, read_rtu.
  pose proof (rft_sim D c 3 now s Hn) as H1.
  destruct (read_full_t 0 D c 3 now s) as [hdr t1 r1|got e t1 r1];
    destruct (read_full 3 (map snd (tm_avail D s))) as [hdr' u1|got']; try contradiction.
  2:{ destruct H1 as (<- & -> & Ht & Hto & _).
      destruct got; cbn [fst]; (split; [reflexivity|split; [lia|]]); [|discriminate].
      intros [= E]. exact (Hto E). }
  destruct H1 as (<- & Ht & Hr & He).
  destruct hdr as [|unit [|fc [|b2 [|x hdr]]]];
    try (cbn [fst]; split; [reflexivity|split; [lia|discriminate]]).
  destruct (expected_len fc b2) as [n|]; [|cbn [fst]; split; [reflexivity|split; [lia|discriminate]]].
  destruct (256 <? 3 + (n + 2)); [cbn [fst]; split; [reflexivity|split; [lia|discriminate]]|].
  pose proof (rft_sim D c (N.to_nat (n + 2)) t1 r1 ltac:(lia)) as H2.
  rewrite Hr, He in H2.
  destruct (read_full_t 0 D c (N.to_nat (n + 2)) t1 r1) as [body t2 r2|got e t2 r2];
    destruct (read_full (N.to_nat (n + 2)) u1) as [body' u2|got']; try contradiction.
  2:{ destruct H2 as (<- & -> & Ht2 & Hto & _).
      destruct (tm_end_cases D c s) as [E | E]; rewrite E in *; destruct got; cbn [short_err fst] in *;
        (split; [reflexivity|split; [lia|]]); first [discriminate|intros _; apply Hto; reflexivity]. }
  destruct H2 as (<- & Ht2 & _).
  destruct (skipn (N.to_nat n) body) as [|lo [|hi [|y tl]]];
    try (cbn [fst]; split; [reflexivity|split; [lia|discriminate]]).
  destruct (crc_is_equal _ lo hi); cbn [fst]; (split; [reflexivity|split; [lia|discriminate]]).
Qed.

Lemma tm_discard_time g c now s : (0 <= g)%Z ->
  let '(t, _) := tm_discard g c now s in (now <= t <= now + 500000 + g)%Z.
Proof.
  intros Hg. unfold tm_discard, tm_flush_window.
  pose proof (rft_time g (now + 500000) c 1024 Hg now s) as H.
  destruct (read_full_t g (now + 500000) c 1024 now s); cbn [tm_rf_time] in H; lia.
Qed.

Lemma tm_rtu_now2_eq k la t0 nreq : tm_conf_wf k -> (0 <= nreq)%Z ->
  tm_rtu_now2 k la t0 nreq = tm_rtu_read_start k la t0 nreq.
Proof.
  intros (Ht & H1 & H35 & Hg) Hn. unfold tm_rtu_now2, tm_rtu_read_start, tm_sleep.
  pose proof (Z.mul_nonneg_nonneg nreq (tm_t1 k) Hn H1) as Hm.
  destruct (t0 - (la + tm_t35 k) <? 0)%Z eqn:E; lia.
Qed.

Lemma tm_rtu_read_start_bounds k la t0 nreq : tm_conf_wf k -> (la <= t0)%Z -> (0 <= nreq)%Z ->
  (t0 <= tm_rtu_read_start k la t0 nreq <= t0 + tm_t35 k + nreq * tm_t1 k + tm_t35 k)%Z.
Proof.
  intros (Ht & H1 & H35 & Hg) Hla Hn. unfold tm_rtu_read_start.
  pose proof (Z.mul_nonneg_nonneg nreq (tm_t1 k) Hn H1) as Hm. lia.
Qed.

(* the re-synchronisation after a rejected frame never changes the outcome *)
Lemma rtu_exchange_res k la t0 nreq c s :
  fst (fst (rtu_exchange_t k la t0 nreq c s)) =
  fst (fst (tm_read_rtu (tm_gran k) (t0 + tm_timeout k) c (tm_rtu_now2 k la t0 nreq) s)).
Proof.
  unfold rtu_exchange_t. destruct (tm_read_rtu _ _ _ _ _) as [[r t3] rest].
  destruct r as [p|x| |]; try reflexivity.
  destruct (tm_resync x); [destruct (tm_discard _ _ _ _)|]; reflexivity.
Qed.

(* T1 for the RTU transports: never over before the post-write sleep, and
   over by a bound that depends on the configuration and the request only *)
Lemma rtu_exchange_time k la t0 nreq c s : tm_conf_wf k -> (0 <= nreq)%Z ->
  let '(_, t, _) := rtu_exchange_t k la t0 nreq c s in
  (tm_rtu_read_start k la t0 nreq <= t)%Z /\ ((la <= t0)%Z -> (t0 <= t <= tm_rtu_bound k t0 nreq)%Z).
Proof.
  intros Hwf Hn. unfold rtu_exchange_t.
  rewrite (tm_rtu_now2_eq k la t0 nreq Hwf Hn).
  assert (Hs : (la <= t0)%Z ->
            (t0 <= tm_rtu_read_start k la t0 nreq <= t0 + tm_t35 k + nreq * tm_t1 k + tm_t35 k)%Z)
    by (intros Hla; apply tm_rtu_read_start_bounds; assumption).
  destruct Hwf as (Ht & H1 & H35 & Hg).
  pose proof (tm_read_rtu_spec (tm_gran k) (t0 + tm_timeout k) c
                (tm_rtu_read_start k la t0 nreq) s) as Hr.
  destruct (tm_read_rtu _ _ _ _ _) as [[r t3] rest]. destruct Hr as [Hr _]. specialize (Hr Hg).
  unfold tm_rtu_bound.
  destruct r as [p|x| |]; try lia.
  destruct (tm_resync x); [|lia].
  pose proof (tm_discard_time (tm_gran k) c (tm_sleep t3 (256 * tm_t1 k)) rest Hg) as Hd.
  destruct (tm_discard _ _ _ _) as [t4 rest']. unfold tm_sleep in Hd. lia.
Qed.

Lemma rtu_exchange_sim k la t0 nreq c s : tm_conf_wf k -> tm_gran k = 0%Z -> (0 <= nreq)%Z ->
  (tm_rtu_read_start k la t0 nreq <= t0 + tm_timeout k)%Z ->
  let D := (t0 + tm_timeout k)%Z in
  fst (fst (rtu_exchange_t k la t0 nreq c s)) =
  fst (rtu_read_response (tm_end D c s) (map snd (tm_avail D s))).
Proof.
  intros Hwf Hg Hn Hs D. rewrite rtu_exchange_res, (tm_rtu_now2_eq k la t0 nreq Hwf Hn), Hg. fold D.
  pose proof (tm_read_rtu_sim D c (tm_rtu_read_start k la t0 nreq) s Hs) as H.
  destruct (tm_read_rtu 0 D c _ s) as [[r t3] rest]. destruct H as [-> _].
  unfold rtu_read_response.
  destruct (read_rtu (tm_end D c s) (map snd (tm_avail D s))) as [r' u]. cbn [fst].
  destruct r' as [p|x| |]; try reflexivity. destruct x; reflexivity.
Qed.

Lemma rtu_exchange_no_panic k la t0 nreq c s :
  fst (fst (rtu_exchange_t k la t0 nreq c s)) <> Panic /\
  fst (fst (rtu_exchange_t k la t0 nreq c s)) <> OutOfFuel.
Proof.
  rewrite rtu_exchange_res.
  pose proof (tm_read_rtu_spec (tm_gran k) (t0 + tm_timeout k) c (tm_rtu_now2 k la t0 nreq) s) as H.
  destruct (tm_read_rtu _ _ _ _ _) as [[r t3] rest]. exact (proj2 H).
Qed.

Lemma rtu_exchange_timeout : forall k la t0 nreq c s t rest,
  tm_conf_wf k -> tm_gran k = 0%Z -> (0 <= nreq)%Z ->
  rtu_exchange_t k la t0 nreq c s = (Err ETimeout, t, rest) ->
  t = Z.max (t0 + tm_timeout k) (tm_rtu_read_start k la t0 nreq).
Proof.
  intros k la t0 nreq c s t rest Hk Hg Hn. unfold rtu_exchange_t.
  rewrite (tm_rtu_now2_eq k la t0 nreq Hk Hn), Hg.
  set (D := (t0 + tm_timeout k)%Z). set (st := tm_rtu_read_start k la t0 nreq).
  assert (H3 : let '(r, t3, _) := tm_read_rtu 0 D c st s in r = Err ETimeout -> t3 = Z.max D st).
  { destruct (Z.le_gt_cases st D) as [Hle|Hgt].
    - pose proof (tm_read_rtu_sim D c st s Hle) as H.
      destruct (tm_read_rtu 0 D c st s) as [[r t3] r3]. intros E. destruct H as (_ & _ & H). rewrite (H E). lia.
    - rewrite tm_read_rtu_late by lia. intros _. lia. }
  destruct (tm_read_rtu 0 D c st s) as [[r t3] rest3].
  destruct r as [p|x| |]; try discriminate.
  destruct (tm_resync x) eqn:R.
  - destruct (tm_discard 0 c _ rest3). intros [= -> <- <-]. discriminate R.
  - intros [= -> <- <-]. apply H3. reflexivity.
Qed.

Definition tm_xchg (fr : framing) (k : tm_conf) (la : Z) (txn : N) (req : pdu) (t0 : Z)
  (c : option Z) (s : list (Z * N)) : result pdu * Z * list (Z * N) :=
  match fr with
  | FMbap => mbap_exchange_t (tm_timeout k) t0 c (u16 (txn + 1)) s
  | FRtu => rtu_exchange_t k la t0 (Z.of_nat (length (assemble_rtu req))) c s
  end.

Lemma tm_client_call_ok fr k la cfg txn o t0 c s req : client_request cfg o = Ok req ->
  let x := tm_xchg fr k la txn req t0 c s in
  let r := tm_client_call fr k la cfg txn o t0 c s in
  tmc_res r = after_recv cfg o req (fst (fst x)) /\ tmc_finish r = snd (fst x) /\
  tmc_rest r = snd x.
Proof.
  intros Hreq. unfold tm_client_call, tm_xchg, after_recv. rewrite Hreq.
  destruct fr.
  - destruct (mbap_exchange_t _ _ _ _ _) as [[r t] rest].
    destruct r as [res|x| |]; try (repeat split; reflexivity).
    cbn [fst snd]. destruct (unit_check req res); repeat split; reflexivity.
  - destruct (rtu_exchange_t _ _ _ _ _ _) as [[r t] rest].
    destruct r as [res|x| |]; try (repeat split; reflexivity).
    cbn [fst snd]. destruct (unit_check req res); repeat split; reflexivity.
Qed.

Lemma tm_client_call_rejected fr k la cfg txn o t0 c s : op_wf o -> valid_op o = false ->
  let r := tm_client_call fr k la cfg txn o t0 c s in
  tmc_res r = Err EParams /\ tmc_finish r = t0 /\ tmc_rest r = s.
Proof.
  intros Hwf V. unfold tm_client_call. rewrite (client_request_exact cfg o Hwf), V.
  repeat split; reflexivity.
Qed.

Lemma tm_request cfg o : op_wf o -> valid_op o = true ->
  client_request cfg o = Ok (spec_pdu cfg o).
Proof. intros Hwf V. rewrite (client_request_exact cfg o Hwf), V. reflexivity. Qed.

Lemma tm_req_len_nonneg cfg o : (0 <= tm_req_len cfg o)%Z.
Proof. unfold tm_req_len. lia. Qed.

(* T1, MBAP: every call is over by t0 + timeout *)
Lemma tm_client_time_mbap : forall k la cfg txn o t0 c s, (0 <= tm_timeout k)%Z ->
  (t0 <= tmc_finish (tm_client_call FMbap k la cfg txn o t0 c s) <= tm_mbap_bound k t0)%Z.
Proof.
  intros k la cfg txn o t0 c s Ht. unfold tm_mbap_bound.
  destruct (client_request cfg o) as [req|x| |] eqn:Hreq.
  2-4: unfold tm_client_call; rewrite Hreq; cbn; lia.
  destruct (tm_client_call_ok FMbap k la cfg txn o t0 c s req Hreq) as (_ & -> & _).
  cbn [tm_xchg].
  pose proof (mbap_exchange_time (tm_timeout k) t0 c (u16 (txn + 1)) s Ht) as H.
  destruct (mbap_exchange_t _ _ _ _ _) as [[r t] rest]. cbn [fst snd]. exact H.
Qed.

(* T1, RTU: the bound depends on the configuration and the request only *)
Lemma tm_client_time_rtu : forall k la cfg txn o t0 c s,
  op_wf o -> tm_conf_wf k -> (la <= t0)%Z ->
  (t0 <= tmc_finish (tm_client_call FRtu k la cfg txn o t0 c s)
      <= tm_rtu_bound k t0 (tm_req_len cfg o))%Z.
Proof.
  intros k la cfg txn o t0 c s Hwf Hk Hla.
  pose proof (tm_req_len_nonneg cfg o) as Hn.
  destruct (valid_op o) eqn:V.
  - destruct (tm_client_call_ok FRtu k la cfg txn o t0 c s _ (tm_request cfg o Hwf V))
      as (_ & -> & _).
    cbn [tm_xchg]. fold (tm_req_len cfg o).
    pose proof (rtu_exchange_time k la t0 (tm_req_len cfg o) c s Hk Hn) as H.
    destruct (rtu_exchange_t _ _ _ _ _ _) as [[r t] rest]. cbn [fst snd]. apply H. exact Hla.
  - destruct (tm_client_call_rejected FRtu k la cfg txn o t0 c s Hwf V) as (_ & -> & _).
    pose proof (tm_rtu_read_start_bounds k la t0 (tm_req_len cfg o) Hk Hla Hn) as Hs.
    destruct Hk as (Ht & H1 & H35 & Hg). unfold tm_rtu_bound. lia.
Qed.

Lemma tm_client_sim_mbap : forall k la cfg txn o t0 c s, (0 <= tm_timeout k)%Z ->
  let D := (t0 + tm_timeout k)%Z in
  let r := tm_client_call FMbap k la cfg txn o t0 c s in
  let u := client_call FMbap cfg txn o (tm_end D c s) (map snd (tm_avail D s)) in
  tmc_res r = cr_res u /\ map snd (tm_avail D (tmc_rest r)) = cr_rest u.
Proof.
  intros k la cfg txn o t0 c s Ht D r u. subst r u.
  destruct (client_request cfg o) as [req|x| |] eqn:Hreq.
  2-4: unfold tm_client_call, client_call; rewrite Hreq; split; reflexivity.
  destruct (tm_client_call_ok FMbap k la cfg txn o t0 c s req Hreq) as (-> & _ & ->).
  destruct (client_call_ok FMbap cfg txn (o) (tm_end D c s) (map snd (tm_avail D s)) req Hreq)
    as (-> & ->).
  cbn [tm_xchg recv].
  pose proof (mbap_exchange_sim (tm_timeout k) t0 c (u16 (txn + 1)) s Ht) as H.
  cbv zeta in H. fold D in H.
  destruct (mbap_exchange_t _ _ _ _ _) as [[r t] rest].
  destruct (mbap_read_response _ _ _ _) as [r' ru]. cbn [fst snd].
  destruct H as (-> & _ & _ & ->). split; reflexivity.
Qed.

Lemma tm_client_sim_rtu : forall k la cfg txn o t0 c s,
  op_wf o -> tm_conf_wf k -> tm_gran k = 0%Z ->
  (tm_rtu_read_start k la t0 (tm_req_len cfg o) <= t0 + tm_timeout k)%Z ->
  let D := (t0 + tm_timeout k)%Z in
  tmc_res (tm_client_call FRtu k la cfg txn o t0 c s) =
  cr_res (client_call FRtu cfg txn o (tm_end D c s) (map snd (tm_avail D s))).
Proof.
  intros k la cfg txn o t0 c s Hwf Hk Hg Hs D.
  destruct (valid_op o) eqn:V.
  - pose proof (tm_request cfg o Hwf V) as Hreq.
    destruct (tm_client_call_ok FRtu k la cfg txn o t0 c s _ Hreq) as (-> & _ & _).
    destruct (client_call_ok FRtu cfg txn o (tm_end D c s) (map snd (tm_avail D s)) _ Hreq)
      as (-> & _).
    cbn [tm_xchg recv]. fold (tm_req_len cfg o).
    rewrite (rtu_exchange_sim k la t0 (tm_req_len cfg o) c s Hk Hg (tm_req_len_nonneg cfg o) Hs).
    reflexivity.
  - destruct (tm_client_call_rejected FRtu k la cfg txn o t0 c s Hwf V) as (-> & _ & _).
    unfold client_call. rewrite (client_request_exact cfg o Hwf), V. reflexivity.
Qed.

Lemma tm_client_rest_suffix_mbap k la cfg txn o t0 c s :
  exists pre, s = pre ++ tmc_rest (tm_client_call FMbap k la cfg txn o t0 c s).
Proof.
  destruct (client_request cfg o) as [req|x| |] eqn:Hreq.
  2-4: unfold tm_client_call; rewrite Hreq; exists []; reflexivity.
  destruct (tm_client_call_ok FMbap k la cfg txn o t0 c s req Hreq) as (_ & _ & ->).
  cbn [tm_xchg]. unfold mbap_exchange_t.
  destruct (tm_mbap_read_response _ _ _ _ _ _ _) as [[r t] rest] eqn:E.
  apply tm_mbap_loop_spec in E as (Hp & _). exact Hp.
Qed.

Lemma tm_avail_app D pre post : Forall (fun p => (fst p <= D)%Z) pre ->
  tm_avail D (pre ++ post) = pre ++ tm_avail D post.
Proof.
  induction 1 as [|[t b] pre Hp _ IH]; [reflexivity|].
  cbn [app tm_avail]. cbn [fst] in Hp. replace (t <=? D)%Z with true by lia.
  rewrite IH. reflexivity.
Qed.

Lemma tm_avail_all D s : Forall (fun p => (fst p <= D)%Z) s -> tm_avail D s = s.
Proof.
  intros H. rewrite <- (app_nil_r s) at 1. rewrite tm_avail_app by exact H.
  cbn [tm_avail]. apply app_nil_r.
Qed.

Lemma tm_client_sim_pre_mbap k la cfg txn o t0 c pre post : (0 <= tm_timeout k)%Z ->
  Forall (fun p => (fst p <= t0 + tm_timeout k)%Z) pre ->
  let D := (t0 + tm_timeout k)%Z in
  tmc_res (tm_client_call FMbap k la cfg txn o t0 c (pre ++ post)) =
  cr_res (client_call FMbap cfg txn o (tm_end D c (pre ++ post))
            (map snd pre ++ map snd (tm_avail D post))).
Proof.
  intros Ht Htimes D.
  destruct (tm_client_sim_mbap k la cfg txn o t0 c (pre ++ post) Ht) as [-> _]. fold D.
  rewrite tm_avail_app by exact Htimes. rewrite map_app. reflexivity.
Qed.

Lemma tm_client_sim_pre_rtu k la cfg txn o t0 c pre post :
  op_wf o -> tm_conf_wf k -> tm_gran k = 0%Z ->
  (tm_rtu_read_start k la t0 (tm_req_len cfg o) <= t0 + tm_timeout k)%Z ->
  Forall (fun p => (fst p <= t0 + tm_timeout k)%Z) pre ->
  let D := (t0 + tm_timeout k)%Z in
  tmc_res (tm_client_call FRtu k la cfg txn o t0 c (pre ++ post)) =
  cr_res (client_call FRtu cfg txn o (tm_end D c (pre ++ post))
            (map snd pre ++ map snd (tm_avail D post))).
Proof.
  intros Hwf Hk Hg Hs Htimes D.
  rewrite (tm_client_sim_rtu k la cfg txn o t0 c (pre ++ post) Hwf Hk Hg Hs). fold D.
  rewrite tm_avail_app by exact Htimes. rewrite map_app. reflexivity.
Qed.

(* T2, a peer that sends nothing. MBAP: the timeout error exactly at the
   deadline. *)
Lemma tm_silent_call_mbap : forall k la cfg txn o t0,
  op_wf o -> valid_op o = true -> (0 <= tm_timeout k)%Z ->
  tm_client_call FMbap k la cfg txn o t0 None [] =
  mk_tm_call (Err ETimeout) (t0 + tm_timeout k) [].
Proof.
  intros k la cfg txn o t0 Hwf V Ht.
  destruct (tm_client_call_ok FMbap k la cfg txn o t0 None [] _ (tm_request cfg o Hwf V))
    as (H1 & H2 & H3).
  destruct (tm_client_call FMbap k la cfg txn o t0 None []) as [r f rest].
  cbn [tmc_res tmc_finish tmc_rest] in *. subst r f rest.
  cbn [tm_xchg]. unfold mbap_exchange_t. cbn [length tm_mbap_read_response].
  unfold tm_read_mbap. cbn [read_full_t].
  replace (t0 + tm_timeout k <? t0)%Z with false by lia.
  rewrite tm_horizon_zero. reflexivity.
Qed.

(* RTU, whatever the poll period: the timeout error, at the end of the poll
   that straddles the deadline, or when the transport starts listening (the
   end of the post-write sleep) if that is later *)
Lemma tm_silent_call_rtu_any : forall k la cfg txn o t0,
  op_wf o -> valid_op o = true -> tm_conf_wf k ->
  let rs := tm_rtu_read_start k la t0 (tm_req_len cfg o) in
  let D := (t0 + tm_timeout k)%Z in
  tm_client_call FRtu k la cfg txn o t0 None [] =
  mk_tm_call (Err ETimeout) (if (D <? rs)%Z then rs else tm_horizon (tm_gran k) rs D) [].
Proof.
  intros k la cfg txn o t0 Hwf V Hk rs D.
  destruct (tm_client_call_ok FRtu k la cfg txn o t0 None [] _ (tm_request cfg o Hwf V))
    as (H1 & H2 & H3).
  destruct (tm_client_call FRtu k la cfg txn o t0 None []) as [r f rest].
  cbn [tmc_res tmc_finish tmc_rest] in *. subst r f rest.
  cbn [tm_xchg]. fold (tm_req_len cfg o). unfold rtu_exchange_t.
  rewrite (tm_rtu_now2_eq k la t0 _ Hk (tm_req_len_nonneg cfg o)). fold rs D.
  unfold tm_read_rtu. cbn [read_full_t].
  destruct (D <? rs)%Z; reflexivity.
Qed.

(* on a net.Conn the deadline itself is the horizon *)
Lemma tm_silent_call_rtu : forall k la cfg txn o t0,
  op_wf o -> valid_op o = true -> tm_conf_wf k -> tm_gran k = 0%Z ->
  tm_client_call FRtu k la cfg txn o t0 None [] =
  mk_tm_call (Err ETimeout)
    (Z.max (t0 + tm_timeout k) (tm_rtu_read_start k la t0 (tm_req_len cfg o))) [].
Proof.
  intros k la cfg txn o t0 Hwf V Hk Hg.
  rewrite tm_silent_call_rtu_any by assumption. rewrite Hg, tm_horizon_zero.
  destruct (_ <? _)%Z eqn:E; f_equal; lia.
Qed.

Lemma tm_silence_mbap : forall k la cfg txn o t0,
  op_wf o -> valid_op o = true -> (0 <= tm_timeout k)%Z ->
  let r := tm_client_call FMbap k la cfg txn o t0 None [] in
  tmc_res r = Err ETimeout /\ tmc_finish r = (t0 + tm_timeout k)%Z.
Proof. intros. subst r. rewrite tm_silent_call_mbap by assumption. split; reflexivity. Qed.

Lemma tm_silence_rtu : forall k la cfg txn o t0,
  op_wf o -> valid_op o = true -> tm_conf_wf k -> tm_gran k = 0%Z ->
  let r := tm_client_call FRtu k la cfg txn o t0 None [] in
  tmc_res r = Err ETimeout /\
  tmc_finish r = Z.max (t0 + tm_timeout k) (tm_rtu_read_start k la t0 (tm_req_len cfg o)).
Proof. intros. subst r. rewrite tm_silent_call_rtu by assumption. split; reflexivity. Qed.

(* serial wrapper: the timeout is noticed at the end of the poll that
   straddles the deadline, less than one poll period late *)
Lemma tm_silence_serial : forall k la cfg txn o t0,
  op_wf o -> valid_op o = true -> tm_conf_wf k -> (0 < tm_gran k)%Z ->
  (tm_rtu_read_start k la t0 (tm_req_len cfg o) <= t0 + tm_timeout k)%Z ->
  let r := tm_client_call FRtu k la cfg txn o t0 None [] in
  tmc_res r = Err ETimeout /\
  (t0 + tm_timeout k < tmc_finish r <= t0 + tm_timeout k + tm_gran k)%Z.
Proof.
  intros k la cfg txn o t0 Hwf V Hk Hg Hs r. subst r.
  rewrite tm_silent_call_rtu_any by assumption. cbn [tmc_res tmc_finish].
  replace (_ <? _)%Z with false by lia.
  pose proof (tm_horizon_bounds (tm_gran k) _ _ ltac:(lia) Hs) as [H1 H2].
  split; [reflexivity|]. lia.
Qed.

Lemma tm_silence_rtu_any : forall k la cfg txn o t0,
  op_wf o -> valid_op o = true -> tm_conf_wf k ->
  let r := tm_client_call FRtu k la cfg txn o t0 None [] in
  let rs := tm_rtu_read_start k la t0 (tm_req_len cfg o) in
  tmc_res r = Err ETimeout /\
  (Z.max (t0 + tm_timeout k) rs <= tmc_finish r <= Z.max (t0 + tm_timeout k + tm_gran k) rs)%Z.
Proof.
  intros k la cfg txn o t0 Hwf V Hk r rs. subst r.
  rewrite tm_silent_call_rtu_any by assumption. cbn [tmc_res tmc_finish]. fold rs.
  split; [reflexivity|]. destruct (_ <? rs)%Z eqn:E; [lia|].
  pose proof (tm_horizon_bounds (tm_gran k) rs (t0 + tm_timeout k) ltac:(apply Hk) ltac:(lia)). lia.
Qed.

(* T3: a valid reply whose last byte arrives by the deadline is accepted
   (simulation, then C02) *)
Lemma tm_timely_mbap : forall k la cfg txn o t0 c pre post res vs frames,
  op_wf o -> cfg_wf cfg -> txn < 65536 -> valid_op o = true -> (0 <= tm_timeout k)%Z ->
  bytesb (p_payload res) = true -> answers cfg o res vs ->
  Forall (skippable (u16 (txn + 1))) frames ->
  map snd pre = concat frames ++ spec_frame FMbap (u16 (txn + 1)) res ->
  Forall (fun p => (fst p <= t0 + tm_timeout k)%Z) pre ->
  let r := tm_client_call FMbap k la cfg txn o t0 c (pre ++ post) in
  tmc_res r = Ok vs /\ (t0 <= tmc_finish r <= t0 + tm_timeout k)%Z.
Proof.
  intros k la cfg txn o t0 c pre post res vs frames Hwf Hcfg Htx V Ht Hb Hans HF Hpre Htimes r.
  subst r. split; [|apply tm_client_time_mbap; exact Ht].
  rewrite tm_client_sim_pre_mbap by assumption. rewrite Hpre, <- app_assoc.
  apply (client_complete_mbap cfg txn o _ res vs frames _ Hwf Hcfg Htx V Hb Hans HF).
Qed.

Lemma tm_timely_rtu : forall k la cfg txn o t0 c pre post res vs,
  op_wf o -> cfg_wf cfg -> valid_op o = true -> tm_conf_wf k -> tm_gran k = 0%Z ->
  (tm_rtu_read_start k la t0 (tm_req_len cfg o) <= t0 + tm_timeout k)%Z ->
  bytesb (p_payload res) = true -> answers cfg o res vs ->
  map snd pre = spec_frame FRtu 0 res ->
  Forall (fun p => (fst p <= t0 + tm_timeout k)%Z) pre ->
  tmc_res (tm_client_call FRtu k la cfg txn o t0 c (pre ++ post)) = Ok vs.
Proof.
  intros k la cfg txn o t0 c pre post res vs Hwf Hcfg V Hk Hg Hs Hb Hans Hpre Htimes.
  rewrite tm_client_sim_pre_rtu by assumption. rewrite Hpre.
  apply (client_complete_rtu cfg txn o _ res vs _ Hwf Hcfg V Hb Hans).
Qed.

Lemma tm_client_no_panic : forall fr k la cfg txn o t0 c s, op_wf o ->
  tmc_res (tm_client_call fr k la cfg txn o t0 c s) <> Panic /\
  tmc_res (tm_client_call fr k la cfg txn o t0 c s) <> OutOfFuel.
Proof.
  intros fr k la cfg txn o t0 c s Hwf.
  destruct (valid_op o) eqn:V.
  2:{ destruct (tm_client_call_rejected fr k la cfg txn o t0 c s Hwf V) as (-> & _ & _).
      split; discriminate. }
  destruct (tm_client_call_ok fr k la cfg txn o t0 c s _ (tm_request cfg o Hwf V)) as (-> & _ & _).
  assert (Hx : fst (fst (tm_xchg fr k la txn (spec_pdu cfg o) t0 c s)) <> Panic /\
               fst (fst (tm_xchg fr k la txn (spec_pdu cfg o) t0 c s)) <> OutOfFuel)
    by (destruct fr; [apply mbap_exchange_no_panic|apply rtu_exchange_no_panic]).
  unfold after_recv.
  destruct (fst (fst (tm_xchg fr k la txn (spec_pdu cfg o) t0 c s))) as [res|y| |];
    [|split; discriminate|destruct Hx as [[] _]; reflexivity|destruct Hx as [_ []]; reflexivity].
  destruct (unit_check (spec_pdu cfg o) res); [split; discriminate|].
  apply validate_no_panic; assumption.
Qed.
