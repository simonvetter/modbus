(* Invariants of the admission / teardown / lifecycle system, for every
   sequence of steps (= every interleaving). Inv and in_list are vocabulary
   of the statements in Properties/C09.v - C09d.v and C10.v - C10e.v. The last
   section is about systems that extend this one by further components
   (Model/Lifeblock.v, TlsLife.v, TurnAway.v). *)
From Coq Require Import List Arith Bool Lia Permutation.
Import ListNotations.
From Modbus Require Import Base.Trace Model.Slots.

Lemma in_split_first (c : conn) l : In c l ->
  exists pre post, l = pre ++ c :: post /\ ~ In c pre.
Proof.
  induction l as [|x t IH]; intros H; [contradiction|].
  destruct (Nat.eq_dec x c) as [->|Hne].
  - exists [], t. split; [reflexivity|intros []].
  - destruct H as [H|H]; [congruence|]. destruct (IH H) as (pre & post & -> & Hn).
    exists (x :: pre), post. split; [reflexivity|]. intros [E|E]; [congruence|contradiction].
Qed.

Lemma replace_first_split c v pre post : ~ In c pre ->
  replace_first c v (pre ++ c :: post) = Some (pre ++ v :: post).
Proof.
  induction pre as [|x t IH]; intros Hn; cbn [app replace_first].
  - rewrite Nat.eqb_refl. reflexivity.
  - destruct (Nat.eqb x c) eqn:E.
    + apply Nat.eqb_eq in E. subst. exfalso. apply Hn. left. reflexivity.
    + rewrite IH; [reflexivity|]. intros H. apply Hn. right. exact H.
Qed.

Lemma replace_first_none c v l : ~ In c l -> replace_first c v l = None.
Proof.
  induction l as [|x t IH]; intros Hn; [reflexivity|]. cbn [replace_first].
  destruct (Nat.eqb x c) eqn:E.
  - apply Nat.eqb_eq in E. subst. exfalso. apply Hn. left. reflexivity.
  - rewrite IH; [reflexivity|]. intros H. apply Hn. right. exact H.
Qed.

Lemma remove_swap_perm c l : In c l -> Permutation l (c :: remove_swap c l).
Proof.
  intros Hin. destruct (in_split_first c l Hin) as (pre & post & -> & Hn).
  unfold remove_swap. rewrite replace_first_split by exact Hn.
  destruct post as [|p0 pt].
  - (* c is the last element: it replaces itself and is dropped *)
    rewrite last_last. rewrite removelast_last.
    rewrite Permutation_app_comm. reflexivity.
  - destruct (@exists_last _ (p0 :: pt)) as (post' & y & E); [discriminate|]. rewrite E.
    replace (pre ++ c :: post' ++ [y]) with ((pre ++ c :: post') ++ [y])
      by (rewrite <- app_assoc; reflexivity).
    rewrite last_last.
    replace (pre ++ y :: post' ++ [y]) with ((pre ++ y :: post') ++ [y])
      by (rewrite <- app_assoc; reflexivity).
    rewrite removelast_last. rewrite <- app_assoc. cbn [app].
    transitivity (c :: pre ++ post' ++ [y]).
    + symmetry. apply Permutation_middle.
    + constructor. apply Permutation_app_head.
      rewrite Permutation_app_comm. reflexivity.
Qed.

Lemma remove_swap_absent c l : ~ In c l -> remove_swap c l = l.
Proof. intros H. unfold remove_swap. rewrite replace_first_none by exact H. reflexivity. Qed.

Lemma remove_swap_nodup c l : NoDup l -> In c l -> NoDup (remove_swap c l) /\ ~ In c (remove_swap c l).
Proof.
  intros Hnd Hin. pose proof (remove_swap_perm c l Hin) as P.
  pose proof (Permutation_NoDup P Hnd) as N. inversion N; subst. split; assumption.
Qed.

Lemma remove_swap_in c l x : NoDup l -> In c l ->
  (In x (remove_swap c l) <-> In x l /\ x <> c).
Proof.
  intros Hnd Hin. pose proof (remove_swap_perm c l Hin) as P.
  destruct (remove_swap_nodup c l Hnd Hin) as [N1 N2]. split.
  - intros H. split.
    + apply (Permutation_in x (Permutation_sym P)). right. exact H.
    + intros ->. contradiction.
  - intros [H Hne]. apply (Permutation_in x P) in H. destruct H as [H|H]; [congruence|exact H].
Qed.

Lemma remove_swap_length c l : In c l -> S (length (remove_swap c l)) = length l.
Proof. intros Hin. pose proof (Permutation_length (remove_swap_perm c l Hin)) as E. cbn in E. lia. Qed.

Lemma stat_eqb_eq a b : stat_eqb a b = true <-> a = b.
Proof. destruct a, b; cbn; split; intros H; try reflexivity; try discriminate. Qed.

Lemma stat_eqb_neq a b : a <> b -> stat_eqb a b = false.
Proof. intros H. destruct (stat_eqb a b) eqn:E; [apply stat_eqb_eq in E; contradiction|reflexivity]. Qed.

Lemma upd_same {A} (f : conn -> A) c v : upd f c v c = v.
Proof. unfold upd. rewrite Nat.eqb_refl. reflexivity. Qed.

Lemma upd_other {A} (f : conn -> A) c v x : x <> c -> upd f c v x = f x.
Proof. intros H. unfold upd. destruct (Nat.eqb x c) eqn:E; [apply Nat.eqb_eq in E; congruence|reflexivity]. Qed.

Ltac upd_cases x c :=
  destruct (Nat.eq_dec x c) as [->|?];
  [rewrite ?upd_same in *|rewrite ?upd_other in * by assumption].

Definition set_stat (s : sstate) (c : conn) (v : cstat) : sstate :=
  mkst (started s) (listening s) (acceptors s) (zombies s) (maxc s) (clients s)
       (upd (stat s) c v) (closed s).

Lemma step_off s l : enabled s l = false -> step s l = s.
Proof. intros E. unfold step. rewrite E. reflexivity. Qed.

Lemma step_req s c : step s (Req c) = s.
Proof. unfold step. destruct (negb (enabled s (Req c))); reflexivity. Qed.

Lemma step_arrive s c : listening s = true -> stat s c = Fresh -> step s (Arrive c) = set_stat s c Queued.
Proof. intros Hl Hf. unfold step, set_stat. cbn [enabled]. rewrite Hl, Hf. reflexivity. Qed.

Lemma step_take s c : stat s c = Queued -> 0 < acceptors s -> step s (Take c) = set_stat s c Taken.
Proof. intros Hq Ha. apply Nat.ltb_lt in Ha. unfold step. cbn [enabled]. rewrite Hq, Ha. reflexivity. Qed.

Lemma step_enrol s c : stat s c = Taken ->
  step s (Enrol c) =
  if started s && Nat.ltb (length (clients s)) (maxc s)
  then mkst (started s) (listening s) (acceptors s) (zombies s) (maxc s) (clients s ++ [c])
            (upd (stat s) c Serving) (closed s)
  else mkst (started s) (listening s) (acceptors s) (zombies s) (maxc s) (clients s)
            (upd (stat s) c Rejected) (upd (closed s) c true).
Proof. intros Ht. unfold step. cbn [enabled]. rewrite Ht. reflexivity. Qed.

Lemma step_end s c w : stat s c = Serving -> (w = ClosedByStop -> closed s c = true) ->
  step s (End c w) = set_stat s c Ended.
Proof.
  intros Hs Hw. unfold step. destruct w; cbn [enabled]; rewrite Hs, ?Hw by reflexivity; reflexivity.
Qed.

Lemma step_remove s c : stat s c = Ended ->
  step s (Remove c) =
  mkst (started s) (listening s) (acceptors s) (zombies s) (maxc s)
       (remove_swap c (clients s)) (upd (stat s) c Removed) (upd (closed s) c true).
Proof. intros He. unfold step. cbn [enabled]. rewrite He. reflexivity. Qed.

Lemma step_start s : started s = false ->
  step s Start = mkst true true (S (acceptors s)) (zombies s) (maxc s) (clients s) (stat s) (closed s).
Proof. intros H. unfold step. cbn [enabled negb]. rewrite H. reflexivity. Qed.

Lemma step_start_started s : started s = true -> step s Start = s.
Proof. intros H. unfold step. cbn [enabled negb]. rewrite H. reflexivity. Qed.

Lemma step_stop s : started s = true ->
  step s Stop = mkst false false 0 (zombies s + acceptors s) (maxc s) (clients s)
                     (drop_queued (stat s)) (close_all (clients s) (closed s)).
Proof. intros H. unfold step. cbn [enabled negb]. rewrite H. reflexivity. Qed.

Lemma step_stop_stopped s : started s = false -> step s Stop = s.
Proof. intros H. unfold step. cbn [enabled negb]. rewrite H. reflexivity. Qed.

Lemma step_exit s : 0 < zombies s ->
  step s AcceptExit = mkst (started s) (listening s) (acceptors s) (pred (zombies s)) (maxc s) (clients s)
                           (stat s) (closed s).
Proof. intros H. apply Nat.ltb_lt in H. unfold step. cbn [enabled]. rewrite H. reflexivity. Qed.

(* What a step can do: the equations above read the other way round. Each case
   keeps of the guard what the proofs below use, not all of it: mv_reject does
   not say that the server is stopped or the list full, mv_end not that an end
   with ClosedByStop needs a closed socket, mv_exit not that there is a zombie.
   So moves allows more than step does (step_moves is one direction only). A
   proof about one step goes through these cases and meets neither the guard
   as a boolean nor the body of step. *)
Inductive moves (s : sstate) : label -> sstate -> Prop :=
| mv_none l : moves s l s     (* guard false, a Req, Start when started, Stop when stopped *)
| mv_arrive c : listening s = true -> stat s c = Fresh -> moves s (Arrive c) (set_stat s c Queued)
| mv_take c : stat s c = Queued -> 0 < acceptors s -> moves s (Take c) (set_stat s c Taken)
| mv_enrol c : stat s c = Taken -> started s = true -> length (clients s) < maxc s ->
    moves s (Enrol c)
      (mkst (started s) (listening s) (acceptors s) (zombies s) (maxc s) (clients s ++ [c])
            (upd (stat s) c Serving) (closed s))
| mv_reject c : stat s c = Taken ->
    moves s (Enrol c)
      (mkst (started s) (listening s) (acceptors s) (zombies s) (maxc s) (clients s)
            (upd (stat s) c Rejected) (upd (closed s) c true))
| mv_end c w : stat s c = Serving -> moves s (End c w) (set_stat s c Ended)
| mv_remove c : stat s c = Ended ->
    moves s (Remove c)
      (mkst (started s) (listening s) (acceptors s) (zombies s) (maxc s)
            (remove_swap c (clients s)) (upd (stat s) c Removed) (upd (closed s) c true))
| mv_start : started s = false ->
    moves s Start (mkst true true (S (acceptors s)) (zombies s) (maxc s) (clients s) (stat s) (closed s))
| mv_stop : started s = true ->
    moves s Stop (mkst false false 0 (zombies s + acceptors s) (maxc s) (clients s)
                       (drop_queued (stat s)) (close_all (clients s) (closed s)))
| mv_exit : moves s AcceptExit
    (mkst (started s) (listening s) (acceptors s) (pred (zombies s)) (maxc s) (clients s) (stat s) (closed s)).

Lemma step_moves s l : moves s l (step s l).
Proof.
  destruct (enabled s l) eqn:En; [|rewrite step_off by exact En; constructor].
  destruct l as [c|c|c|c|c w|c| | | ]; cbn [enabled] in En.
  - apply andb_true_iff in En as [Hl Hf]. apply stat_eqb_eq in Hf.
    rewrite step_arrive by assumption. constructor; assumption.
  - apply andb_true_iff in En as [Hq Ha]. apply stat_eqb_eq in Hq. apply Nat.ltb_lt in Ha.
    rewrite step_take by assumption. constructor; assumption.
  - apply stat_eqb_eq in En. rewrite step_enrol by exact En.
    destruct (started s && Nat.ltb (length (clients s)) (maxc s)) eqn:E; [|constructor; exact En].
    apply andb_true_iff in E as [Hst Hlt]. apply Nat.ltb_lt in Hlt. constructor; assumption.
  - rewrite step_req. constructor.
  - assert (H : stat s c = Serving /\ (w = ClosedByStop -> closed s c = true)).
    { destruct w; try (split; [apply stat_eqb_eq, En|discriminate]).
      apply andb_true_iff in En as [En Hc]. split; [apply stat_eqb_eq, En|intros _; exact Hc]. }
    destruct H as [Hs Hw]. rewrite step_end by assumption. constructor; exact Hs.
  - apply stat_eqb_eq in En. rewrite step_remove by exact En. constructor; exact En.
  - destruct (started s) eqn:Hst; [rewrite step_start_started|rewrite step_start]; try exact Hst; constructor; exact Hst.
  - destruct (started s) eqn:Hst; [rewrite step_stop|rewrite step_stop_stopped]; try exact Hst; constructor; exact Hst.
  - apply Nat.ltb_lt in En. rewrite step_exit by exact En. constructor.
Qed.

Inductive cnext : cstat -> cstat -> Prop :=
| cn_arrive : cnext Fresh Queued
| cn_take : cnext Queued Taken
| cn_drop : cnext Queued Dropped
| cn_serve : cnext Taken Serving
| cn_reject : cnext Taken Rejected
| cn_end : cnext Serving Ended
| cn_remove : cnext Ended Removed.

Lemma stat_step s l c : stat (step s l) c = stat s c \/ cnext (stat s c) (stat (step s l) c).
Proof.
  assert (K : forall x v, cnext (stat s x) v ->
              upd (stat s) x v c = stat s c \/ cnext (stat s c) (upd (stat s) x v c)).
  { intros x v N. upd_cases c x; [right; exact N|left; reflexivity]. }
  destruct (step_moves s l) as [l|x _ H|x H _|x H _ _|x H|x w H|x H|_|_|]; cbn [stat set_stat];
    try (left; reflexivity); try (apply K; rewrite H; constructor).
  unfold drop_queued. destruct (stat s c); try (left; reflexivity). right. exact cn_drop.
Qed.

Lemma started_step s x : x <> Start -> started s = false -> started (step s x) = false.
Proof. intros Hx Hs. destruct (step_moves s x); cbn [started set_stat]; congruence. Qed.

Lemma listening_step s x : x <> Start -> listening s = false -> listening (step s x) = false.
Proof. intros Hx Hl. destruct (step_moves s x); cbn [listening set_stat]; congruence. Qed.

Lemma maxc_step s l : maxc (step s l) = maxc s.
Proof. destruct (step_moves s l); reflexivity. Qed.

Definition in_list (s : sstate) (c : conn) : Prop :=
  stat s c = Serving \/ stat s c = Ended.

Record Inv (s : sstate) : Prop := {
  inv_bound : length (clients s) <= maxc s;
  inv_nodup : NoDup (clients s);
  inv_members : forall c, In c (clients s) <-> in_list s c;
  inv_closed : forall c, stat s c = Rejected \/ stat s c = Removed -> closed s c = true;
  inv_stopped : started s = false -> forall c, stat s c = Serving -> closed s c = true;
  inv_listen : listening s = started s;
  inv_acceptors : started s = false -> acceptors s = 0
}.

Lemma inv_init m : Inv (init m).
Proof.
  constructor; cbn.
  - lia.
  - constructor.
  - intros x. unfold in_list. cbn. split; [contradiction|intros [H|H]; discriminate].
  - intros x [H|H]; discriminate.
  - intros _ x H. discriminate.
  - reflexivity.
  - reflexivity.
Qed.

Definition listed (v : cstat) : bool :=
  match v with Serving | Ended => true | _ => false end.

Lemma in_list_listed s c : in_list s c <-> listed (stat s c) = true.
Proof. unfold in_list. destruct (stat s c); cbn; split; intros H; try discriminate; try tauto; destruct H; discriminate. Qed.

Lemma not_client s c : Inv s -> listed (stat s c) = false -> ~ In c (clients s).
Proof. intros I H Hin. apply (inv_members s I), in_list_listed in Hin. congruence. Qed.

Lemma close_all_spec l f x : close_all l f x = true <-> In x l \/ f x = true.
Proof.
  unfold close_all. destruct (existsb (Nat.eqb x) l) eqn:E.
  - apply existsb_exists in E as [y [Hy E]]. apply Nat.eqb_eq in E. subst. tauto.
  - split; [tauto|]. intros [H|H]; [|exact H].
    assert (existsb (Nat.eqb x) l = true) by (apply existsb_exists; exists x; split; [exact H|apply Nat.eqb_refl]).
    congruence.
Qed.

Lemma Inv_move s c v cl : Inv s -> listed v = listed (stat s c) -> v <> Serving ->
  (forall x, closed s x = true -> cl x = true) -> (v = Rejected \/ v = Removed -> cl c = true) ->
  Inv (mkst (started s) (listening s) (acceptors s) (zombies s) (maxc s) (clients s) (upd (stat s) c v) cl).
Proof.
  intros [Ib Ind Im Ic Is Il Ia] Hl Hv Hmono Hc. constructor; cbn; try assumption.
  - intros x. rewrite in_list_listed. cbn [stat]. upd_cases x c.
    + rewrite Hl, <- in_list_listed. apply Im.
    + rewrite <- in_list_listed. apply Im.
  - intros x. upd_cases x c; [exact Hc|intros H; apply Hmono, Ic, H].
  - intros Hs x. upd_cases x c; [contradiction|intros H; apply Hmono, Is; assumption].
Qed.

Lemma inv_step s l : Inv s -> Inv (step s l).
Proof.
  intros I. pose proof I as [Ib Ind Im Ic Is Il Ia].
  destruct (step_moves s l) as [l|c _ H|c H _|c H Hst Hlt|c H|c w H|c H|Hst|Hst|].
  (* Arrive, Take, End *)
  2,3,6: apply Inv_move; [exact I|rewrite H; reflexivity|discriminate|trivial|intros [E|E]; discriminate E].
  - exact I.
  - (* enrolled: a new member, not on the list before *)
    assert (Hnot : ~ In c (clients s)) by (apply not_client; [exact I|rewrite H; reflexivity]).
    constructor; cbn; try assumption.
    + rewrite app_length. cbn. lia.
    + apply (Permutation_NoDup (Permutation_cons_append _ c)). constructor; assumption.
    + intros x. rewrite in_app_iff, Im, !in_list_listed. cbn [stat In]. upd_cases x c.
      * split; [reflexivity|intros _; right; left; reflexivity].
      * split; [intros [E|[E|[]]]; [exact E|congruence]|intros E; left; exact E].
    + intros x. upd_cases x c; [intros [E|E]; discriminate E|apply Ic].
    + congruence.
  - apply Inv_move; [exact I|rewrite H; reflexivity|discriminate| |intros _; apply upd_same].
    intros x Hx. upd_cases x c; [reflexivity|exact Hx].
  - (* removed: the list loses exactly this member *)
    assert (Hin : In c (clients s)) by (apply Im; right; exact H).
    constructor; cbn; try assumption.
    + pose proof (remove_swap_length c _ Hin). lia.
    + apply (remove_swap_nodup c _ Ind Hin).
    + intros x. rewrite (remove_swap_in c _ x Ind Hin), Im, !in_list_listed. cbn [stat]. upd_cases x c.
      * split; [intros [_ E]; congruence|discriminate].
      * tauto.
    + intros x. upd_cases x c; [reflexivity|apply Ic].
    + intros Hs x. upd_cases x c; [discriminate|apply Is; exact Hs].
  - constructor; cbn; try assumption; try reflexivity; discriminate.
  - (* Stop closes the members; the queued connections it drops were not among them *)
    constructor; cbn; try assumption; try reflexivity.
    + intros x. rewrite Im, !in_list_listed. cbn [stat]. unfold drop_queued. destruct (stat s x); reflexivity.
    + intros x. unfold drop_queued. rewrite close_all_spec. intros H. right. apply Ic.
      destruct (stat s x); destruct H as [H|H]; try discriminate; tauto.
    + intros _ x. unfold drop_queued. rewrite close_all_spec. intros H. left. apply Im. left.
      destruct (stat s x); try discriminate; reflexivity.
  - constructor; cbn; assumption.
Qed.

Lemma inv_run tr s : Inv s -> Inv (run s tr).
Proof. apply (run_keeps step Inv). intros s0 l. apply inv_step. Qed.

(* run_app of Base/Trace.v in terms of run, for rewriting *)
Lemma slots_run_app s a b : run s (a ++ b) = run (run s a) b.
Proof. apply run_app. Qed.

Lemma reachable_inv m tr : Inv (run (init m) tr).
Proof. apply inv_run, inv_init. Qed.

(* while the server is stopped every member of the active list has been
   closed: by Stop, or before. With inv_members this gives inv_stopped, which
   speaks of the Serving members only; Inv is what the statements of C09 / C10
   assume of a state, so the stronger clause stands beside it, and only C10e
   (every accepted connection is closed, Ended ones included) needs it. *)
Definition StoppedClosed (s : sstate) : Prop :=
  started s = false -> forall c, In c (clients s) -> closed s c = true.

Lemma stopped_closed_step s l : Inv s -> StoppedClosed s -> StoppedClosed (step s l).
Proof.
  intros I E. destruct (step_moves s l) as [l|x _ _|x _ _|x _ Hst _|x _|x w _|x H|_|_|]; try exact E.
  - (* enrolled: the server is running *)
    intros Hs. cbn [started] in Hs. congruence.
  - intros Hs c Hc. cbn [closed]. upd_cases c x; [reflexivity|exact (E Hs c Hc)].
  - intros Hs c Hc. cbn [closed clients] in *. upd_cases c x; [reflexivity|]. apply (E Hs).
    apply (remove_swap_in x _ c (inv_nodup s I)) in Hc; [apply Hc|]. apply (inv_members s I). right. exact H.
  - intros Hs. discriminate Hs.
  - intros _ c Hc. apply close_all_spec. left. exact Hc.
Qed.

Lemma reachable_stopped_closed m tr : StoppedClosed (run (init m) tr).
Proof.
  (* the second conjunct of the invariant kept by every step *)
  apply (run_keeps step (fun s => Inv s /\ StoppedClosed s)).
  - intros s l [I E]. split; [apply inv_step, I|apply stopped_closed_step; assumption].
  - split; [apply inv_init|]. intros _ c [].
Qed.

Lemma serving_le_clients s : serving_count s <= length (clients s).
Proof.
  unfold serving_count. induction (clients s) as [|x t IH]; [cbn; lia|].
  cbn [filter]. destruct (stat_eqb (stat s x) Serving); cbn [length]; lia.
Qed.

Lemma maxc_run tr s : maxc (run s tr) = maxc s.
Proof.
  apply (run_keeps step (fun s' => maxc s' = maxc s)); [|reflexivity].
  intros s0 l H. rewrite maxc_step. exact H.
Qed.

(* C09-T2: a connection refused at admission is closed and no request of it is
   ever dispatched afterwards *)
Lemma rejected_run tr s c : stat s c = Rejected -> stat (run s tr) c = Rejected.
Proof.
  apply (run_keeps step (fun s' => stat s' c = Rejected)). intros s' l H.
  destruct (stat_step s' l c) as [E|E]; [congruence|]. rewrite H in E. inversion E.
Qed.

Lemma full_list_rejects s c : Inv s -> stat s c = Taken ->
  (started s = false \/ maxc s <= length (clients s)) ->
  stat (step s (Enrol c)) c = Rejected /\ closed (step s (Enrol c)) c = true /\
  clients (step s (Enrol c)) = clients s.
Proof.
  intros I Ht Hfull.
  assert (E : (started s && Nat.ltb (length (clients s)) (maxc s)) = false).
  { destruct Hfull as [->|H]; [reflexivity|]. apply andb_false_iff. right. apply Nat.ltb_ge. exact H. }
  rewrite (step_enrol s c Ht), E. cbn [stat closed clients]. rewrite !upd_same. repeat split.
Qed.

(* C09-T3: the removal deletes exactly the ended connection, wherever it sits *)
Lemma remove_exact s c : Inv s -> stat s c = Ended ->
  Permutation (clients s) (c :: clients (step s (Remove c))) /\
  closed (step s (Remove c)) c = true.
Proof.
  intros I He. rewrite (step_remove s c He). cbn [clients closed]. rewrite upd_same. split; [|reflexivity].
  apply remove_swap_perm. apply (inv_members s I). right. exact He.
Qed.

(* C09-T4: slots are reclaimed: the list holds exactly the connections that
   are being served or whose removal is pending, so after End; Remove the
   slot is free again and a later arrival is enrolled *)
Lemma enrol_accepts s d : stat s d = Taken -> started s = true ->
  length (clients s) < maxc s ->
  stat (step s (Enrol d)) d = Serving /\ In d (clients (step s (Enrol d))).
Proof.
  intros Ht Hst Hlt. apply Nat.ltb_lt in Hlt. rewrite (step_enrol s d Ht), Hst, Hlt.
  cbn [andb stat clients]. rewrite upd_same. split; [reflexivity|].
  apply in_or_app. right. left. reflexivity.
Qed.

Lemma remove_effect s c : stat s c = Ended ->
  let s1 := step s (Remove c) in
  clients s1 = remove_swap c (clients s) /\ started s1 = started s /\ maxc s1 = maxc s /\
  (forall d, d <> c -> stat s1 d = stat s d).
Proof.
  intros He. cbn zeta. rewrite (step_remove s c He). repeat split. intros d Hd. apply upd_other. exact Hd.
Qed.

Lemma slot_reclaimed s c d : Inv s -> stat s c = Ended -> started s = true ->
  stat s d = Taken -> d <> c -> length (clients s) <= maxc s ->
  let s1 := step s (Remove c) in
  let s2 := step s1 (Enrol d) in
  stat s2 d = Serving /\ In d (clients s2).
Proof.
  intros I He Hst Ht Hne Hb. cbn zeta.
  assert (Hin : In c (clients s)) by (apply (inv_members s I); right; exact He).
  pose proof (remove_swap_length c _ Hin) as Hl.
  destruct (remove_effect s c He) as (E1 & E2 & E3 & E4).
  apply enrol_accepts.
  - rewrite E4 by exact Hne. exact Ht.
  - rewrite E2. exact Hst.
  - rewrite E1, E3. lia.
Qed.

Lemma stopped_req s c : Inv s -> started s = false -> enabled s (Req c) = false.
Proof.
  intros I Hs. cbn [enabled]. destruct (stat_eqb (stat s c) Serving) eqn:E; [|reflexivity].
  apply stat_eqb_eq in E. rewrite (inv_stopped s I Hs c E). reflexivity.
Qed.

(* C10-T1/T2: once Stop has run, and until the next Start, the listener is closed,
   every enrolled connection is closed and no request can be dispatched *)
Lemma stopped_serves_nothing m tr c :
  let s := run (init m) tr in
  started s = false -> listening s = false /\ acceptors s = 0 /\ enabled s (Req c) = false.
Proof.
  cbn zeta. intros Hs. pose proof (reachable_inv m tr) as I.
  split; [rewrite (inv_listen _ I); exact Hs|]. split; [apply (inv_acceptors _ I); exact Hs|].
  apply stopped_req; assumption.
Qed.

Lemma stop_closes_all s : started s = true ->
  let s' := step s Stop in
  started s' = false /\ listening s' = false /\ acceptors s' = 0 /\
  (forall c, In c (clients s) -> closed s' c = true).
Proof.
  intros Hs. cbn zeta. rewrite (step_stop s Hs). repeat split.
  intros c Hc. apply close_all_spec. left. exact Hc.
Qed.

Lemma taken_during_stop_rejected s c : Inv s -> stat s c = Taken -> started s = true ->
  let s' := step (step s Stop) (Enrol c) in
  stat s' c = Rejected /\ closed s' c = true.
Proof.
  intros I Ht Hs. cbn zeta.
  assert (Ht' : stat (step s Stop) c = Taken).
  { rewrite (step_stop s Hs). cbn [stat]. unfold drop_queued. rewrite Ht. reflexivity. }
  assert (Hs' : started (step s Stop) = false) by (rewrite (step_stop s Hs); reflexivity).
  destruct (full_list_rejects (step s Stop) c (inv_step s Stop I) Ht' (or_introl Hs')) as (A & B & _).
  split; assumption.
Qed.

(* C10-T3: repeated Start / Stop are no-ops *)
Lemma start_idempotent s : step (step s Start) Start = step s Start.
Proof. unfold step. cbn. destruct (started s) eqn:E; cbn; rewrite ?E; reflexivity. Qed.

Lemma stop_idempotent s : step (step s Stop) Stop = step s Stop.
Proof. unfold step. cbn. destruct (started s) eqn:E; cbn; rewrite ?E; reflexivity. Qed.

Lemma stop_start_serves_again s : started s = true ->
  let s' := step (step s Stop) Start in
  started s' = true /\ listening s' = true /\ acceptors s' = 1.
Proof. intros Hs. cbn zeta. rewrite (step_stop s Hs), step_start by reflexivity. repeat split. Qed.

Lemma remove_stat s c : stat s c = Ended -> stat (step s (Remove c)) c = Removed.
Proof. intros He. rewrite (step_remove s c He). apply upd_same. Qed.

(* C10-T4: after Stop every server goroutine has an exit path of at most two
   steps: a taken connection is refused (taken_during_stop_rejected), a served
   one (closed by Stop) ends and is removed (this lemma), an accept goroutine
   returns (step_exit); refused, removed and dropped connections have no
   enabled step left. Handlers that never return are outside the model. *)
Lemma stopped_session_winds_down s c : Inv s -> started s = false -> stat s c = Serving ->
  enabled s (End c ClosedByStop) = true /\
  let s1 := step s (End c ClosedByStop) in
  enabled s1 (Remove c) = true /\ stat (step s1 (Remove c)) c = Removed.
Proof.
  intros I Hs Hc. pose proof (inv_stopped s I Hs c Hc) as Hcl.
  split; [cbn [enabled]; rewrite Hc, Hcl; reflexivity|]. cbn zeta.
  rewrite (step_end s c ClosedByStop Hc (fun _ => Hcl)).
  assert (He : stat (set_stat s c Ended) c = Ended) by apply upd_same. split.
  - cbn [enabled]. rewrite He. reflexivity.
  - apply remove_stat. exact He.
Qed.

(* The session goroutine of c is live: c is between Enrol and Remove.
   tl_session_goroutine b (Model/TlsLife.v) and ta_session_goroutine b
   (Model/TurnAway.v) are this function on the server component of b, and
   tl_sessions / ta_sessions count the members of the active list that satisfy
   it: the statements of C10d / C10e about them are the two lemmas below, up to
   unfolding. *)
Definition session_goroutine (s : sstate) (c : conn) : bool :=
  stat_eqb (stat s c) Serving || stat_eqb (stat s c) Ended.

Lemma session_goroutine_listed s c : session_goroutine s c = listed (stat s c).
Proof. unfold session_goroutine. destruct (stat s c); reflexivity. Qed.

Lemma stopped_session_gone s c : Inv s -> started s = false -> stat s c = Serving ->
  let s1 := step s (End c ClosedByStop) in
  let s2 := step s1 (Remove c) in
  enabled s (End c ClosedByStop) = true /\ enabled s1 (Remove c) = true /\ stat s2 c = Removed /\
  session_goroutine s2 c = false /\ ~ In c (clients s2).
Proof.
  intros I Hs Hc. cbn zeta. destruct (stopped_session_winds_down s c I Hs Hc) as (A & B & C).
  cbn zeta in *. repeat split; try assumption; [rewrite session_goroutine_listed, C; reflexivity|].
  apply not_client; [repeat apply inv_step; exact I|rewrite C; reflexivity].
Qed.

Lemma sessions_are_clients s : Inv s ->
  length (filter (session_goroutine s) (clients s)) = length (clients s) /\ NoDup (clients s) /\
  (forall c, session_goroutine s c = true <-> In c (clients s)).
Proof.
  intros I.
  assert (M : forall c, session_goroutine s c = true <-> In c (clients s)).
  { intros c. rewrite session_goroutine_listed, <- in_list_listed. symmetry. apply (inv_members s I). }
  split; [|split; [apply (inv_nodup s I)|exact M]].
  rewrite filter_all; [reflexivity|]. intros c Hc. apply M. exact Hc.
Qed.

(* A system that extends this one: its state has a server component srv, and
   each of its steps leaves that component alone or is, on it, one step of
   Slots.v with the label it carries (inj). What is known of reachable states
   here is then known of the server component of its reachable states. *)
Section Extension.
  Context {S' L' : Type} (step' : S' -> L' -> S') (srv : S' -> sstate) (inj : label -> L').
  Hypothesis step_srv : forall b l,
    srv (step' b l) = srv b \/ exists x, l = inj x /\ srv (step' b l) = step (srv b) x.

  Lemma ext_reach_proj b tr : exists tr', srv (fold_left step' tr b) = run (srv b) tr'.
  Proof.
    refine (run_stutter step step' srv _ tr b). intros b' l.
    destruct (step_srv b' l) as [H|(x & _ & H)]; [left|right; exists x]; exact H.
  Qed.

  Lemma ext_inv_step b l : Inv (srv b) -> Inv (srv (step' b l)).
  Proof.
    intros I. destruct (step_srv b l) as [->|(x & _ & ->)]; [exact I|apply inv_step; exact I].
  Qed.

  Lemma ext_inv_run b tr : Inv (srv b) -> Inv (srv (fold_left step' tr b)).
  Proof. intros I. destruct (ext_reach_proj b tr) as [tr' ->]. apply inv_run, I. Qed.

  Lemma ext_started_stays_false b l : l <> inj Start -> started (srv b) = false ->
    started (srv (step' b l)) = false.
  Proof.
    intros Hl Hs. destruct (step_srv b l) as [->|(x & -> & ->)]; [exact Hs|].
    apply started_step; [congruence|exact Hs].
  Qed.

  Lemma ext_frozen {A} (q : S' -> A) :
    (forall b l, q (step' b l) = q b \/ exists c, l = inj (Req c) /\ enabled (srv b) (Req c) = true) ->
    forall tr b, Inv (srv b) -> started (srv b) = false -> (forall l, In l tr -> l <> inj Start) ->
    q (fold_left step' tr b) = q b /\ started (srv (fold_left step' tr b)) = false.
  Proof.
    intros Hq tr b I Hs Hn.
    (* the goal is the last two conjuncts of the invariant *)
    apply (run_inv step' (fun b' => Inv (srv b') /\ q b' = q b /\ started (srv b') = false)
             (fun l => l <> inj Start)); [|exact Hn|auto].
    intros b' l Hl (I' & E & Hs').
    split; [apply ext_inv_step, I'|]. split; [|apply ext_started_stays_false; assumption].
    rewrite <- E. destruct (Hq b' l) as [H|(c & _ & L)]; [exact H|].
    rewrite stopped_req in L by assumption. discriminate.
  Qed.
End Extension.
