(* Proofs about Model/TlsLife.v: Stop and connections in every phase of
   becoming a session (silent, ClientHello sent, established, mid-request). *)
From Coq Require Import List Arith Bool Lia.
Import ListNotations.
From Modbus Require Import Base.Trace Model.Slots Model.TlsLife Proofs.SlotsP.

Lemma tl_run_app b tr1 tr2 : tl_run b (tr1 ++ tr2) = tl_run (tl_run b tr1) tr2.
Proof. apply run_app. Qed.

Lemma tl_live_enabled b c : tl_live b c = enabled (tl_srv b) (Req c).
Proof. reflexivity. Qed.

(* the system extends Slots.v in the sense of SlotsP.v, section Extension *)
Lemma tl_step_srv b l :
  tl_srv (tl_step b l) = tl_srv b \/
  exists x, l = TSrv x /\ tl_srv (tl_step b l) = step (tl_srv b) x.
Proof.
  destruct l as [x|c|c|c].
  - destruct x; try (right; eexists; split; reflexivity).
    unfold tl_step. destruct (tl_req_ok b c); [|left; reflexivity].
    right. eexists. split; reflexivity.
  - left. unfold tl_step. destruct (tl_phase b c); reflexivity.
  - left. unfold tl_step. destruct (tl_shake_ok b c); reflexivity.
  - left. unfold tl_step. destruct (tl_req_ok b c); reflexivity.
Qed.

Lemma tl_reach_proj m tr : exists tr', tl_srv (tl_run (tl_init m) tr) = run (init m) tr'.
Proof. exact (ext_reach_proj tl_step tl_srv TSrv tl_step_srv (tl_init m) tr). Qed.

Lemma tl_reachable_inv m tr : Inv (tl_srv (tl_run (tl_init m) tr)).
Proof. exact (ext_inv_run tl_step tl_srv TSrv tl_step_srv (tl_init m) tr (inv_init m)). Qed.

Lemma tl_call_needs_session b l :
  tl_calls (tl_step b l) = tl_calls b \/
  (exists c, l = TSrv (Req c) /\ tl_live b c = true /\ phase_estab (tl_phase b c) = true /\
             tl_calls (tl_step b l) = S (tl_calls b)).
Proof.
  destruct l as [x|c|c|c].
  - destruct x; try (left; reflexivity).
    unfold tl_step. destruct (tl_req_ok b c) eqn:E; [|left; reflexivity].
    right. exists c. unfold tl_req_ok in E. apply andb_true_iff in E as [E1 E2].
    repeat split; assumption.
  - left. unfold tl_step. destruct (tl_phase b c); reflexivity.
  - left. unfold tl_step. destruct (tl_shake_ok b c); reflexivity.
  - left. unfold tl_step. destruct (tl_req_ok b c); reflexivity.
Qed.

Lemma calls_frozen tr' b : Inv (tl_srv b) -> started (tl_srv b) = false ->
  (forall l, In l tr' -> l <> TSrv Start) ->
  tl_calls (tl_run b tr') = tl_calls b /\ started (tl_srv (tl_run b tr')) = false.
Proof.
  apply (ext_frozen tl_step tl_srv TSrv tl_step_srv tl_calls). intros b' l.
  destruct (tl_call_needs_session b' l) as [H|(c & El & L & _)]; [left; exact H|].
  right. exists c. split; [exact El|]. rewrite <- tl_live_enabled. exact L.
Qed.
