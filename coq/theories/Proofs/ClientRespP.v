(* Proofs about the client's reply handling (Model/Client.v): which requests
   are sent, reply validation against Spec/ClientSpec.v, the exchange.
   The five write operations are validated alike (is_write, write_echo,
   validate_write), so validate_complete, validate_sound, validate_no_panic and
   answers_shape treat them in one step and then go through the three reads. *)
From Modbus Require Import Base.Bytes Model.Crc Model.Encoding Model.Wire Model.Client Model.EncLists
  Spec.ModbusSpec Spec.ClientSpec Proofs.EncodingP Proofs.BoolsP Proofs.EncListsP Proofs.CrcP
  Proofs.FramingP Proofs.ClientReqP.

Lemma odd_mod2 n : Nat.odd n = (n mod 2 =? 1)%nat.
Proof. rewrite <- Nat.bit0_odd. apply Nat.bit0_eqb. Qed.

Lemma even_mod2 n : Nat.even n = (n mod 2 =? 0)%nat.
Proof.
  rewrite <- Nat.negb_odd, odd_mod2.
  destruct (n mod 2 =? 1)%nat eqn:E1, (n mod 2 =? 0)%nat eqn:E2; try reflexivity; lia.
Qed.

Lemma pair_swap_is_swap_pairs l : pair_swap l = swap_pairs l.
Proof. reflexivity. Qed.

Lemma request_no_panic cfg o :
  client_request cfg o <> Panic /\ client_request cfg o <> OutOfFuel.
Proof.
  destruct o as [di a q|w a q rt|raw a q rt|a v|a vs|a v|w a vs|raw a bs];
    cbn [client_request]; unfold req_read_bools, req_read_regs, req_write_regs;
    try destruct rt;
    repeat match goal with
    | |- context [if ?c then _ else _] => destruct c
    end; split; discriminate.
Qed.

Lemma request_ok_valid cfg o req : op_wf o -> client_request cfg o = Ok req ->
  valid_op o = true /\ p_unit req = c_unit cfg /\ p_fc req = spec_fc o.
Proof.
  intros Hwf. rewrite (client_request_exact cfg o Hwf).
  destruct (valid_op o); [|discriminate]. intros H. injection H as <-. repeat split.
Qed.

Lemma request_valid_ok cfg o : op_wf o -> valid_op o = true ->
  exists req, client_request cfg o = Ok req /\ p_unit req = c_unit cfg /\ p_fc req = spec_fc o.
Proof.
  intros Hwf V. exists (spec_pdu cfg o). rewrite (client_request_exact cfg o Hwf), V. repeat split.
Qed.

Lemma exc_err_documented c :
  exc_err c = if documented_exception c then EExc c else EExcUnknown c.
Proof. reflexivity. Qed.

Lemma eop_err req res : exists x, exception_or_protocol req res = Err x.
Proof.
  unfold exception_or_protocol. destruct (p_fc res =? N.lor (p_fc req) 128).
  - destruct (p_payload res) as [|c [|d t]]; eexists; reflexivity.
  - eexists; reflexivity.
Qed.

Lemma spec_fc_cases o : In (spec_fc o) [1; 2; 3; 4; 5; 6; 15; 16].
Proof.
  destruct o as [di a q|w a q rt|raw a q rt|a v|a vs|a v|w a vs|raw a bs];
    try destruct di; try destruct rt; cbn [spec_fc In]; tauto.
Qed.

(* one goal per function code *)
Ltac fc_cases o :=
  let H := fresh "H" in
  pose proof (spec_fc_cases o) as H; cbn [In] in H;
  repeat (destruct H as [<- | H]); [..|destruct H].

Lemma spec_fc_normal o : N.land (spec_fc o) 0x80 = 0.
Proof. fc_cases o; reflexivity. Qed.

Lemma spec_fc_byte o : spec_fc o < 128.
Proof. fc_cases o; reflexivity. Qed.

Lemma spec_fc_exc o :
  N.land (spec_fc o + 128) 0x80 <> 0 /\ spec_fc o + 128 = N.lor (spec_fc o) 0x80.
Proof. fc_cases o; split; (discriminate || reflexivity). Qed.

Lemma unit_check_same req res : p_unit res = p_unit req -> unit_check req res = None.
Proof.
  intros H. unfold unit_check. rewrite H, N.eqb_refl.
  destruct (N.land (p_fc res) 128 =? 0); reflexivity.
Qed.

Lemma unit_check_gateway req res : N.land (p_fc res) 0x80 <> 0 -> p_unit res = 255 ->
  unit_check req res = None.
Proof.
  intros Hf H. unfold unit_check. apply N.eqb_neq in Hf. rewrite Hf, H.
  rewrite orb_true_r. reflexivity.
Qed.

Lemma unit_check_foreign req res : N.land (p_fc res) 0x80 = 0 -> p_unit res <> p_unit req ->
  unit_check req res = Some EBadUnit.
Proof.
  intros Hf H. unfold unit_check. rewrite Hf. apply N.eqb_neq in H. rewrite H. reflexivity.
Qed.

Lemma unit_check_normal_inv req res : N.land (p_fc res) 0x80 = 0 ->
  unit_check req res = None -> p_unit res = p_unit req.
Proof.
  intros Hf. unfold unit_check. rewrite Hf. cbn [N.eqb].
  destruct (p_unit res =? p_unit req) eqn:E; [intros _; apply N.eqb_eq; exact E|discriminate].
Qed.

Lemma validate_other_fc cfg o req res : (p_fc res =? p_fc req) = false ->
  client_validate cfg o req res = exception_or_protocol req res.
Proof.
  intros E. destruct o; cbn [client_validate]; unfold validate_read_regs, echo4; rewrite E; reflexivity.
Qed.

Lemma validate_read_regs_ok req res q k bc data :
  p_fc res = p_fc req -> p_payload res = bc :: data -> lenN data = 2 * q -> bc = 2 * q ->
  validate_read_regs req res q k = k data.
Proof.
  intros Hf Hp Hl Hb. unfold validate_read_regs. rewrite Hf, N.eqb_refl, Hp.
  rewrite lenN_cons, Hl, Hb, !N.eqb_refl. reflexivity.
Qed.

Lemma validate_read_regs_cases req res q k :
  (exists data, p_fc res = p_fc req /\ p_payload res = (2 * q) :: data /\ lenN data = 2 * q /\
                validate_read_regs req res q k = k data) \/
  (exists x, validate_read_regs req res q k = Err x).
Proof.
  unfold validate_read_regs. destruct (p_fc res =? p_fc req) eqn:Ef.
  2:{ right. apply eop_err. }
  destruct (p_payload res) as [|bc data] eqn:Ep; [right; eexists; reflexivity|].
  rewrite lenN_cons.
  destruct (1 + lenN data =? 1 + 2 * q) eqn:E1; cbn [negb]; [|right; eexists; reflexivity].
  destruct (bc =? 2 * q) eqn:E2; cbn [negb]; [|right; eexists; reflexivity].
  left. exists data. apply N.eqb_eq in Ef, E2. subst bc.
  repeat split; try assumption; lia.
Qed.

Lemma echo_ok req res l :
  p_fc res = p_fc req -> p_payload res = l -> echo4 req res l [] = Ok VUnit.
Proof.
  intros Hf Hp. unfold echo4. rewrite Hf, N.eqb_refl, Hp, app_nil_r.
  replace (list_eqb l l) with true; [reflexivity|].
  symmetry. apply list_eqb_eq. reflexivity.
Qed.

Lemma echo_cases req res l :
  (p_fc res = p_fc req /\ p_payload res = l /\ echo4 req res l [] = Ok VUnit) \/
  (exists x, echo4 req res l [] = Err x).
Proof.
  unfold echo4. rewrite app_nil_r. destruct (p_fc res =? p_fc req) eqn:Ef.
  2:{ right. apply eop_err. }
  destruct (list_eqb (p_payload res) l) eqn:El; [|right; eexists; reflexivity].
  left. apply N.eqb_eq in Ef. apply list_eqb_eq in El. repeat split; assumption.
Qed.

(* The five write operations are validated alike: the reply must repeat the
   first four payload bytes of the request. Every write PDU begins with the
   address and the value or quantity, two bytes each, so these four bytes are
   what the specification (answers) asks the reply to carry. *)
Definition is_write (o : op) : bool :=
  match o with
  | OpReadBools _ _ _ | OpReadRegs _ _ _ _ | OpReadBytes _ _ _ _ => false
  | _ => true
  end.

Definition write_echo (cfg : ccfg) (o : op) : list N := firstn 4 (spec_payload cfg o).

Lemma answers_write cfg o res vs : is_write o = true ->
  (answers cfg o res vs <->
   p_unit res = c_unit cfg /\ p_fc res = spec_fc o /\ p_payload res = write_echo cfg o /\ vs = VUnit).
Proof.
  unfold answers, write_echo.
  destruct o as [di a q|w a q rt|raw a q rt|a v|a vs'|a v|w a vs'|raw a bs]; try discriminate;
    intros _; cbn [spec_payload op_count be16 app firstn]; [destruct v| |destruct (c_endian cfg), (c_word cfg)| |];
    reflexivity.
Qed.

Lemma write_echo_shape cfg o : is_write o = true ->
  exists b0 b1 b2 b3, write_echo cfg o = [b0; b1; b2; b3] /\
    forall b, expected_len (spec_fc o) b = Some 3.
Proof.
  unfold write_echo.
  destruct o as [di a q|w a q rt|raw a q rt|a v|a vs'|a v|w a vs'|raw a bs]; try discriminate;
    intros _; cbn [spec_payload op_count be16 app firstn]; [destruct v| |destruct (c_endian cfg), (c_word cfg)| |];
    do 4 eexists; split; reflexivity.
Qed.

Lemma echo4_ext req res a b l : a ++ b = l -> echo4 req res a b = echo4 req res l [].
Proof. intros <-. unfold echo4. rewrite app_nil_r. reflexivity. Qed.

Lemma validate_write cfg o req res : is_write o = true -> op_wf o -> valid_op o = true ->
  client_validate cfg o req res = echo4 req res (write_echo cfg o) [].
Proof.
  unfold write_echo, valid_op.
  destruct o as [di a q|w a q rt|raw a q rt|a v|a vs'|a v|w a vs'|raw a bs]; try discriminate;
    intros _ Hwf V; cbn [op_wf op_regtype_ok op_count op_limit op_addr] in *;
    cbn [client_validate]; apply echo4_ext; cbn [spec_payload op_count].
  - destruct v; reflexivity.
  - rewrite be16_u16. reflexivity.
  - rewrite <- spec16_enc with (w := c_word cfg) by lia.
    destruct (c_endian cfg), (c_word cfg); reflexivity.
  - destruct Hwf as (Hw & _). rewrite (enc_values_len cfg w vs' Hw).
    replace (u16 (2 * w * lenN vs') / 2) with (w * lenN vs'); [reflexivity|].
    remember (lenN vs') as L. unfold u16. destruct Hw as [-> | [-> | ->]]; lia.
  - rewrite image_len.
    replace (u16 (2 * ((lenN bs + 1) / 2)) / 2) with ((lenN bs + 1) / 2); [reflexivity|].
    remember (lenN bs) as L. unfold u16. lia.
Qed.

Lemma bool_bytes_spec q : bool_bytes q = (q + 7) / 8.
Proof. apply ceil8. Qed.

Lemma decode_bool_at_coil data i : (i / 8 < length data)%nat ->
  decode_bool_at data i = Some (coil_at data i).
Proof.
  intros H. unfold decode_bool_at, coil_at.
  rewrite (nth_error_nth' data 0 H). reflexivity.
Qed.

Lemma decode_bools_coils q data : (q <= 8 * length data)%nat ->
  decode_bools q data = Some (map (coil_at data) (seq 0 q)).
Proof.
  intros H. unfold decode_bools. apply sequence_map_some.
  intros i Hi. apply in_seq in Hi. apply decode_bool_at_coil.
  apply Nat.div_lt_upper_bound; lia.
Qed.

Lemma coils_ext data l :
  (forall i, (i < length l)%nat -> nth i l false = coil_at data i) ->
  l = map (coil_at data) (seq 0 (length l)).
Proof.
  intros H. rewrite <- (firstn_all l) at 1.
  rewrite <- (map_nth_seq l false (length l)) by lia.
  apply map_ext_in. intros i Hi. apply in_seq in Hi. apply H. lia.
Qed.

Lemma coils_nth data q i : (i < q)%nat ->
  nth i (map (coil_at data) (seq 0 q)) false = coil_at data i.
Proof.
  intros H. rewrite (nth_indep _ false (coil_at data 0)) by (rewrite map_length, seq_length; exact H).
  rewrite map_nth, seq_nth by exact H. reflexivity.
Qed.

Lemma spec_bytes_len n e w v : length (spec_bytes n e w v) = (2 * n)%nat.
Proof.
  unfold spec_bytes, layout, words_of.
  rewrite (flat_map_length_const _ 2) by (intros x _; destruct e; reflexivity).
  destruct w; rewrite ?rev_length, map_length, rev_length, seq_length; reflexivity.
Qed.

Lemma spec_regs_len w e wo xs :
  lenN (flat_map (spec_bytes (N.to_nat w) e wo) xs) = 2 * (lenN xs * w).
Proof.
  unfold lenN. rewrite (flat_map_length_const _ (2 * N.to_nat w)%nat).
  - lia.
  - intros x _. apply spec_bytes_len.
Qed.

(* regs_k and bytes_k (below) are the continuations that client_validate hands
   to validate_read_regs for OpReadRegs and OpReadBytes, copied from
   Model/Client.v so that they have names; validate_regs_eq and
   validate_bytes_eq hold by reflexivity as long as the copies are in step. *)
Definition regs_k (cfg : ccfg) (w : N) : list N -> result values :=
  fun data =>
    if w =? 1 then opt_result (bytes_to_u16s (c_endian cfg) data) VNums
    else if w =? 2 then opt_result (bytes_to_u32s (c_endian cfg) (c_word cfg) data) VNums
    else opt_result (bytes_to_u64s (c_endian cfg) (c_word cfg) data) VNums.

Lemma regs_k_dec cfg w data :
  regs_k cfg w data = opt_result (dec_list (width_of w) (c_endian cfg) (c_word cfg) data) VNums.
Proof. unfold regs_k, width_of. destruct (w =? 1); [|destruct (w =? 2)]; reflexivity. Qed.

Lemma regs_q w q : w = 1 \/ w = 2 \/ w = 4 -> q * w <= 65535 ->
  (if w =? 1 then q else register_count q w) = q * w.
Proof. intros Hw H. rewrite reg_count_eq by (assumption || lia). lia. Qed.

Lemma regs_k_complete cfg w xs : w = 1 \/ w = 2 \/ w = 4 ->
  Forall (fun v => v < 2 ^ (16 * w)) xs ->
  regs_k cfg w (flat_map (spec_bytes (N.to_nat w) (c_endian cfg) (c_word cfg)) xs) = Ok (VNums xs).
Proof.
  intros Hw HF. rewrite <- (enc_values_spec cfg w xs Hw HF), regs_k_dec, enc_value_list.
  rewrite (proj2 (width_of_cases w Hw)) in HF. rewrite enc_list_roundtrip by exact HF. reflexivity.
Qed.

Lemma regs_k_sound cfg w data vs : w = 1 \/ w = 2 \/ w = 4 -> bytesb data = true ->
  regs_k cfg w data = Ok vs ->
  exists xs, vs = VNums xs /\
    data = flat_map (spec_bytes (N.to_nat w) (c_endian cfg) (c_word cfg)) xs /\
    Forall (fun v => v < 2 ^ (16 * w)) xs.
Proof.
  intros Hw Hb. rewrite regs_k_dec.
  destruct (dec_list (width_of w) (c_endian cfg) (c_word cfg) data) as [xs|] eqn:E; [|discriminate].
  intros H. injection H as <-. exists xs. split; [reflexivity|].
  apply (dec_list_iff _ _ _ _ _ Hb) in E as [-> HF].
  rewrite <- (proj2 (width_of_cases w Hw)) in HF. split; [|exact HF].
  rewrite <- enc_value_list. apply enc_values_spec; assumption.
Qed.

Lemma regs_k_total cfg w q data : w = 1 \/ w = 2 \/ w = 4 -> lenN data = 2 * (q * w) ->
  exists xs, regs_k cfg w data = Ok (VNums xs).
Proof.
  intros Hw Hl. rewrite regs_k_dec.
  destruct (dec_list_total (width_of w) (c_endian cfg) (c_word cfg) (N.to_nat q) data) as [xs ->].
  - rewrite <- (proj1 (width_of_cases w Hw)). unfold lenN in Hl. lia.
  - eexists; reflexivity.
Qed.

Definition bytes_k (cfg : ccfg) (raw : bool) (q : N) : list N -> result values :=
  fun data =>
    if andb (negb raw) (match c_endian cfg with LittleE => true | BigE => false end)
       && Nat.odd (length data) then Panic
    else
      let sw := match raw, c_endian cfg with
                | false, LittleE => swap_pairs data
                | _, _ => data
                end in
      if q mod 2 =? 1 then
        (match sw with
         | [] => Panic
         | _ => Ok (VBytes (firstn (length sw - 1) sw))
         end)
      else Ok (VBytes sw).

Lemma bytes_k_ok cfg raw q data : lenN data = 2 * ((q + 1) / 2) ->
  bytes_k cfg raw q data =
    Ok (VBytes (firstn (N.to_nat q)
                  (match raw, c_endian cfg with
                   | false, LittleE => pair_swap data
                   | _, _ => data
                   end))).
Proof.
  intros Hl. unfold bytes_k, lenN in *.
  rewrite odd_mod2. replace (length data mod 2 =? 1)%nat with false by lia.
  rewrite andb_false_r. change (pair_swap data) with (swap_pairs data).
  set (sw := match raw, c_endian cfg with
             | false, LittleE => swap_pairs data
             | _, _ => data
             end).
  assert (Hsw : length sw = length data).
  { subst sw. destruct raw, (c_endian cfg); try reflexivity. apply swap_pairs_len. }
  destruct (q mod 2 =? 1) eqn:E.
  - destruct sw as [|x t] eqn:Es; [cbn [length] in Hsw; lia|].
    rewrite <- Es in *. do 3 f_equal. lia.
  - rewrite firstn_all2 by lia. reflexivity.
Qed.

Lemma validate_regs_eq cfg w a q rt req res :
  client_validate cfg (OpReadRegs w a q rt) req res =
  validate_read_regs req res (if w =? 1 then q else register_count q w) (regs_k cfg w).
Proof. reflexivity. Qed.

Lemma validate_bytes_eq cfg raw a q rt req res :
  client_validate cfg (OpReadBytes raw a q rt) req res =
  validate_read_regs req res (q / 2 + q mod 2) (bytes_k cfg raw q).
Proof. reflexivity. Qed.

Lemma half_up q : q / 2 + q mod 2 = (q + 1) / 2.
Proof. lia. Qed.

Lemma validate_bools_ok cfg di a q req res data :
  p_fc res = p_fc req -> p_payload res = lenN data :: data -> lenN data = (q + 7) / 8 ->
  client_validate cfg (OpReadBools di a q) req res =
    Ok (VBools (map (coil_at data) (seq 0 (N.to_nat q)))).
Proof.
  intros Hf Hp Hl. cbn [client_validate]. rewrite Hf, N.eqb_refl, Hp.
  rewrite lenN_cons, bool_bytes_spec, Hl, N.eqb_refl. cbn [negb].
  replace ((q + 7) / 8 + 1 =? 1 + (q + 7) / 8) with true by lia. cbn [negb].
  rewrite decode_bools_coils by (unfold lenN in Hl; lia). reflexivity.
Qed.

Lemma validate_bools_cases cfg di a q req res :
  (exists data, p_fc res = p_fc req /\ p_payload res = lenN data :: data /\
                lenN data = (q + 7) / 8) \/
  (exists x, client_validate cfg (OpReadBools di a q) req res = Err x).
Proof.
  cbn [client_validate]. destruct (p_fc res =? p_fc req) eqn:Ef.
  2:{ right. apply eop_err. }
  rewrite bool_bytes_spec.
  destruct (lenN (p_payload res) =? 1 + (q + 7) / 8) eqn:E1; cbn [negb];
    [|right; eexists; reflexivity].
  destruct (p_payload res) as [|bc data] eqn:Ep; [rewrite N.eqb_eq in E1; unfold lenN in E1; cbn [length] in E1; lia|].
  destruct (bc + 1 =? 1 + (q + 7) / 8) eqn:E2; cbn [negb]; [|right; eexists; reflexivity].
  left. exists data. rewrite lenN_cons in E1. apply N.eqb_eq in Ef.
  split; [exact Ef|]. split; [f_equal; lia|lia].
Qed.

Lemma validate_complete cfg o req res vs : op_wf o -> valid_op o = true ->
  p_fc req = spec_fc o -> answers cfg o res vs -> client_validate cfg o req res = Ok vs.
Proof.
  intros Hwf V Hreq Hans. destruct (is_write o) eqn:W.
  { rewrite (validate_write cfg o req res W Hwf V).
    apply (answers_write cfg o res vs W) in Hans as (_ & Hf & Hp & ->).
    apply echo_ok; [congruence|exact Hp]. }
  destruct Hans as (Hu & Hf & Hans).
  assert (Hfc : p_fc res = p_fc req) by congruence. clear Hf Hreq.
  unfold valid_op in V.
  destruct o as [di a q|w a q rt|raw a q rt|a v|a vs'|a v|w a vs'|raw a bs]; try discriminate W;
    cbn [op_wf op_regtype_ok op_count op_limit op_addr] in *.
  - destruct Hans as (data & l & Hp & Hld & -> & Hll & Hnth).
    rewrite (validate_bools_ok cfg di a q req res data Hfc Hp Hld).
    do 2 f_equal. replace (N.to_nat q) with (length l) by (unfold lenN in Hll; lia).
    symmetry. apply coils_ext. exact Hnth.
  - destruct Hwf as (Hw & Ha & Hq). destruct Hans as (xs & Hp & Hlx & HF & ->).
    rewrite validate_regs_eq, regs_q by (assumption || lia).
    rewrite (validate_read_regs_ok _ _ _ _ _ _ Hfc Hp); [|rewrite spec_regs_len, Hlx; reflexivity|reflexivity].
    apply regs_k_complete; assumption.
  - destruct Hans as (data & Hp & Hl & ->).
    rewrite validate_bytes_eq, half_up.
    rewrite (validate_read_regs_ok _ _ _ _ _ _ Hfc Hp Hl eq_refl).
    apply bytes_k_ok. exact Hl.
Qed.

Lemma validate_sound cfg o req res vs : op_wf o -> valid_op o = true ->
  p_fc req = spec_fc o -> p_unit res = c_unit cfg -> bytesb (p_payload res) = true ->
  client_validate cfg o req res = Ok vs -> answers cfg o res vs.
Proof.
  intros Hwf V Hreq Hu Hb H. destruct (is_write o) eqn:W.
  { rewrite (validate_write cfg o req res W Hwf V) in H.
    destruct (echo_cases req res (write_echo cfg o)) as [(Hf & Hp & Hk)|(x & Hx)];
      [|rewrite Hx in H; discriminate].
    rewrite Hk in H. injection H as <-. apply (answers_write cfg o res VUnit W).
    split; [exact Hu|]. split; [congruence|]. split; [exact Hp|reflexivity]. }
  unfold valid_op in V.
  destruct o as [di a q|w a q rt|raw a q rt|a v|a vs'|a v|w a vs'|raw a bs]; try discriminate W;
    cbn [op_wf op_regtype_ok op_count op_limit op_addr] in *.
  - destruct (validate_bools_cases cfg di a q req res) as [(data & Hf & Hp & Hl)|(x & Hx)];
      [|rewrite Hx in H; discriminate].
    rewrite (validate_bools_ok cfg di a q req res data Hf Hp Hl) in H.
    inversion H; subst vs. clear H.
    split; [exact Hu|]. split; [congruence|].
    exists data, (map (coil_at data) (seq 0 (N.to_nat q))).
    split; [exact Hp|]. split; [exact Hl|]. split; [reflexivity|].
    split; [unfold lenN; rewrite map_length, seq_length; lia|].
    intros i Hi. rewrite map_length, seq_length in Hi. apply coils_nth. exact Hi.
  - destruct Hwf as (Hw & Ha & Hq).
    rewrite validate_regs_eq, regs_q in H by (assumption || lia).
    destruct (validate_read_regs_cases req res (q * w) (regs_k cfg w))
      as [(data & Hf & Hp & Hl & Hk)|(x & Hx)]; [|rewrite Hx in H; discriminate].
    rewrite Hk in H. rewrite Hp in Hb. apply bytesb_cons in Hb as [_ Hb].
    destruct (regs_k_sound cfg w data vs Hw Hb H) as (xs & -> & Hd & HF).
    split; [exact Hu|]. split; [congruence|].
    exists xs. split; [rewrite Hp, Hd; reflexivity|]. split; [|split; [exact HF|reflexivity]].
    rewrite Hd, spec_regs_len in Hl. remember (lenN xs) as L.
    destruct Hw as [-> | [-> | ->]]; lia.
  - rewrite validate_bytes_eq, half_up in H.
    destruct (validate_read_regs_cases req res ((q + 1) / 2) (bytes_k cfg raw q))
      as [(data & Hf & Hp & Hl & Hk)|(x & Hx)]; [|rewrite Hx in H; discriminate].
    rewrite Hk, (bytes_k_ok cfg raw q data Hl) in H. inversion H; subst vs. clear H.
    split; [exact Hu|]. split; [congruence|].
    exists data. cbn [op_count]. split; [exact Hp|]. split; [exact Hl|reflexivity].
Qed.

Lemma validate_no_panic cfg o req res : op_wf o -> valid_op o = true ->
  client_validate cfg o req res <> Panic /\ client_validate cfg o req res <> OutOfFuel.
Proof.
  intros Hwf V. destruct (is_write o) eqn:W.
  { rewrite (validate_write cfg o req res W Hwf V).
    destruct (echo_cases req res (write_echo cfg o)) as [(_ & _ & ->)|(x & ->)]; split; discriminate. }
  unfold valid_op in V.
  destruct o as [di a q|w a q rt|raw a q rt|a v|a vs'|a v|w a vs'|raw a bs]; try discriminate W;
    cbn [op_wf op_regtype_ok op_count op_limit op_addr] in *.
  - destruct (validate_bools_cases cfg di a q req res) as [(data & Hf & Hp & Hl)|(x & Hx)].
    + rewrite (validate_bools_ok cfg di a q req res data Hf Hp Hl). split; discriminate.
    + rewrite Hx. split; discriminate.
  - destruct Hwf as (Hw & Ha & Hq).
    rewrite validate_regs_eq, regs_q by (assumption || lia).
    destruct (validate_read_regs_cases req res (q * w) (regs_k cfg w))
      as [(data & Hf & Hp & Hl & Hk)|(x & Hx)]; [|rewrite Hx; split; discriminate].
    rewrite Hk. destruct (regs_k_total cfg w q data Hw Hl) as [xs Hx]. rewrite Hx.
    split; discriminate.
  - rewrite validate_bytes_eq, half_up.
    destruct (validate_read_regs_cases req res ((q + 1) / 2) (bytes_k cfg raw q))
      as [(data & Hf & Hp & Hl & Hk)|(x & Hx)]; [|rewrite Hx; split; discriminate].
    rewrite Hk, (bytes_k_ok cfg raw q data Hl). split; discriminate.
Qed.

Lemma validate_exception cfg o req res code :
  p_fc req = spec_fc o -> p_fc res = spec_fc o + 128 -> p_payload res = [code] ->
  client_validate cfg o req res = Err (exc_err code).
Proof.
  intros Hreq Hf Hp. rewrite validate_other_fc by (apply N.eqb_neq; lia).
  unfold exception_or_protocol. rewrite Hreq, Hf, Hp.
  destruct (spec_fc_exc o) as [_ Hor]. rewrite <- Hor, N.eqb_refl. reflexivity.
Qed.

Definition recv (fr : framing) (txn : N) (e : send) (s : list N) : result pdu * list N :=
  match fr with
  | FMbap => mbap_read_response (S (length s)) e (u16 (txn + 1)) s
  | FRtu => rtu_read_response e s
  end.

Definition after_recv (cfg : ccfg) (o : op) (req : pdu) (r : result pdu) : result values :=
  match r with
  | Ok res =>
      match unit_check req res with
      | Some x => Err x
      | None => client_validate cfg o req res
      end
  | Err x => Err x
  | Panic => Panic
  | OutOfFuel => OutOfFuel
  end.

Lemma client_call_ok fr cfg txn o e s req : client_request cfg o = Ok req ->
  cr_res (client_call fr cfg txn o e s) = after_recv cfg o req (fst (recv fr txn e s)) /\
  cr_rest (client_call fr cfg txn o e s) = snd (recv fr txn e s).
Proof.
  intros Hreq. unfold client_call, transport_exchange, recv, after_recv. rewrite Hreq.
  destruct fr.
  - destruct (mbap_read_response (S (length s)) e (u16 (txn + 1)) s) as [r rest].
    destruct r as [res|x| |]; try (split; reflexivity).
    cbn [fst snd]. destruct (unit_check req res); split; reflexivity.
  - destruct (rtu_read_response e s) as [r rest].
    destruct r as [res|x| |]; try (split; reflexivity).
    cbn [fst snd]. destruct (unit_check req res); split; reflexivity.
Qed.

Lemma client_call_rejected fr cfg txn o e s x : client_request cfg o = Err x ->
  client_call fr cfg txn o e s = mkcall (Err x) [] s txn.
Proof. intros H. unfold client_call. rewrite H. reflexivity. Qed.

Lemma validate_ok_fc cfg o req res vs :
  client_validate cfg o req res = Ok vs -> p_fc res = p_fc req.
Proof.
  destruct (p_fc res =? p_fc req) eqn:E; [intros _; apply N.eqb_eq; exact E|].
  rewrite validate_other_fc by exact E. destruct (eop_err req res) as [x ->]. discriminate.
Qed.

Lemma recv_inv fr txn e s res rest : bytesb s = true ->
  recv fr txn e s = (Ok res, rest) ->
  bytesb (p_payload res) = true /\
  exists pre,
    s = pre ++ spec_frame fr (u16 (txn + 1)) res ++ rest /\
    match fr with
    | FMbap => exists frames, pre = concat frames /\ Forall (skippable (u16 (txn + 1))) frames
    | FRtu => pre = []
    end.
Proof.
  intros Hb H. destruct fr; cbn [recv] in H.
  - destruct (mbap_response_inv _ _ _ _ _ _ Hb H) as (frames & HF & Hs & Hl).
    split.
    + rewrite Hs in Hb. unfold mbap_frame in Hb.
      repeat (rewrite bytesb_app_iff in Hb). tauto.
    + exists (concat frames). split; [exact Hs|]. exists frames. split; [reflexivity|exact HF].
  - apply rtu_response_ok in H.
    destruct (read_rtu_inv e s res rest Hb H) as (b2 & data & Hp & He & Hl & Hs).
    assert (Hbody : bytesb ([p_unit res; p_fc res] ++ p_payload res) = true).
    { rewrite Hs in Hb. unfold rtu_frame in Hb.
      apply bytesb_app_iff in Hb as [Hb' _]. apply bytesb_app_iff in Hb' as [Hb' _].
      exact Hb'. }
    split.
    + apply bytesb_app_iff in Hbody. tauto.
    + exists []. split; [|reflexivity]. rewrite spec_frame_rtu by exact Hbody. exact Hs.
Qed.

(* T1: soundness *)
Lemma client_sound : forall fr cfg txn o e s vs,
  op_wf o -> cfg_wf cfg -> txn < 65536 -> bytesb s = true ->
  cr_res (client_call fr cfg txn o e s) = Ok vs ->
  valid_op o = true /\
  exists res pre post,
    answers cfg o res vs /\
    s = pre ++ spec_frame fr (u16 (txn + 1)) res ++ post /\
    cr_rest (client_call fr cfg txn o e s) = post /\
    match fr with
    | FMbap => exists frames, pre = concat frames /\ Forall (skippable (u16 (txn + 1))) frames
    | FRtu => pre = []
    end.
Proof.
  intros fr cfg txn o e s vs Hwf Hcfg Ht Hb H.
  destruct (client_request cfg o) as [req|x| |] eqn:Hreq;
    try (unfold client_call in H; rewrite Hreq in H; discriminate H).
  destruct (request_ok_valid cfg o req Hwf Hreq) as (V & Hru & Hrf).
  split; [exact V|].
  destruct (client_call_ok fr cfg txn o e s req Hreq) as [H1 H2].
  rewrite H1 in H. rewrite H2. clear H1 H2.
  destruct (recv fr txn e s) as [r rest] eqn:Er. cbn [fst snd] in *.
  unfold after_recv in H. destruct r as [res|x| |]; try discriminate H.
  destruct (unit_check req res) eqn:Huc; [discriminate H|].
  pose proof (validate_ok_fc cfg o req res vs H) as Hfc.
  assert (Hu : p_unit res = c_unit cfg).
  { rewrite <- Hru. apply unit_check_normal_inv; [|exact Huc].
    rewrite Hfc, Hrf. apply spec_fc_normal. }
  destruct (recv_inv fr txn e s res rest Hb Er) as (Hpb & pre & Hs & Hpre).
  exists res, pre, rest.
  split; [apply (validate_sound cfg o req res vs); assumption|].
  split; [exact Hs|]. split; [reflexivity|exact Hpre].
Qed.

(* the frames of the two framings, uniformly: a reply PDU that both readers
   take (252 and 251 are the readers' limits, see the head of
   Proofs/FramingP.v) behind frames the MBAP loop skips *)
Definition frame_ok (fr : framing) (txn : N) (res : pdu) (frames : list (list N)) : Prop :=
  match fr with
  | FMbap => txn < 65536 /\ lenN (p_payload res) <= 252 /\
             Forall (skippable (u16 (txn + 1))) frames
  | FRtu => frames = [] /\ exists b2 data, p_payload res = b2 :: data /\
            expected_len (p_fc res) b2 = Some (lenN data) /\ lenN data <= 251
  end.

Lemma recv_frame fr txn e res post frames :
  bytesb ([p_unit res; p_fc res] ++ p_payload res) = true ->
  frame_ok fr txn res frames ->
  recv fr txn e (concat frames ++ spec_frame fr (u16 (txn + 1)) res ++ post) = (Ok res, post).
Proof.
  intros Hb Hfr. destruct res as [unit fc payload]. cbn [p_unit p_fc p_payload] in *.
  destruct fr; cbn [recv frame_ok p_unit p_fc p_payload] in *.
  - destruct Hfr as (Ht & Hl & HF). rewrite spec_frame_mbap. cbn [p_unit p_fc p_payload].
    apply mbap_response_frame; [exact HF|unfold u16; lia|exact Hl].
  - destruct Hfr as (-> & b2 & data & -> & He & Hl). cbn [concat app].
    rewrite spec_frame_rtu by exact Hb. cbn [p_unit p_fc p_payload].
    apply rtu_response_ok. apply read_rtu_frame; assumption.
Qed.

Lemma exchange_frame fr cfg txn o e res post frames :
  op_wf o -> valid_op o = true ->
  p_unit res < 256 -> p_fc res < 256 -> bytesb (p_payload res) = true ->
  frame_ok fr txn res frames ->
  let r := client_call fr cfg txn o e
             (concat frames ++ spec_frame fr (u16 (txn + 1)) res ++ post) in
  cr_res r = after_recv cfg o (spec_pdu cfg o) (Ok res) /\ cr_rest r = post.
Proof.
  intros Hwf V Hu Hf Hb Hfr r. subst r.
  pose proof (client_request_exact cfg o Hwf) as Hreq. rewrite V in Hreq.
  destruct (client_call_ok fr cfg txn o e
              (concat frames ++ spec_frame fr (u16 (txn + 1)) res ++ post) _ Hreq) as [H1 H2].
  rewrite H1, H2, (recv_frame fr txn e res post frames (body_bytes _ _ _ Hu Hf Hb) Hfr).
  split; reflexivity.
Qed.

Definition before_reply (fr : framing) (txn : N) (frames : list (list N)) : Prop :=
  match fr with
  | FMbap => txn < 65536 /\ Forall (skippable (u16 (txn + 1))) frames
  | FRtu => frames = []
  end.

Lemma before_reply_mbap txn frames : txn < 65536 -> Forall (skippable (u16 (txn + 1))) frames ->
  before_reply FMbap txn frames.
Proof. intros Ht HF. exact (conj Ht HF). Qed.

Lemma before_reply_rtu txn : before_reply FRtu txn [].
Proof. reflexivity. Qed.

Lemma answers_shape cfg o res vs : op_wf o -> valid_op o = true -> answers cfg o res vs ->
  lenN (p_payload res) <= 252 /\
  exists b2 data, p_payload res = b2 :: data /\
    expected_len (spec_fc o) b2 = Some (lenN data) /\ lenN data <= 251.
Proof.
  intros Hwf V Hans. destruct (is_write o) eqn:W.
  { apply (answers_write cfg o res vs W) in Hans as (_ & _ & Hp & _).
    destruct (write_echo_shape cfg o W) as (b0 & b1 & b2 & b3 & He & Hx).
    rewrite Hp, He. split; [cbn; lia|]. exists b0, [b1; b2; b3].
    split; [reflexivity|]. split; [apply Hx|cbn; lia]. }
  destruct Hans as (Hu & Hf & Hans). unfold valid_op in V.
  destruct o as [di a q|w a q rt|raw a q rt|a v|a vs'|a v|w a vs'|raw a bs]; try discriminate W;
    cbn [op_wf op_regtype_ok op_count op_limit op_addr spec_fc] in *.
  - destruct Hans as (data & l & Hp & Hld & _). rewrite Hp, lenN_cons.
    split; [lia|]. exists (lenN data), data. split; [reflexivity|].
    split; [destruct di; reflexivity|lia].
  - destruct Hwf as (Hw & Ha & Hq). destruct Hans as (xs & Hp & Hlx & _).
    pose proof (spec_regs_len w (c_endian cfg) (c_word cfg) xs) as Hl. rewrite Hlx in Hl.
    rewrite Hp, lenN_cons, Hl. split; [lia|].
    eexists _, _. split; [reflexivity|]. rewrite Hl.
    split; [destruct rt; try reflexivity; cbn [andb] in V; lia|lia].
  - destruct Hans as (data & Hp & Hl & _). rewrite Hp, lenN_cons, Hl.
    split; [lia|]. eexists _, _. split; [reflexivity|]. rewrite Hl.
    split; [destruct rt; try reflexivity; cbn [andb] in V; lia|lia].
Qed.

Lemma answers_frame_ok fr cfg txn o res vs frames u : op_wf o -> valid_op o = true ->
  answers cfg o res vs ->
  before_reply fr txn frames ->
  frame_ok fr txn (mkpdu u (p_fc res) (p_payload res)) frames.
Proof.
  intros Hwf V Hans Hfr. unfold before_reply in Hfr.
  destruct (answers_shape cfg o res vs Hwf V Hans) as (Hl & Hsh).
  destruct Hans as (_ & Hf & _). rewrite Hf.
  destruct fr; cbn [frame_ok p_fc p_payload]; [tauto|]. split; [exact Hfr|exact Hsh].
Qed.

Lemma exception_frame_ok fr txn o u code frames :
  before_reply fr txn frames ->
  frame_ok fr txn (mkpdu u (spec_fc o + 128) [code]) frames.
Proof.
  intros Hfr. unfold before_reply in Hfr. destruct fr; cbn [frame_ok p_fc p_payload].
  - split; [tauto|]. split; [cbn; lia|tauto].
  - split; [exact Hfr|]. exists code, []. split; [reflexivity|].
    split; [|cbn; lia]. fc_cases o; reflexivity.
Qed.

Lemma pdu_eta res : mkpdu (p_unit res) (p_fc res) (p_payload res) = res.
Proof. destruct res; reflexivity. Qed.

(* T2 and the unit check in one *)
Lemma client_reply_from fr cfg txn o e res vs frames post u :
  op_wf o -> valid_op o = true -> u < 256 ->
  bytesb (p_payload res) = true -> answers cfg o res vs ->
  before_reply fr txn frames ->
  let r := client_call fr cfg txn o e
             (concat frames ++
              spec_frame fr (u16 (txn + 1)) (mkpdu u (p_fc res) (p_payload res)) ++ post) in
  cr_res r = (if u =? c_unit cfg then Ok vs else Err EBadUnit) /\ cr_rest r = post.
Proof.
  intros Hwf V Hu Hb Hans Hfr.
  pose proof (answers_frame_ok fr cfg txn o res vs frames u Hwf V Hans Hfr) as Hok.
  pose proof Hans as (Hur & Hf & _). pose proof (spec_fc_byte o) as Hfc.
  destruct (exchange_frame fr cfg txn o e (mkpdu u (p_fc res) (p_payload res)) post frames Hwf V)
    as [H1 H2]; cbn [p_unit p_fc p_payload]; [exact Hu|lia|exact Hb|exact Hok|].
  split; [|exact H2]. rewrite H1. unfold after_recv.
  destruct (u =? c_unit cfg) eqn:E.
  - apply N.eqb_eq in E. rewrite E, <- Hur, pdu_eta.
    rewrite unit_check_same by exact Hur. apply validate_complete; [assumption..|reflexivity|exact Hans].
  - apply N.eqb_neq in E. rewrite unit_check_foreign; [reflexivity| |exact E].
    cbn [p_fc]. rewrite Hf. apply spec_fc_normal.
Qed.

(* T2: completeness, both framings *)
Lemma client_complete_gen fr cfg txn o e res vs frames post :
  op_wf o -> cfg_wf cfg -> valid_op o = true ->
  bytesb (p_payload res) = true -> answers cfg o res vs ->
  before_reply fr txn frames ->
  let r := client_call fr cfg txn o e
             (concat frames ++ spec_frame fr (u16 (txn + 1)) res ++ post) in
  cr_res r = Ok vs /\ cr_rest r = post.
Proof.
  intros Hwf Hcfg V Hb Hans Hfr. pose proof Hans as (Hu & _). unfold cfg_wf in Hcfg.
  pose proof (client_reply_from fr cfg txn o e res vs frames post (p_unit res) Hwf V
                ltac:(lia) Hb Hans Hfr) as H.
  cbv zeta in H. rewrite pdu_eta, Hu, N.eqb_refl in H. exact H.
Qed.

Lemma client_complete_rtu : forall cfg txn o e res vs post,
  op_wf o -> cfg_wf cfg -> valid_op o = true ->
  bytesb (p_payload res) = true -> answers cfg o res vs ->
  let r := client_call FRtu cfg txn o e (spec_frame FRtu 0 res ++ post) in
  cr_res r = Ok vs /\ cr_rest r = post.
Proof.
  intros cfg txn o e res vs post Hwf Hcfg V Hb Hans.
  exact (client_complete_gen FRtu cfg txn o e res vs [] post Hwf Hcfg V Hb Hans (before_reply_rtu txn)).
Qed.

Lemma client_complete_mbap : forall cfg txn o e res vs frames post,
  op_wf o -> cfg_wf cfg -> txn < 65536 -> valid_op o = true ->
  bytesb (p_payload res) = true -> answers cfg o res vs ->
  Forall (skippable (u16 (txn + 1))) frames ->
  let r := client_call FMbap cfg txn o e
             (concat frames ++ spec_frame FMbap (u16 (txn + 1)) res ++ post) in
  cr_res r = Ok vs /\ cr_rest r = post.
Proof.
  intros cfg txn o e res vs frames post Hwf Hcfg Ht V Hb Hans HF.
  exact (client_complete_gen FMbap cfg txn o e res vs frames post Hwf Hcfg V Hb Hans
           (before_reply_mbap txn frames Ht HF)).
Qed.

(* T3: exception replies *)
Lemma client_exception_gen fr cfg txn o e res code frames post :
  op_wf o -> cfg_wf cfg -> valid_op o = true -> code < 256 ->
  exception_reply cfg o res code ->
  before_reply fr txn frames ->
  let r := client_call fr cfg txn o e
             (concat frames ++ spec_frame fr (u16 (txn + 1)) res ++ post) in
  cr_res r = Err (if documented_exception code then EExc code else EExcUnknown code) /\
  cr_rest r = post.
Proof.
  intros Hwf Hcfg V Hc (Hu & Hf & Hp) Hfr.
  pose proof (exception_frame_ok fr txn o (p_unit res) code frames Hfr) as Hok.
  rewrite <- Hf, <- Hp, pdu_eta in Hok.
  pose proof (spec_fc_byte o) as Hfc. unfold cfg_wf in Hcfg.
  destruct (exchange_frame fr cfg txn o e res post frames Hwf V) as [H1 H2];
    [destruct Hu as [Hu|Hu]; rewrite Hu; lia|lia|rewrite Hp, bytesb_cons_eq, bytesb_nil; lia|exact Hok|].
  split; [|exact H2]. rewrite H1. unfold after_recv.
  assert (Huc : unit_check (spec_pdu cfg o) res = None).
  { destruct Hu as [Hu|Hu].
    - apply unit_check_same. exact Hu.
    - apply unit_check_gateway; [rewrite Hf; apply spec_fc_exc|exact Hu]. }
  rewrite Huc, (validate_exception cfg o (spec_pdu cfg o) res code eq_refl Hf Hp). reflexivity.
Qed.

Lemma client_exception_rtu : forall cfg txn o e res code post,
  op_wf o -> cfg_wf cfg -> valid_op o = true -> code < 256 ->
  exception_reply cfg o res code ->
  cr_res (client_call FRtu cfg txn o e (spec_frame FRtu 0 res ++ post)) =
    Err (if documented_exception code then EExc code else EExcUnknown code).
Proof.
  intros cfg txn o e res code post Hwf Hcfg V Hc Hex.
  exact (proj1 (client_exception_gen FRtu cfg txn o e res code [] post Hwf Hcfg V Hc Hex
                  (before_reply_rtu txn))).
Qed.

Lemma client_exception_mbap : forall cfg txn o e res code frames post,
  op_wf o -> cfg_wf cfg -> txn < 65536 -> valid_op o = true -> code < 256 ->
  exception_reply cfg o res code ->
  Forall (skippable (u16 (txn + 1))) frames ->
  cr_res (client_call FMbap cfg txn o e
            (concat frames ++ spec_frame FMbap (u16 (txn + 1)) res ++ post)) =
    Err (if documented_exception code then EExc code else EExcUnknown code).
Proof.
  intros cfg txn o e res code frames post Hwf Hcfg Ht V Hc Hex HF.
  exact (proj1 (client_exception_gen FMbap cfg txn o e res code frames post Hwf Hcfg V Hc Hex
                  (before_reply_mbap txn frames Ht HF))).
Qed.

Lemma recv_no_panic fr txn e s :
  fst (recv fr txn e s) <> Panic /\ fst (recv fr txn e s) <> OutOfFuel.
Proof.
  destruct fr; cbn [recv].
  - split; [apply mbap_no_panic|apply mbap_no_oof; lia].
  - apply rtu_response_no_panic.
Qed.

(* T4: no panic, and the receive loop terminates *)
Lemma client_no_panic : forall fr cfg txn o e s, op_wf o ->
  cr_res (client_call fr cfg txn o e s) <> Panic /\
  cr_res (client_call fr cfg txn o e s) <> OutOfFuel.
Proof.
  intros fr cfg txn o e s Hwf.
  destruct (client_request cfg o) as [req|x| |] eqn:Hreq.
  - destruct (client_call_ok fr cfg txn o e s req Hreq) as [Hres _]. rewrite Hres.
    destruct (request_ok_valid cfg o req Hwf Hreq) as (V & _ & _).
    pose proof (recv_no_panic fr txn e s) as [Hp Ho].
    unfold after_recv. destruct (fst (recv fr txn e s)) as [res|y| |]; try congruence.
    + destruct (unit_check req res); [split; discriminate|].
      apply validate_no_panic; assumption.
    + split; discriminate.
  - rewrite (client_call_rejected fr cfg txn o e s x Hreq). split; discriminate.
  - destruct (request_no_panic cfg o) as [Hp _]. congruence.
  - destruct (request_no_panic cfg o) as [_ Ho]. congruence.
Qed.
