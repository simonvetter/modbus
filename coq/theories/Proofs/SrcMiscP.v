(* Table-like helpers and frame assembly, as translated from the Go source
   (Gen/SrcPure.v), against the model: expectedResponseLenth, the two
   exception/error maps, serialCharTime, registerCount, assembleRTUFrame, assembleMBAPFrame. *)
From Coq Require Import List NArith ZArith String Lia Bool.
Import ListNotations.
From Modbus Require Import Base.Bytes Model.GoLite Gen.SrcPure Model.Crc Model.Encoding.
From Modbus Require Import Model.Wire Model.Client Model.Server Model.Timing.
From Modbus Require Import Proofs.GoLiteP Proofs.GoLiteLinkP Proofs.SrcCrcP.
Open Scope string_scope.
Open Scope N_scope.

Notation GOk := GoLite.Ok.

(* the number the translator gave to an Error constant of the package
   (a lookup by name; SrcClientP.err_code maps the model's error classes) *)
Fixpoint err_code (name : string) (tbl : list (string * N)) : N :=
  match tbl with
  | [] => 0
  | (n, c) :: t => if String.eqb n name then c else err_code name t
  end.
Definition code_of (name : string) : N := err_code name src_error_codes.

(* The Go error values that the server proofs mention, as numerals: the
   proofs compare them and hand them to lia. A new Error constant in modbus.go
   renumbers them; that shows in [error_values_named]. *)
Notation v_ErrIllegalDataAddress := 6 (only parsing).
Notation v_ErrServerDeviceFailure := 8 (only parsing).
Notation v_ErrProtocolError := 16 (only parsing).

Lemma error_values_named :
  code_of "ErrIllegalDataAddress" = v_ErrIllegalDataAddress /\
  code_of "ErrServerDeviceFailure" = v_ErrServerDeviceFailure /\
  code_of "ErrProtocolError" = v_ErrProtocolError.
Proof. repeat split. Qed.

(* 1 is "an error that is none of the package's constants" (fmt.Errorf ...) *)
Definition other_error : N := 1.

Definition exc_name (c : N) : string :=
  if c =? 1 then "ErrIllegalFunction"
  else if c =? 2 then "ErrIllegalDataAddress"
  else if c =? 3 then "ErrIllegalDataValue"
  else if c =? 4 then "ErrServerDeviceFailure"
  else if c =? 5 then "ErrAcknowledge"
  else if c =? 6 then "ErrServerDeviceBusy"
  else if c =? 8 then "ErrMemoryParityError"
  else if c =? 10 then "ErrGWPathUnavailable"
  else if c =? 11 then "ErrGWTargetFailedToRespond"
  else "".

(* the model's error class as a Go error value, for the classes
   mapExceptionCodeToError can return *)
Definition err_value (e : err) : N :=
  match e with
  | EExc c => code_of (exc_name c)
  | EExcUnknown _ => other_error
  | EProtocol => code_of "ErrProtocolError"
  | _ => 0
  end.

Definition erl_expected (fc b2 : N) : res (list val) :=
  match expected_len fc b2 with
  | Some m => GOk [VN m; VN 0]
  | None => GOk [VN 0; VN (code_of "ErrProtocolError")]
  end.

(* The function is a switch on the function code, the model a chain of list
   memberships: both are walked test by test; where a test [fc = k] holds both
   sides compute. The third byte is only converted to int. *)
Lemma run_expectedResponseLenth fe fuel fc b2 : b2 < 2 ^ 63 ->
  run_fn ge fe fuel src_fn_expectedResponseLenth [VN fc; VN b2] = erl_expected fc b2.
Proof.
  intros Hb. apply N.ltb_lt in Hb.
  cbv -[N.eqb N.ltb N.pow].
  repeat match goal with
         | |- context [fc =? ?k] => destruct (fc =? k); [rewrite ?Hb; reflexivity|]
         end.
  reflexivity.
Qed.

(* [fc < 256] is not needed (SrcLinkP.v, header) *)
Lemma src_expectedResponseLenth_ok base fuel fc b2 : fc < 256 -> b2 < 256 ->
  call_with src_pure base fuel "expectedResponseLenth" [VN fc; VN b2] = erl_expected fc b2.
Proof.
  intros _ Hb2. link_step "expectedResponseLenth" src_fn_expectedResponseLenth.
  apply run_expectedResponseLenth. lia.
Qed.

Lemma run_mapExceptionCodeToError fe fuel c :
  run_fn ge fe fuel src_fn_mapExceptionCodeToError [VN c] = GOk [VN (err_value (exc_err c))].
Proof.
  unfold exc_err, known_exception, mem. cbn [existsb].
  unfold run_fn, src_fn_mapExceptionCodeToError. gl_step. cbn [compare_v compare_n].
  repeat match goal with
         | |- context [c =? ?k] => destruct (N.eqb_spec c k) as [->|_]; [reflexivity|cbn [orb]]
         end.
  reflexivity.
Qed.

Lemma src_mapExceptionCodeToError_ok base fuel c : c < 256 ->
  call_with src_pure base fuel "mapExceptionCodeToError" [VN c] = GOk [VN (err_value (exc_err c))].
Proof.
  intros _. link_step "mapExceptionCodeToError" src_fn_mapExceptionCodeToError.
  apply run_mapExceptionCodeToError.
Qed.

Lemma known_exception_cases c : known_exception c = true -> In c [1; 2; 3; 4; 5; 6; 8; 10; 11].
Proof.
  unfold known_exception, mem. intros H. apply existsb_exists in H as (x & Hx & E).
  apply N.eqb_eq in E. subst x. exact Hx.
Qed.

Definition herr_value (e : herr) : N :=
  match e with
  | HNone => 0
  | HModbus c => code_of (exc_name c)
  | HProtocol => code_of "ErrProtocolError"
  | HOther => other_error
  end.

(* every error value: nil, other, and each named constant *)
Definition all_error_values : list N := 0 :: 1 :: map snd src_error_codes.

Definition err_to_exc (v : N) : N :=
  if v =? code_of "ErrIllegalFunction" then 1
  else if v =? code_of "ErrIllegalDataAddress" then 2
  else if v =? code_of "ErrIllegalDataValue" then 3
  else if v =? code_of "ErrServerDeviceFailure" then 4
  else if v =? code_of "ErrAcknowledge" then 5
  else if v =? code_of "ErrServerDeviceBusy" then 6
  else if v =? code_of "ErrMemoryParityError" then 8
  else if v =? code_of "ErrGWPathUnavailable" then 10
  else if v =? code_of "ErrGWTargetFailedToRespond" then 11
  else 4.

Lemma run_mapErrorToExceptionCode fe fuel v :
  run_fn ge fe fuel src_fn_mapErrorToExceptionCode [VN v] = GOk [VN (err_to_exc v)].
Proof.
  cbv -[N.eqb].
  repeat match goal with
         | |- context [v =? ?k] => destruct (N.eqb_spec v k) as [->|_]; [reflexivity|]
         end.
  reflexivity.
Qed.

Lemma src_mapErrorToExceptionCode_ok base fuel v : In v all_error_values ->
  call_with src_pure base fuel "mapErrorToExceptionCode" [VN v] = GOk [VN (err_to_exc v)].
Proof.
  intros _. link_step "mapErrorToExceptionCode" src_fn_mapErrorToExceptionCode.
  apply run_mapErrorToExceptionCode.
Qed.

Lemma run_serialCharTime fe fuel rate : 0 < rate -> rate < 2 ^ 63 ->
  run_fn ge fe fuel src_fn_serialCharTime [VN rate] = GOk [VN (11000000000 / rate)].
Proof.
  intros H0 H1. gl_eval.
  replace (rate <? 2 ^ 63) with true by lia.
  cbv beta iota.
  replace (rate =? 0) with false by lia.
  reflexivity.
Qed.

Lemma run_serialCharTime_zero fe fuel :
  run_fn ge fe fuel src_fn_serialCharTime [VN 0] = GoLite.Panic.
Proof. gl_eval. reflexivity. Qed.

Lemma src_serialCharTime_ok base fuel rate : 0 < rate -> rate < 2 ^ 63 ->
  call_with src_pure base fuel "serialCharTime" [VN rate] = GOk [VN (Z.to_N (char_time (Z.of_N rate)))].
Proof.
  intros H0 H1. link_step "serialCharTime" src_fn_serialCharTime.
  rewrite run_serialCharTime by assumption.
  unfold char_time, second_ns. do 3 f_equal.
  rewrite Z.quot_div_nonneg by lia.
  change (11 * 1000000000)%Z with (Z.of_N 11000000000).
  rewrite <- N2Z.inj_div. rewrite N2Z.id. reflexivity.
Qed.

Lemma src_registerCount_ok base fuel q w : q < 65536 -> w < 65536 ->
  call_with src_pure base fuel "registerCount" [VN q; VN w] = GOk [VN (register_count q w)].
Proof.
  intros Hq Hw. link_free "registerCount" src_fn_registerCount. gl_eval. unfold register_count.
  change (2 ^ 32) with 4294967296. change (2 ^ 16) with 65536.
  replace (q mod 4294967296) with q by lia. replace (w mod 4294967296) with w by lia.
  assert (q * w < 4294967296) by nia.
  replace ((q * w) mod 4294967296) with (q * w) by lia.
  destruct (65535 <? q * w) eqn:E.
  - reflexivity.
  - replace ((q * w) mod 65536) with (q * w) by lia. reflexivity.
Qed.

Lemma src_assembleRTUFrame_ok base fuel unit fc payload :
  bytesb (unit :: fc :: payload) = true ->
  call_with src_pure base fuel "rtuTransport.assembleRTUFrame" [VN unit; VN fc; vbytes payload] =
  GOk [vbytes (assemble_rtu (mkpdu unit fc payload))].
Proof.
  intros Hb. link_step "rtuTransport.assembleRTUFrame" src_fn_rtuTransport_assembleRTUFrame.
  unfold run_fn, src_fn_rtuTransport_assembleRTUFrame, vbytes. gl_step.
  callee "rtuTransport.assembleRTUFrame" "crc.init" src_fn_crc_init. rewrite src_crc_init_ok. gl_step.
  change (VL (VN unit :: VN fc :: map VN payload)) with (vbytes (unit :: fc :: payload)).
  callee "rtuTransport.assembleRTUFrame" "crc.add" src_fn_crc_add. rewrite src_crc_add_ok by exact Hb. gl_step.
  callee "rtuTransport.assembleRTUFrame" "crc.value" src_fn_crc_value. rewrite src_crc_value_ok. gl_step.
  unfold assemble_rtu, crc_bytes, crc16, vbytes. cbn [p_unit p_fc p_payload app map].
  rewrite map_app. cbn [map]. reflexivity.
Qed.

Lemma be16_u16_to_bytes v : u16_to_bytes BigE v = be16 v.
Proof.
  unfold u16_to_bytes, be16, byte_of. change (2 ^ (8 * 1)) with 256. change (2 ^ (8 * 0)) with 1.
  rewrite N.div_1_r. reflexivity.
Qed.

Lemma src_assembleMBAPFrame_ok base fuel txn unit fc payload :
  N.of_nat (List.length payload) < 2 ^ 62 ->
  call_with src_pure base fuel "tcpTransport.assembleMBAPFrame" [VN txn; VN unit; VN fc; vbytes payload] =
  GOk [vbytes (assemble_mbap txn (mkpdu unit fc payload))].
Proof.
  intros Hlen. link_step "tcpTransport.assembleMBAPFrame" src_fn_tcpTransport_assembleMBAPFrame.
  unfold run_fn, src_fn_tcpTransport_assembleMBAPFrame, vbytes. gl_step.
  change (VN 1) with (VN (endian_sel BigE)).
  repeat (callee "tcpTransport.assembleMBAPFrame" "uint16ToBytes" src_fn_uint16ToBytes;
          rewrite src_uint16ToBytes_ok; unfold vbytes; gl_step).
  cbn [arith]. rewrite map_length, wrap_I64_ok by lia. cbn [rbind wrap]. gl_step.
  callee "tcpTransport.assembleMBAPFrame" "uint16ToBytes" src_fn_uint16ToBytes.
  rewrite src_uint16ToBytes_ok. unfold vbytes. gl_step.
  unfold assemble_mbap, lenN, u16. cbn [p_unit p_fc p_payload].
  rewrite !be16_u16_to_bytes.
  change (2 ^ 16) with 65536.
  rewrite !map_app. cbn [map]. rewrite <- !app_assoc. reflexivity.
Qed.
