(* Proofs about Model/TlsPending.v (property C14): a history of connection
   attempts some of which stay in their handshake while the later ones arrive.
   As long as a place of MaxClients is free, every attempt is decided as the
   same attempt alone on a fresh server built from the same configuration
   (Proofs/TlsPolicyP.v, Proofs/TlsHistoryP.v). *)
From Modbus Require Import Base.Bytes Model.Encoding Model.Wire Model.Client Model.Server
  Model.Role Model.Config Model.TlsPolicy Model.TlsHistory Model.TlsPending
  Spec.ModbusSpec Spec.ServerSpec Spec.ServerSessionSpec Spec.ConfigSpec Spec.TlsSpec
  Proofs.ConfigP Proofs.ServerP Proofs.TlsPolicyP Proofs.TlsHistoryP.

Lemma tls_pending_count_cons {St : Type} (s : tls_pstep St) rest :
  tls_pending_count (s :: rest) =
  (if tls_pace_holds (tps_pace s) then 1 else 0) + tls_pending_count rest.
Proof.
  unfold tls_pending_count. cbn [filter].
  destruct (tls_pace_holds (tps_pace s)); cbn [length]; lia.
Qed.

Lemma tls_pending_count_app {St : Type} (a b : list (tls_pstep St)) :
  tls_pending_count (a ++ b) = tls_pending_count a + tls_pending_count b.
Proof.
  induction a as [|s a IH]; [reflexivity|].
  rewrite <- app_comm_cons, !tls_pending_count_cons, IH. lia.
Qed.

Lemma tls_pending_count_at_once {St : Type} (l : list (tls_pstep St)) :
  (forall s, In s l -> tps_pace s = PaceAtOnce) -> tls_pending_count l = 0.
Proof.
  induction l as [|s rest IH]; intros H; [reflexivity|].
  rewrite tls_pending_count_cons, (H s (or_introl eq_refl)), IH; [reflexivity|].
  intros x Hx. apply H. right. exact Hx.
Qed.

Lemma tls_places_ok c eff : tls_new_server c = CfgOk eff -> tls_places c = se_max_clients eff.
Proof. intros H. unfold tls_places. rewrite H. reflexivity. Qed.

Lemma tls_places_positive c : 0 < tls_places c -> exists eff, tls_new_server c = CfgOk eff.
Proof.
  unfold tls_places. destruct (tls_new_server c) as [eff|x]; [eauto|]. intros H. lia.
Qed.

Section TlsPendingProofs.
  Variable hs : tls_policy -> tls_peer -> option tls_session.
  Variable verifies : option (list tls_cert) -> tls_usage -> N -> list N -> list tls_cert -> Prop.
  Variable now : N.

  Section WithRoleHandler.
    Context {St : Type} (h : list N -> handler St).

    Lemma tls_pending_accept_taken o held e s :
      held < tls_places (tso_conf o) ->
      tls_pending_accept hs h o held e s =
      (o, tls_attempt_alone hs h (tso_conf o) e (tls_pstep_seen s),
       if tls_pace_holds (tps_pace s) then held + 1 else held).
    Proof.
      intros H. unfold tls_pending_accept. apply N.ltb_lt in H. rewrite H. reflexivity.
    Qed.

    Lemma tls_pending_accept_full o held e s :
      tls_places (tso_conf o) <= held ->
      tls_pending_accept hs h o held e s = (o, [EvClosed], held).
    Proof.
      intros H. unfold tls_pending_accept. apply N.ltb_ge in H. rewrite H. reflexivity.
    Qed.

    Lemma tls_pending_accept_object o held e s :
      fst (fst (tls_pending_accept hs h o held e s)) = o.
    Proof.
      destruct (N.lt_ge_cases held (tls_places (tso_conf o))) as [H|H].
      - rewrite tls_pending_accept_taken by exact H. reflexivity.
      - rewrite tls_pending_accept_full by exact H. reflexivity.
    Qed.

    Lemma tls_pending_history_object o held e l :
      fst (tls_pending_history hs h o held e l) = o.
    Proof.
      revert held. induction l as [|s rest IH]; intros held; [reflexivity|].
      cbn [tls_pending_history].
      pose proof (tls_pending_accept_object o held e s) as Ho.
      destruct (tls_pending_accept hs h o held e s) as [[o1 evs] held1]. cbn [fst] in Ho. subst o1.
      specialize (IH held1). destruct (tls_pending_history hs h o held1 e rest) as [o2 more]. exact IH.
    Qed.

    Lemma tls_pending_history_length o held e l :
      length (snd (tls_pending_history hs h o held e l)) = length l.
    Proof.
      revert o held. induction l as [|s rest IH]; intros o held; [reflexivity|].
      cbn [tls_pending_history].
      destruct (tls_pending_accept hs h o held e s) as [[o1 evs] held1].
      specialize (IH o1 held1). destruct (tls_pending_history hs h o1 held1 e rest) as [o2 more].
      cbn [snd length] in *. rewrite IH. reflexivity.
    Qed.

    Lemma tls_pending_history_events o held e l :
      held + tls_pending_count l < tls_places (tso_conf o) ->
      snd (tls_pending_history hs h o held e l) =
      map (tls_attempt_alone hs h (tso_conf o) e) (map tls_pstep_seen l).
    Proof.
      revert held. induction l as [|s rest IH]; intros held H; [reflexivity|].
      rewrite tls_pending_count_cons in H.
      cbn [tls_pending_history map].
      rewrite tls_pending_accept_taken by (destruct (tls_pace_holds (tps_pace s)); lia).
      specialize (IH (if tls_pace_holds (tps_pace s) then held + 1 else held)).
      destruct (tls_pending_history hs h o _ e rest) as [o2 more]. cbn [snd] in *.
      rewrite IH; [reflexivity|]. destruct (tls_pace_holds (tps_pace s)); lia.
    Qed.

    (* the count is right also when an earlier step was turned away and took no
       place: the list was full then and stays full *)
    Lemma tls_pending_history_nth o held e l k :
      nth_error (snd (tls_pending_history hs h o held e l)) k =
      option_map (if held + tls_pending_count (firstn k l) <? tls_places (tso_conf o)
                  then fun s => tls_attempt_alone hs h (tso_conf o) e (tls_pstep_seen s)
                  else fun _ => [EvClosed])
                 (nth_error l k).
    Proof.
      revert held k. induction l as [|x rest IH]; intros held k; [destruct k; reflexivity|].
      cbn [tls_pending_history].
      destruct (N.lt_ge_cases held (tls_places (tso_conf o))) as [Hp|Hp].
      - rewrite tls_pending_accept_taken by exact Hp.
        specialize (IH (if tls_pace_holds (tps_pace x) then held + 1 else held)).
        destruct (tls_pending_history hs h o _ e rest) as [o2 more]. cbn [snd] in *.
        destruct k as [|k]; cbn [nth_error firstn].
        + change (tls_pending_count []) with 0. rewrite N.add_0_r. apply N.ltb_lt in Hp. rewrite Hp. reflexivity.
        + rewrite IH, tls_pending_count_cons.
          destruct (tls_pace_holds (tps_pace x)); [rewrite N.add_assoc|rewrite N.add_0_l]; reflexivity.
      - rewrite tls_pending_accept_full by exact Hp. specialize (IH held).
        destruct (tls_pending_history hs h o held e rest) as [o2 more]. cbn [snd] in *.
        assert (F : forall n, held + n <? tls_places (tso_conf o) = false) by (intros n; apply N.ltb_ge; lia).
        destruct k as [|k]; cbn [nth_error firstn]; rewrite ?IH, !F; reflexivity.
    Qed.

    Lemma tls_server_pending_as_history c e l :
      tls_pending_count l < tls_places c ->
      tls_server_pending hs h c e l = tls_server_history hs h c e (map tls_pstep_seen l).
    Proof.
      intros H. unfold tls_server_pending. rewrite tls_pending_history_events by exact H.
      rewrite tls_server_history_pointwise. reflexivity.
    Qed.

    Lemma tls_server_pending_nth c e l k s :
      nth_error l k = Some s ->
      tls_pending_count (firstn k l) < tls_places c ->
      nth_error (tls_server_pending hs h c e l) k = Some (tls_attempt_alone hs h c e (tls_pstep_seen s)).
    Proof.
      intros Hk H. apply N.ltb_lt in H. unfold tls_server_pending.
      rewrite tls_pending_history_nth, Hk, N.add_0_l. cbn [tls_new_obj tso_conf]. rewrite H. reflexivity.
    Qed.

    Lemma tls_abandoned_no_session pol p :
      tls_srv_documented hs verifies now -> hs pol (tls_peer_abandons p) = None.
    Proof.
      intros Hdoc. destruct (hs pol (tls_peer_abandons p)) as [sess|] eqn:E; [|reflexivity].
      destruct (Hdoc _ _ _ E) as (_ & Hin & _). destruct Hin.
    Qed.

    (* T1 with pending handshakes, no premise about the places: a handler
       invocation in step k implies that the peer of step k completed its
       handshake (it is not a peer that went away) and is authenticated
       against the configured client CAs with the chain of step k *)
    Lemma tls_pending_call_authenticated c rest e l k evs r :
      tls_srv_documented hs verifies now ->
      url_scheme (tsv_url c) STcpTls rest ->
      nth_error (tls_server_pending hs h c e l) k = Some evs ->
      In (EvCall r) evs ->
      exists s cas sess,
        nth_error l k = Some s /\
        tps_pace s <> PaceNever /\
        tsv_cas c = Some cas /\
        hs (tls_policy_of_server c) (tat_peer (tps_attempt s)) = Some sess /\
        spec_client_authenticated verifies now cas (tat_peer (tps_attempt s)) sess.
    Proof.
      intros Hdoc Hu Hk Hin. unfold tls_server_pending in Hk. rewrite tls_pending_history_nth in Hk.
      destruct (nth_error l k) as [s|] eqn:Hs; [|discriminate Hk]. cbn [option_map] in Hk.
      destruct (_ <? _); injection Hk as <-.
      - cbn [tls_new_obj tso_conf] in Hin. unfold tls_attempt_alone in Hin.
        destruct (tls_server_call_authenticated hs verifies now h c rest _ _ _ _ r Hdoc Hu Hin)
          as (cas & sess & Hc & Hss & Hauth).
        unfold tls_pstep_seen in Hss, Hauth.
        destruct (tps_pace s) eqn:Ep.
        3:{ cbn [tat_peer] in Hss. rewrite (tls_abandoned_no_session _ _ Hdoc) in Hss. discriminate Hss. }
        all: exists s, cas, sess; split; [reflexivity|]; split; [rewrite Ep; discriminate|];
          split; [exact Hc|]; split; [exact Hss|exact Hauth].
      - destruct Hin as [Hin|[]]. discriminate Hin.
    Qed.

    (* the places: a tcp+tls configuration NewServer accepts with MaxClients = m
       (0: the default of 10) serves its authenticated peers with up to m - 1
       handshakes pending *)
    Lemma tls_places_of_conf c rest :
      url_scheme (tsv_url c) STcpTls rest -> rest <> [] ->
      tsv_cert c <> None -> tsv_cas c <> None ->
      tls_places c = dfl (tsv_max_clients c) 10.
    Proof.
      intros Hu Hr Hcert Hcas.
      destruct (tsv_cert c) as [cert|] eqn:Ec; [|destruct (Hcert eq_refl)].
      destruct (tsv_cas c) as [cas|] eqn:Ea; [|destruct (Hcas eq_refl)].
      unfold tls_places, tls_new_server.
      assert (Hu' : url_scheme (sc_url (tsv_base c)) STcpTls rest) by exact Hu.
      rewrite (new_server_ok (tsv_base c) STcpTls rest Hu' eq_refl Hr).
      - reflexivity.
      - intros _. cbn [tsv_base sc_has_cert sc_has_cas]. rewrite Ec, Ea. split; reflexivity.
    Qed.
  End WithRoleHandler.
End TlsPendingProofs.
