(* Proofs about Model/Cli.v: all-or-nothing parsing, the requests a command
   list issues are the documented ones (composition with the client theorems
   of C01), over-limit commands stay off the wire, the documented grammar is
   accepted with the documented meaning. *)
From Modbus Require Import Base.Bytes Base.Enum Model.Crc Model.Encoding Model.Wire Model.Client
  Model.Strconv Model.Cli Spec.ModbusSpec Spec.ClientSpec Spec.StrconvSpec Spec.CliSpec
  Proofs.ClientReqP Proofs.TxnP Proofs.StrconvP.

Lemma width_cases t : cli_width t = 1 \/ cli_width t = 2 \/ cli_width t = 4.
Proof. destruct t; cbn; auto. Qed.

(* evaluates valid_op on a constructor applied to variables and leaves the
   comparison of the limits to lia *)
Ltac valid_tac :=
  unfold valid_op; cbn [op_regtype_ok op_count op_limit op_addr cli_width];
  repeat match goal with |- context [if ?h then Holding else InputReg] => destruct h end;
  cbn [op_regtype_ok andb]; lia.

(* the 16-bit count q + 1 of the code differs from the documented one only at
   q = 65535, where neither 0 nor 65536 items make a valid request *)
Lemma count_agree (k : N -> op) q : q < 65536 ->
  (forall n, n < 65536 -> op_wf (k n)) -> valid_op (k 0) = false -> valid_op (k 65536) = false ->
  op_wf (k (u16 (q + 1))) /\ valid_op (k (u16 (q + 1))) = valid_op (k (q + 1)) /\
  (valid_op (k (q + 1)) = true -> k (u16 (q + 1)) = k (q + 1)).
Proof.
  intros Hq Hwf H0 H1. split; [apply Hwf; unfold u16; lia|].
  destruct (N.eq_dec q 65535) as [->|Hne].
  - change (u16 (65535 + 1)) with 0. change (65535 + 1) with 65536. rewrite H0, H1.
    split; [reflexivity|discriminate].
  - replace (u16 (q + 1)) with (q + 1) by (unfold u16; lia). split; reflexivity.
Qed.

Lemma op_agree c o : cli_op_wf c -> cli_doc_op c = Some o ->
  exists o', cli_to_op c = Some o' /\ op_wf o' /\ valid_op o' = valid_op o /\
             (valid_op o = true -> o' = o).
Proof.
  destruct c as [coil a q|h t a q|a v|t a v|a bs|u]; cbn [cli_op_wf]; intros Hwf Hd.
  - destruct Hwf as [Ha Hq]. injection Hd as <-. eexists. split; [reflexivity|].
    apply (count_agree (fun n => OpReadBools (negb coil) a n) q Hq).
    + intros n Hn. split; assumption.
    + valid_tac.
    + valid_tac.
  - destruct Hwf as [Ha Hq]. pose (rt := if h then Holding else InputReg).
    (* by type: bytes, or numbers of 1, 2 or 4 registers *)
    assert (Hk : exists k : N -> op,
              cli_doc_op (CoReadRegs h t a q) = Some (k (q + 1)) /\
              cli_to_op (CoReadRegs h t a q) = Some (k (u16 (q + 1))) /\
              (k = (fun n => OpReadBytes false a n rt) \/
               k = (fun n => OpReadRegs (cli_width t) a n rt))).
    { exists (match t with
              | CtBytes => fun n => OpReadBytes false a n rt
              | _ => fun n => OpReadRegs (cli_width t) a n rt
              end).
      destruct t; (split; [reflexivity|split; [reflexivity|]]); first [right; reflexivity|left; reflexivity]. }
    destruct Hk as (k & Hdk & Hk & Hshape). rewrite Hdk in Hd. injection Hd as <-.
    exists (k (u16 (q + 1))). split; [exact Hk|]. apply (count_agree k q Hq).
    + intros n Hn. destruct Hshape as [-> | ->]; cbn; auto using width_cases.
    + destruct Hshape as [-> | ->]; unfold rt; valid_tac.
    + pose proof (width_cases t). destruct Hshape as [-> | ->]; unfold rt; valid_tac.
  - injection Hd as <-. eexists. split; [reflexivity|]. split; [exact Hwf|]. split; reflexivity.
  - (* one register is written as such, two or four as a list of one value *)
    destruct Hwf as (Ht & Ha & Hv). exists o. split; [|split; [|split; reflexivity]].
    + rewrite <- Hd. cbn. destruct (width_cases t) as [E | [E | E]]; rewrite E; reflexivity.
    + cbn in Hd. destruct (width_cases t) as [E | [E | E]]; rewrite E in Hd, Hv; injection Hd as <-.
      * split; assumption.
      * repeat split; auto.
      * repeat split; auto.
  - injection Hd as <-. eexists. split; [reflexivity|]. split; [exact Hwf|]. split; reflexivity.
  - discriminate.
Qed.

Lemma exec_valid st c o :
  cli_op_wf c -> cfg_wf (cs_cfg st) -> cs_txn st < 65536 ->
  cli_doc_op c = Some o -> valid_op o = true ->
  cs_tx (cli_exec st c) =
    cs_tx st ++ [spec_frame FMbap (u16 (cs_txn st + 1)) (spec_pdu (cs_cfg st) o)] /\
  cs_cfg (cli_exec st c) = cs_cfg st /\ cs_txn (cli_exec st c) = u16 (cs_txn st + 1).
Proof.
  intros Hwf Hcfg Htxn Hd Hv.
  destruct (op_agree c o Hwf Hd) as (o' & Ho' & Hwf' & Hvv & Heq). specialize (Heq Hv). subst o'.
  unfold cli_exec. rewrite Ho'.
  pose proof (client_request_exact (cs_cfg st) o Hwf') as Hreq. rewrite Hv in Hreq. rewrite Hreq.
  destruct (cli_dev_serve (cs_dev st) (spec_pdu (cs_cfg st) o)) as [res d'].
  set (reply := assemble_mbap (u16 (cs_txn st + 1)) res).
  destruct (client_transmit FMbap (cs_cfg st) (cs_txn st) o Stall reply Hwf' Hcfg Htxn) as [T1 _].
  cbn [cs_tx cs_cfg cs_txn]. rewrite (T1 Hv), (call_txn FMbap _ _ _ _ _ Hwf'), Hv. repeat split.
Qed.

Lemma exec_invalid st c o :
  cli_op_wf c -> cli_doc_op c = Some o -> valid_op o = false ->
  cli_exec st c = mkclist (cs_cfg st) (cs_txn st) (cs_dev st) (cs_tx st) (cs_out st ++ [ClFail]).
Proof.
  intros Hwf Hd Hv.
  destruct (op_agree c o Hwf Hd) as (o' & Ho' & Hwf' & Hvv & _). rewrite Hv in Hvv.
  unfold cli_exec. rewrite Ho'.
  pose proof (client_request_exact (cs_cfg st) o' Hwf') as Hreq. rewrite Hvv in Hreq. rewrite Hreq.
  unfold client_call. rewrite Hreq. cbn [cr_txn cr_writes cr_res cli_print].
  rewrite app_nil_r. reflexivity.
Qed.

Lemma exec_set_unit st u :
  cli_exec st (CoSetUnit u) =
    mkclist (mkcfg u (c_endian (cs_cfg st)) (c_word (cs_cfg st))) (cs_txn st) (cs_dev st) (cs_tx st) (cs_out st).
Proof. reflexivity. Qed.

Lemma doc_op_none c : cli_doc_op c = None -> exists u, c = CoSetUnit u.
Proof.
  destruct c as [? ? ?|? t ? ?|? ?|t ? ?|? ?|u]; cbn; try discriminate.
  - destruct t; discriminate.
  - destruct (cli_width t) as [|[?|?|]]; discriminate.
  - eauto.
Qed.

(* what one command does, by the documentation, to the unit id / encoding, to
   the transaction counter and to the wire; cli_doc_frames (and cli_doc_end of
   Spec/CliRepeatSpec.v) iterate it *)
Definition doc_step (cfg : ccfg) (txn : N) (c : cli_operation) : ccfg * N * list (list N) :=
  match cli_doc_op c with
  | Some o =>
      if valid_op o
      then (cfg, u16 (txn + 1), [spec_frame FMbap (u16 (txn + 1)) (spec_pdu cfg o)])
      else (cfg, txn, [])
  | None =>
      match c with
      | CoSetUnit u => (mkcfg u (c_endian cfg) (c_word cfg), txn, [])
      | _ => (cfg, txn, [])
      end
  end.

Lemma doc_frames_cons cfg txn c t :
  cli_doc_frames cfg txn (c :: t) =
  let '(cfg', txn', fr) := doc_step cfg txn c in fr ++ cli_doc_frames cfg' txn' t.
Proof.
  unfold doc_step.
  destruct c; cbn [cli_doc_frames]; try reflexivity;
    (destruct (cli_doc_op _) as [o|]; [destruct (valid_op o)|]; reflexivity).
Qed.

Lemma exec_doc st c : cli_op_wf c -> cfg_wf (cs_cfg st) -> cs_txn st < 65536 ->
  let '(cfg', txn', fr) := doc_step (cs_cfg st) (cs_txn st) c in
  cs_tx (cli_exec st c) = cs_tx st ++ fr /\ cs_cfg (cli_exec st c) = cfg' /\
  cs_txn (cli_exec st c) = txn' /\ cfg_wf cfg' /\ txn' < 65536.
Proof.
  intros Hc Hcfg Htxn. unfold doc_step. destruct (cli_doc_op c) as [o|] eqn:Hd.
  - destruct (valid_op o) eqn:Hv.
    + destruct (exec_valid st c o Hc Hcfg Htxn Hd Hv) as (E1 & E2 & E3).
      repeat split; [exact E1|exact E2|exact E3|exact Hcfg|unfold u16; lia].
    + rewrite (exec_invalid st c o Hc Hd Hv). cbn [cs_tx cs_cfg cs_txn]. rewrite app_nil_r.
      repeat split; assumption.
  - destruct (doc_op_none c Hd) as [u ->]. rewrite exec_set_unit. cbn [cs_tx cs_cfg cs_txn].
    rewrite app_nil_r. repeat split; [exact Hc|exact Htxn].
Qed.

Lemma run_frames : forall cs st,
  Forall cli_op_wf cs -> cfg_wf (cs_cfg st) -> cs_txn st < 65536 ->
  cs_tx (cli_run st cs) = cs_tx st ++ cli_doc_frames (cs_cfg st) (cs_txn st) cs.
Proof.
  induction cs as [|c t IH]; intros st Hwf Hcfg Htxn.
  - cbn. now rewrite app_nil_r.
  - inversion Hwf as [|? ? Hc Ht]; subst.
    change (cli_run st (c :: t)) with (cli_run (cli_exec st c) t). rewrite doc_frames_cons.
    pose proof (exec_doc st c Hc Hcfg Htxn) as H.
    destruct (doc_step (cs_cfg st) (cs_txn st) c) as [[cfg' txn'] fr].
    destruct H as (E1 & E2 & E3 & W1 & W2).
    rewrite IH by (rewrite ?E2, ?E3; assumption). rewrite E1, E2, E3, app_assoc. reflexivity.
Qed.

Section AllOrNothing.
  Context {A : Type} (f : list N -> cli_result A) (pall : list (list N) -> cli_result (list A)).
  Hypothesis pall_nil : pall [] = CliOk [].
  Hypothesis pall_cons : forall a t, pall (a :: t) =
    match f a with
    | CliOk o => match pall t with CliOk os => CliOk (o :: os) | CliRefused => CliRefused end
    | CliRefused => CliRefused
    end.

  Lemma all_ok args ops : pall args = CliOk ops <-> Forall2 (fun a o => f a = CliOk o) args ops.
  Proof.
    revert ops. induction args as [|a t IH]; intros ops.
    - rewrite pall_nil. split; intros H; [inversion H; constructor|inversion H; reflexivity].
    - rewrite pall_cons. destruct (f a) as [o|] eqn:Ea.
      + destruct (pall t) as [os|] eqn:Et.
        * split; intros H.
          -- inversion H; subst. constructor; [exact Ea|]. apply IH. reflexivity.
          -- inversion H as [|? ? ? ? H1 H2]; subst. rewrite Ea in H1. inversion H1; subst.
             apply IH in H2. inversion H2; subst. reflexivity.
        * split; intros H; [discriminate|]. inversion H as [|? ? ? ? H1 H2]; subst.
          apply IH in H2. discriminate.
      + split; intros H; [discriminate|]. inversion H as [|? ? ? ? H1 H2]; subst. congruence.
  Qed.

  Lemma all_refused args : pall args = CliRefused <-> exists a, In a args /\ f a = CliRefused.
  Proof.
    induction args as [|a t IH].
    - rewrite pall_nil. split; [discriminate|]. intros (a & [] & _).
    - rewrite pall_cons. destruct (f a) as [o|] eqn:Ea.
      + destruct (pall t) as [os|] eqn:Et.
        * split; [discriminate|]. intros (b & [<-|Hb] & Hr); [congruence|].
          assert (CliOk os = CliRefused) by (apply IH; eauto). discriminate.
        * split; [|reflexivity]. intros _. destruct (proj1 IH eq_refl) as (b & Hb & Hr).
          exists b. split; [now right|exact Hr].
      + split; [|reflexivity]. intros _. exists a. split; [now left|exact Ea].
  Qed.
End AllOrNothing.

Section WithOracles.
  Variable pf32 pf64 : list N -> option N.

  Lemma parse_all_ok args ops :
    cli_parse_all pf32 pf64 args = CliOk ops <->
    Forall2 (fun a o => cli_parse_cmd pf32 pf64 a = CliOk o) args ops.
  Proof. apply all_ok; reflexivity. Qed.

  Lemma parse_all_refused args :
    cli_parse_all pf32 pf64 args = CliRefused <->
    exists a, In a args /\ cli_parse_cmd pf32 pf64 a = CliRefused.
  Proof. apply all_refused; reflexivity. Qed.

  (* a refused argument anywhere in the list: exit status 2, or 1 for an
     earlier option error; CliExit carries no state, so nothing was run *)
  Lemma main_all_or_nothing e w u args dev a :
    In a args -> cli_parse_cmd pf32 pf64 a = CliRefused ->
    exists code, cli_main pf32 pf64 e w u args dev = CliExit code /\ code <> 0.
  Proof.
    intros Hin Hr. unfold cli_main.
    destruct (sc_parse_uint 64 u); [|exists 2; split; [reflexivity|lia]..].
    destruct (cli_endian_of e); [|exists 1; split; [reflexivity|lia]].
    destruct (cli_word_of w); [|exists 1; split; [reflexivity|lia]].
    destruct args as [|a0 t]; [destruct Hin|].
    replace (cli_parse_all pf32 pf64 (a0 :: t)) with (@CliRefused (list cli_operation))
      by (symmetry; apply parse_all_refused; eauto).
    exists 2. split; [reflexivity|lia].
  Qed.

  Lemma main_done e w u args dev st :
    cli_main pf32 pf64 e w u args dev = CliDone st ->
    exists unit en wo ops,
      sc_parse_uint 64 u = ScOk unit /\ unit < 256 /\
      cli_endian_of e = Some en /\ cli_word_of w = Some wo /\
      cli_parse_all pf32 pf64 args = CliOk ops /\
      st = cli_run (mkclist (mkcfg unit en wo) 0 dev [] []) ops.
  Proof.
    unfold cli_main. destruct (sc_parse_uint 64 u) as [unit| |]; try discriminate.
    destruct (cli_endian_of e) as [en|]; [|discriminate].
    destruct (cli_word_of w) as [wo|]; [|discriminate].
    destruct args as [|a0 t]; [discriminate|].
    destruct (cli_parse_all pf32 pf64 (a0 :: t)) as [ops|]; [|discriminate].
    destruct (255 <? unit) eqn:E; [discriminate|]. intros H. inversion H; subst.
    exists unit, en, wo, ops. repeat split; try reflexivity. lia.
  Qed.
End WithOracles.

Lemma split_none sep a : ~ In sep a -> cli_split sep a = [a].
Proof.
  induction a as [|c t IH]; intros H; cbn [cli_split]; [reflexivity|].
  replace (c =? sep) with false by (symmetry; apply N.eqb_neq; intros ->; apply H; now left).
  rewrite IH; [reflexivity|]. intros Hin. apply H. now right.
Qed.

Lemma split_app sep a b : ~ In sep a -> cli_split sep (a ++ sep :: b) = a :: cli_split sep b.
Proof.
  induction a as [|c t IH]; intros H; cbn [cli_split app].
  - rewrite N.eqb_refl. reflexivity.
  - replace (c =? sep) with false by (symmetry; apply N.eqb_neq; intros ->; apply H; now left).
    rewrite IH; [reflexivity|]. intros Hin. apply H. now right.
Qed.

Lemma split_bytes sep s : bytesb s = true -> Forall (fun f => bytesb f = true) (cli_split sep s).
Proof.
  induction s as [|c t IH]; intros H; cbn [cli_split].
  - constructor; [reflexivity|constructor].
  - apply bytesb_cons in H as [Hc Ht]. specialize (IH Ht).
    destruct (c =? sep).
    + constructor; [reflexivity|exact IH].
    + destruct (cli_split sep t) as [|f fs].
      * constructor; [|constructor]. apply bytesb_cons_intro; [exact Hc|reflexivity].
      * inversion IH; subst. constructor; [|assumption]. apply bytesb_cons_intro; assumption.
Qed.

Fixpoint cli_join (sep : N) (fields : list (list N)) : list N :=
  match fields with
  | [] => []
  | [f] => f
  | f :: rest => f ++ sep :: cli_join sep rest
  end.

Lemma join_cons sep f rest : rest <> [] -> cli_join sep (f :: rest) = f ++ sep :: cli_join sep rest.
Proof. destruct rest; [congruence|reflexivity]. Qed.

Lemma split_nonempty sep s : cli_split sep s <> [].
Proof.
  destruct s as [|c t]; cbn [cli_split]; [discriminate|].
  destruct (c =? sep); [discriminate|]. destruct (cli_split sep t); discriminate.
Qed.

Lemma split_join sep s :
  cli_join sep (cli_split sep s) = s /\ Forall (fun f => ~ In sep f) (cli_split sep s).
Proof.
  induction s as [|c t [IH1 IH2]]; cbn [cli_split].
  - split; [reflexivity|]. constructor; [intros []|constructor].
  - pose proof (split_nonempty sep t) as Hne. destruct (c =? sep) eqn:E.
    + apply N.eqb_eq in E. subst c. split.
      * rewrite (join_cons sep [] _ Hne), IH1. reflexivity.
      * constructor; [intros []|exact IH2].
    + destruct (cli_split sep t) as [|f fs]; [congruence|]. split.
      * destruct fs as [|g r].
        -- cbn [cli_join] in *. rewrite IH1. reflexivity.
        -- rewrite (join_cons sep (c :: f) (g :: r)) by discriminate.
           rewrite (join_cons sep f (g :: r)) in IH1 by discriminate. cbn [app]. rewrite IH1. reflexivity.
      * inversion IH2; subst. constructor; [|assumption].
        intros [H|H]; [apply N.eqb_neq in E; congruence|contradiction].
Qed.

Lemma split_spec sep s : bytesb s = true ->
  cli_join sep (cli_split sep s) = s /\
  Forall (fun f => bytesb f = true /\ ~ In sep f) (cli_split sep s).
Proof.
  intros Hb. destruct (split_join sep s) as [Hj Hno]. split; [exact Hj|].
  apply Forall_and; [exact (split_bytes sep s Hb)|exact Hno].
Qed.

Definition no_char (x : N) (s : list N) : bool := negb (existsb (N.eqb x) s).

Lemma no_char_spec x s : no_char x s = true <-> ~ In x s.
Proof.
  unfold no_char. rewrite negb_true_iff. split.
  - intros H Hin. assert (existsb (N.eqb x) s = true) by (apply existsb_exists; exists x; split; [exact Hin|apply N.eqb_refl]).
    congruence.
  - intros H. destruct (existsb (N.eqb x) s) eqn:E; [|reflexivity]. exfalso.
    apply existsb_exists in E as (y & Hy & Ey). apply N.eqb_eq in Ey. subst. contradiction.
Qed.

Lemma sep_digits_no isd s x : (forall c, isd c = true -> c <> x) -> x <> 95 ->
  sl_sep_digits isd s = true -> ~ In x s.
Proof.
  intros Hd Hx H Hin. apply sep_digits_chars in H. rewrite forallb_forall in H.
  specialize (H x Hin). apply orb_true_iff in H as [H|H]; [lia|]. exact (Hd x H eq_refl).
Qed.

(* a literal holds neither ':' nor '+' *)
Lemma lit_no_sep s x : (x = 58 \/ x = 43) -> sl_int_lit s = true -> ~ In x s.
Proof.
  intros Hx Hlit. destruct s as [|c0 t]; [intros []|].
  assert (Hd : forall b c, sc_known_base b -> isd_of b c = true -> c <> x).
  { intros b c Hb Hc. apply (isd_hex b c Hb) in Hc. unfold sl_is_hex, sl_is_dec in Hc. lia. }
  assert (Hx95 : x <> 95) by lia.
  destruct (c0 =? 48) eqn:E0.
  - apply N.eqb_eq in E0. subst c0. destruct t as [|c1 t']; [intros [H|[]]; lia|].
    rewrite int_lit_prefix in Hlit. destruct (sl_prefix c1) as [b|] eqn:Ep.
    + destruct (prefix_some c1 b Ep) as (Hb & Hl & _). apply digits1_sep in Hlit as [_ Hs].
      pose proof (sep_digits_no _ _ x (fun c => Hd b c Hb) Hx95 Hs).
      intros [H1|[H1|H1]]; [lia|lia|contradiction].
    + pose proof (sep_digits_no _ _ x (fun c => Hd 8 c (or_intror (or_introl eq_refl))) Hx95 Hlit).
      intros [H1|H1]; [lia|contradiction].
  - cbn [sl_int_lit] in Hlit. rewrite E0 in Hlit. apply andb_true_iff in Hlit as [Hc Hs].
    pose proof (sep_digits_no _ _ x (fun c => Hd 10 c (or_intror (or_intror (or_introl eq_refl)))) Hx95 Hs).
    intros [H1|H1]; [lia|contradiction].
Qed.

Lemma lit_parse bits s v : 1 <= bits <= 64 -> cli_lit bits s v -> sc_parse_uint bits s = ScOk v.
Proof. intros Hb (H1 & H2 & H3 & H4). apply parse_uint_exact; auto. Qed.

Lemma slit_no_colon s : sl_signed_lit s = true -> ~ In 58 s.
Proof.
  unfold sl_signed_lit, sl_unsign. destruct s as [|c t]; [intros _ []|].
  destruct (c =? 45) eqn:E1; [|destruct (c =? 43) eqn:E2]; cbn [snd]; intros H.
  - pose proof (lit_no_sep t 58 (or_introl eq_refl) H). intros [H1|H1]; [lia|contradiction].
  - pose proof (lit_no_sep t 58 (or_introl eq_refl) H). intros [H1|H1]; [lia|contradiction].
  - exact (lit_no_sep (c :: t) 58 (or_introl eq_refl) H).
Qed.

Lemma lit_field bits s v : 1 <= bits <= 64 -> cli_lit bits s v ->
  cli_of_uint (sc_parse_uint bits s) = CliOk v /\ ~ In 58 s.
Proof.
  intros Hb H. rewrite (lit_parse bits s v Hb H). split; [reflexivity|].
  destruct H as (_ & H2 & _). exact (lit_no_sep s 58 (or_introl eq_refl) H2).
Qed.

Lemma lit16_field s v : cli_lit 16 s v -> cli_parse_u16 s = CliOk v /\ ~ In 58 s.
Proof. apply lit_field. lia. Qed.

Lemma slit_field bits s v : 2 <= bits <= 64 -> cli_slit bits s v ->
  cli_of_int bits (sc_parse_int bits s) = CliOk v /\ ~ In 58 s.
Proof.
  intros Hb (H1 & H2 & H3 & H4). split; [|exact (slit_no_colon s H2)].
  assert (E : sc_parse_int bits s = ScIOk (sl_signed_value s)) by (apply parse_int_exact; auto).
  rewrite E. cbn [cli_of_int]. subst v. reflexivity.
Qed.

Lemma addr_qty_parse x a q : cli_addr_qty x a q ->
  cli_parse_addr_qty x = CliOk (a, q) /\ ~ In 58 x.
Proof.
  intros [[H ->]|(sa & sq & -> & Ha & Hq)]; unfold cli_parse_addr_qty.
  - destruct (lit16_field x a H) as [P N]. destruct H as (_ & L & _).
    rewrite (split_none 43 x (lit_no_sep x 43 (or_intror eq_refl) L)), P. split; [reflexivity|exact N].
  - destruct (lit16_field sa a Ha) as [Pa Na]. destruct (lit16_field sq q Hq) as [Pq Nq].
    destruct Ha as (_ & La & _). destruct Hq as (_ & Lq & _). cbn [app].
    rewrite (split_app 43 sa sq (lit_no_sep sa 43 (or_intror eq_refl) La)),
      (split_none 43 sq (lit_no_sep sq 43 (or_intror eq_refl) Lq)), Pa, Pq.
    split; [reflexivity|]. intros Hin.
    apply in_app_or in Hin as [Hin|[Hin|Hin]]; [exact (Na Hin)|discriminate|exact (Nq Hin)].
Qed.

Lemma hexval_of_hex h : sl_is_hex h = true -> sc_hexval h = Some (sl_val h) /\ h <> 58.
Proof.
  intros H. split; [apply hexval_spec; auto|]. unfold sl_is_hex, sl_is_dec in H. lia.
Qed.

Lemma hex_string_parse sv bs : cli_hex_string sv bs -> sc_hex_decode sv = Some bs /\ ~ In 58 sv.
Proof.
  induction 1 as [|h l t bs Hh Hl _ [IH1 IH2]]; [split; [reflexivity|intros []]|].
  destruct (hexval_of_hex h Hh) as [E1 N1]. destruct (hexval_of_hex l Hl) as [E2 N2]. split.
  - cbn [sc_hex_decode]. rewrite E1, E2, IH1. reflexivity.
  - intros [H1|[H1|H1]]; [congruence|congruence|contradiction].
Qed.

Ltac in_cases H := repeat (destruct H as [<-|H]); [..|destruct H].

(* the alias lists are disjoint: a name of the i-th list selects the i-th
   branch of the command switch, and no name holds a ':' *)
Lemma name_branch i name :
  In name (nth i [cli_n_rc; cli_n_rdi; cli_n_rh; cli_n_ri; cli_n_wc; cli_n_wr; cli_n_sid] []) ->
  ~ In 58 name /\ cli_in name cli_n_rc = (i =? 0)%nat /\ cli_in name cli_n_rdi = (i =? 1)%nat /\
  cli_in name cli_n_rh = (i =? 2)%nat /\ cli_in name cli_n_ri = (i =? 3)%nat /\
  cli_in name cli_n_wc = (i =? 4)%nat /\ cli_in name cli_n_wr = (i =? 5)%nat /\
  cli_in name cli_n_sid = (i =? 6)%nat.
Proof.
  intros H.
  do 7 (destruct i as [|i];
        [in_cases H; (split; [apply no_char_spec; reflexivity|repeat split])|]).
  destruct i; destruct H.
Qed.

Lemma type_names_ok tn t : In (tn, t) cli_type_names ->
  ~ In 58 tn /\ cli_type_of tn = Some t /\
  (t <> CtBytes -> list_eqb tn cli_s_bytes = false /\ list_eqb tn cli_s_string = false).
Proof.
  intros H. unfold cli_type_names in H.
  repeat (destruct H as [H|H]; [inversion H; subst; clear H;
    (split; [apply no_char_spec; reflexivity|]); (split; [reflexivity|]);
    intros Hne; try (split; reflexivity); congruence|]).
  destruct H.
Qed.

Section Grammar.
  Variable pf32 pf64 : list N -> option N.

  Lemma doc_value_parse t sv v : cli_doc_value pf32 pf64 t sv v ->
    cli_parse_value pf32 pf64 t sv = CliOk v /\ ~ In 58 sv.
  Proof.
    destruct t; cbn [cli_doc_value cli_parse_value]; intros H; try contradiction.
    - apply lit_field; [lia|exact H].
    - apply slit_field; [lia|exact H].
    - apply lit_field; [lia|exact H].
    - apply slit_field; [lia|exact H].
    - destruct H as [H1 H2]. rewrite H2. split; [reflexivity|exact H1].
    - apply lit_field; [lia|exact H].
    - apply slit_field; [lia|exact H].
    - destruct H as [H1 H2]. rewrite H2. split; [reflexivity|exact H1].
  Qed.

  (* every command of the documented grammar parses to its documented
     operation: the argument splits at the ':' between its fields, the name
     selects its branch (name_branch), each field parses *)
  Lemma doc_cmd_accepted s c : cli_doc_cmd pf32 pf64 s c -> cli_parse_cmd pf32 pf64 s = CliOk c.
  Proof.
    intros H. destruct H as
      [name x a q Hn Hx | name x a q Hn Hx | name tn t x a q Hn Ht Hx | name tn t x a q Hn Ht Hx
      | name sa a sv v Hn Ha Hv | name tn t sa a sv v Hn Ht Ha Hv | name sa a sv bs Hn Ha Hh
      | name sa a sv Hn Ha Hs | name su u Hn Hu];
      unfold cli_parse_cmd, cli_colon; cbn [app].
    - destruct (name_branch 0 name Hn) as (N0 & F1 & _). destruct (addr_qty_parse x a q Hx) as [P Nx].
      rewrite (split_app 58 name _ N0), (split_none 58 x Nx).
      rewrite F1. cbn [orb Nat.eqb]. rewrite P. reflexivity.
    - destruct (name_branch 1 name Hn) as (N0 & F1 & F2 & _). destruct (addr_qty_parse x a q Hx) as [P Nx].
      rewrite (split_app 58 name _ N0), (split_none 58 x Nx).
      rewrite F1, F2. cbn [orb Nat.eqb]. rewrite P. reflexivity.
    - destruct (name_branch 2 name Hn) as (N0 & F1 & F2 & F3 & _). destruct (addr_qty_parse x a q Hx) as [P Nx].
      destruct (type_names_ok tn t Ht) as (Nt & T & _).
      rewrite (split_app 58 name _ N0), (split_app 58 tn _ Nt), (split_none 58 x Nx).
      rewrite F1, F2, F3. cbn [orb Nat.eqb]. rewrite T, P. reflexivity.
    - destruct (name_branch 3 name Hn) as (N0 & F1 & F2 & F3 & F4 & _). destruct (addr_qty_parse x a q Hx) as [P Nx].
      destruct (type_names_ok tn t Ht) as (Nt & T & _).
      rewrite (split_app 58 name _ N0), (split_app 58 tn _ Nt), (split_none 58 x Nx).
      rewrite F1, F2, F3, F4. cbn [orb Nat.eqb]. rewrite T, P. reflexivity.
    - destruct (name_branch 4 name Hn) as (N0 & F1 & F2 & F3 & F4 & F5 & _).
      destruct (lit16_field sa a Ha) as [Pa Na].
      assert (Nv : ~ In 58 sv) by (destruct Hv as [[-> _]|[-> _]]; apply no_char_spec; reflexivity).
      rewrite (split_app 58 name _ N0), (split_app 58 sa _ Na), (split_none 58 sv Nv).
      rewrite F1, F2, F3, F4, F5. cbn [orb Nat.eqb]. rewrite Pa.
      destruct Hv as [[-> ->]|[-> ->]]; reflexivity.
    - destruct (name_branch 5 name Hn) as (N0 & F1 & F2 & F3 & F4 & F5 & F6 & _).
      destruct (lit16_field sa a Ha) as [Pa Na]. destruct (doc_value_parse t sv v Hv) as [P Nv].
      destruct (type_names_ok tn t Ht) as (Nt & T & Tb).
      assert (Hnb : t <> CtBytes) by (intros ->; exact Hv).
      destruct (Tb Hnb) as [T4 T5].
      rewrite (split_app 58 name _ N0), (split_app 58 tn _ Nt), (split_app 58 sa _ Na), (split_none 58 sv Nv).
      rewrite F1, F2, F3, F4, F5, F6. cbn [orb Nat.eqb]. rewrite Pa, T4, T5, T, P.
      reflexivity.
    - destruct (name_branch 5 name Hn) as (N0 & F1 & F2 & F3 & F4 & F5 & F6 & _).
      destruct (lit16_field sa a Ha) as [Pa Na]. destruct (hex_string_parse sv bs Hh) as [P Nv].
      assert (Nt : ~ In 58 cli_s_bytes) by (apply no_char_spec; reflexivity).
      rewrite (split_app 58 name _ N0), (split_app 58 _ _ Nt), (split_app 58 sa _ Na), (split_none 58 sv Nv).
      rewrite F1, F2, F3, F4, F5, F6. cbn [orb Nat.eqb]. rewrite Pa.
      replace (list_eqb cli_s_bytes cli_s_bytes) with true by reflexivity. rewrite P. reflexivity.
    - destruct (name_branch 5 name Hn) as (N0 & F1 & F2 & F3 & F4 & F5 & F6 & _).
      destruct (lit16_field sa a Ha) as [Pa Na].
      assert (Nt : ~ In 58 cli_s_string) by (apply no_char_spec; reflexivity).
      rewrite (split_app 58 name _ N0), (split_app 58 _ _ Nt), (split_app 58 sa _ Na), (split_none 58 sv Hs).
      rewrite F1, F2, F3, F4, F5, F6. cbn [orb Nat.eqb]. rewrite Pa.
      replace (list_eqb cli_s_string cli_s_bytes) with false by reflexivity.
      replace (list_eqb cli_s_string cli_s_string) with true by reflexivity. reflexivity.
    - destruct (name_branch 6 name Hn) as (N0 & F1 & F2 & F3 & F4 & F5 & F6 & F7).
      destruct (lit_field 8 su u ltac:(lia) Hu) as [_ Nu].
      rewrite (split_app 58 name _ N0), (split_none 58 su Nu).
      rewrite F1, F2, F3, F4, F5, F6, F7. cbn [orb Nat.eqb].
      rewrite (lit_parse 8 su u ltac:(lia) Hu). reflexivity.
  Qed.
End Grammar.

Lemma in_names name l : cli_in name l = true -> In name l.
Proof.
  unfold cli_in. intros H. apply existsb_exists in H as (k & Hk & E). apply list_eqb_eq in E. subst. exact Hk.
Qed.

Lemma assoc_in {A} s (l : list (list N * A)) v : cli_assoc s l = Some v -> In (s, v) l.
Proof.
  induction l as [|[k x] t IH]; cbn [cli_assoc]; [discriminate|].
  destruct (list_eqb s k) eqn:E.
  - intros H. inversion H; subst. apply list_eqb_eq in E. subst. now left.
  - intros H. right. exact (IH H).
Qed.

Lemma parse_lit bits s v : 1 <= bits <= 64 -> bytesb s = true ->
  cli_of_uint (sc_parse_uint bits s) = CliOk v -> cli_lit bits s v.
Proof.
  unfold cli_of_uint. intros Hbits Hb H.
  destruct (sc_parse_uint bits s) as [x| |] eqn:E; try discriminate. inversion H; subst.
  apply (parse_uint_exact bits s v Hbits Hb) in E. destruct E as (E1 & E2 & E3).
  repeat split; assumption.
Qed.

Lemma parse_u16_lit s v : bytesb s = true -> cli_parse_u16 s = CliOk v -> cli_lit 16 s v.
Proof. apply parse_lit. lia. Qed.

Lemma addr_qty_doc x a q : bytesb x = true ->
  cli_parse_addr_qty x = CliOk (a, q) -> cli_addr_qty x a q.
Proof.
  intros Hb. unfold cli_parse_addr_qty. destruct (split_spec 43 x Hb) as [Hj Hf].
  destruct (cli_split 43 x) as [|sa [|sq [|? ?]]]; try discriminate.
  - clear Hj. destruct (cli_parse_u16 x) as [v|] eqn:E; [|discriminate]. intros [= -> <-].
    left. split; [exact (parse_u16_lit x a Hb E)|reflexivity].
  - cbn [cli_join] in Hj. subst x.
    apply Forall_cons_iff in Hf as [[Ba _] Hf]. apply Forall_cons_iff in Hf as [[Bq _] _].
    destruct (cli_parse_u16 sa) as [v|] eqn:E1; [|discriminate].
    destruct (cli_parse_u16 sq) as [v2|] eqn:E2; [|discriminate]. intros [= -> ->].
    right. exists sa, sq. split; [reflexivity|].
    split; [exact (parse_u16_lit sa a Ba E1)|exact (parse_u16_lit sq q Bq E2)].
Qed.

Lemma of_int_slit bits s v : 2 <= bits <= 64 -> bytesb s = true ->
  cli_of_int bits (sc_parse_int bits s) = CliOk v -> cli_slit bits s v.
Proof.
  intros Hbits Hb H. unfold cli_of_int in H.
  destruct (sc_parse_int bits s) as [z| |] eqn:E; try discriminate. inversion H; subst.
  apply (parse_int_exact bits s z Hbits Hb) in E. destruct E as (E1 & E2 & E3). subst z.
  repeat split; try assumption; lia.
Qed.

Lemma hex_decode_doc sv bs : sc_hex_decode sv = Some bs -> cli_hex_string sv bs.
Proof.
  revert bs. induction sv as [|p| p q t IH] using list_ind2; intros bs H; cbn [sc_hex_decode] in H.
  - inversion H. constructor.
  - discriminate.
  - destruct (sc_hexval p) as [a|] eqn:Ea; [|discriminate].
    destruct (sc_hexval q) as [b|] eqn:Eb; [|discriminate].
    destruct (sc_hex_decode t) as [r|] eqn:Er; [|discriminate]. inversion H; subst.
    destruct (proj1 (hexval_spec p a) Ea) as [P1 ->]. destruct (proj1 (hexval_spec q b) Eb) as [Q1 ->].
    constructor; [exact P1|exact Q1|exact (IH r eq_refl)].
Qed.

Section Sound.
  Variable pf32 pf64 : list N -> option N.

  Lemma parse_value_doc t sv v : bytesb sv = true -> ~ In 58 sv ->
    cli_parse_value pf32 pf64 t sv = CliOk v -> cli_doc_value pf32 pf64 t sv v.
  Proof.
    intros Hb Hn. unfold cli_parse_value, cli_of_opt.
    destruct t; cbn [cli_doc_value]; intros H.
    - apply parse_lit; [lia|exact Hb|exact H].
    - apply of_int_slit; [lia|exact Hb|exact H].
    - apply parse_lit; [lia|exact Hb|exact H].
    - apply of_int_slit; [lia|exact Hb|exact H].
    - destruct (pf32 sv) eqn:E; [|discriminate]. inversion H; subst. split; [exact Hn|reflexivity].
    - apply parse_lit; [lia|exact Hb|exact H].
    - apply of_int_slit; [lia|exact Hb|exact H].
    - destruct (pf64 sv) eqn:E; [|discriminate]. inversion H; subst. split; [exact Hn|reflexivity].
    - discriminate.
  Qed.

  Lemma parse_cmd_documented s c : bytesb s = true ->
    cli_parse_cmd pf32 pf64 s = CliOk c -> cli_doc_cmd pf32 pf64 s c.
  Proof.
    intros Hb. unfold cli_parse_cmd. destruct (split_spec 58 s Hb) as [Hj Hf].
    destruct (cli_split 58 s) as [|name args]; [discriminate|]. subst s.
    apply Forall_cons_iff in Hf as [_ Hf].
    destruct (cli_in name cli_n_rc || cli_in name cli_n_rdi) eqn:Erb.
    { destruct args as [|x [|? ?]]; try discriminate. apply Forall_cons_iff in Hf as [[Bx _] _].
      destruct (cli_parse_addr_qty x) as [[a q]|] eqn:E; [|discriminate].
      pose proof (addr_qty_doc x a q Bx E) as Hx. cbn [cli_join].
      destruct (cli_in name cli_n_rc) eqn:Erc; intros [= <-].
      - exact (DocReadCoils pf32 pf64 name x a q (in_names _ _ Erc) Hx).
      - cbn [orb] in Erb. exact (DocReadDiscrete pf32 pf64 name x a q (in_names _ _ Erb) Hx). }
    destruct (cli_in name cli_n_rh || cli_in name cli_n_ri) eqn:Err.
    { destruct args as [|ty [|x [|? ?]]]; try discriminate.
      apply Forall_cons_iff in Hf as [_ Hf]. apply Forall_cons_iff in Hf as [[Bx _] _].
      destruct (cli_type_of ty) as [t|] eqn:Et; [|discriminate].
      destruct (cli_parse_addr_qty x) as [[a q]|] eqn:E; [|discriminate].
      pose proof (addr_qty_doc x a q Bx E) as Hx. cbn [cli_join].
      pose proof (assoc_in ty cli_type_names t Et) as Hty.
      destruct (cli_in name cli_n_rh) eqn:Erh; intros [= <-].
      - exact (DocReadHolding pf32 pf64 name ty t x a q (in_names _ _ Erh) Hty Hx).
      - cbn [orb] in Err. exact (DocReadInput pf32 pf64 name ty t x a q (in_names _ _ Err) Hty Hx). }
    destruct (cli_in name cli_n_wc) eqn:Ewc.
    { destruct args as [|sa [|sv [|? ?]]]; try discriminate. apply Forall_cons_iff in Hf as [[Ba _] _].
      destruct (cli_parse_u16 sa) as [a|] eqn:E; [|discriminate].
      pose proof (parse_u16_lit sa a Ba E) as Ha. cbn [cli_join].
      destruct (list_eqb sv cli_s_true) eqn:E1.
      - intros [= <-]. apply list_eqb_eq in E1.
        exact (DocWriteCoil pf32 pf64 name sa a sv true (in_names _ _ Ewc) Ha (or_introl (conj E1 eq_refl))).
      - destruct (list_eqb sv cli_s_false) eqn:E2; [|discriminate].
        intros [= <-]. apply list_eqb_eq in E2.
        exact (DocWriteCoil pf32 pf64 name sa a sv false (in_names _ _ Ewc) Ha (or_intror (conj E2 eq_refl))). }
    destruct (cli_in name cli_n_wr) eqn:Ewr.
    { destruct args as [|ty [|sa [|sv [|? ?]]]]; try discriminate.
      apply Forall_cons_iff in Hf as [_ Hf]. apply Forall_cons_iff in Hf as [[Ba _] Hf].
      apply Forall_cons_iff in Hf as [[Bv Nv] _].
      destruct (cli_parse_u16 sa) as [a|] eqn:E; [|discriminate].
      pose proof (parse_u16_lit sa a Ba E) as Ha. cbn [cli_join].
      destruct (list_eqb ty cli_s_bytes) eqn:Eby.
      { destruct (sc_hex_decode sv) as [bs|] eqn:Eh; [|discriminate]. intros [= <-].
        apply list_eqb_eq in Eby. subst ty.
        exact (DocWriteBytes pf32 pf64 name sa a sv bs (in_names _ _ Ewr) Ha (hex_decode_doc sv bs Eh)). }
      destruct (list_eqb ty cli_s_string) eqn:Est.
      { intros [= <-]. apply list_eqb_eq in Est. subst ty.
        exact (DocWriteString pf32 pf64 name sa a sv (in_names _ _ Ewr) Ha Nv). }
      destruct (cli_type_of ty) as [t|] eqn:Et; [|discriminate].
      destruct (cli_parse_value pf32 pf64 t sv) as [v|] eqn:Ev; [|discriminate].
      intros [= <-].
      exact (DocWriteNum pf32 pf64 name ty t sa a sv v (in_names _ _ Ewr) (assoc_in ty cli_type_names t Et) Ha
               (parse_value_doc t sv v Bv Nv Ev)). }
    destruct (cli_in name cli_n_sid) eqn:Esid; [|discriminate].
    destruct args as [|su [|? ?]]; try discriminate. apply Forall_cons_iff in Hf as [[Bu _] _].
    destruct (sc_parse_uint 8 su) as [u| |] eqn:E; try discriminate.
    intros [= <-]. cbn [cli_join].
    exact (DocSetUnit pf32 pf64 name su u (in_names _ _ Esid) (parse_lit 8 su u ltac:(lia) Bu ltac:(rewrite E; reflexivity))).
  Qed.

End Sound.

Lemma lit_lt bits s v : cli_lit bits s v -> v < 2 ^ bits.
Proof. intros (_ & _ & _ & H). exact H. Qed.

Lemma slit_lt bits s v : cli_slit bits s v -> v < 2 ^ bits.
Proof.
  intros (_ & _ & _ & ->).
  assert (Hp : (0 < Z.of_N (2 ^ bits))%Z).
  { assert (2 ^ bits <> 0) by (apply N.pow_nonzero; lia). lia. }
  pose proof (Z.mod_pos_bound (sl_signed_value s) (Z.of_N (2 ^ bits)) Hp). lia.
Qed.

Lemma addr_qty_lt x a q : cli_addr_qty x a q -> a < 65536 /\ q < 65536.
Proof.
  intros [[H ->]|(sa & sq & _ & Ha & Hq)].
  - split; [exact (lit_lt 16 x a H)|lia].
  - split; [exact (lit_lt 16 sa a Ha)|exact (lit_lt 16 sq q Hq)].
Qed.

Section Wf.
  Variable pf32 pf64 : list N -> option N.
  Hypothesis pf32_bound : forall s v, pf32 s = Some v -> v < 2 ^ 32.
  Hypothesis pf64_bound : forall s v, pf64 s = Some v -> v < 2 ^ 64.

  Lemma doc_value_lt t s v : cli_doc_value pf32 pf64 t s v ->
    t <> CtBytes /\ v < 2 ^ (16 * cli_width t).
  Proof.
    destruct t; cbn [cli_doc_value cli_width]; intros H; try contradiction; (split; [discriminate|]).
    - exact (lit_lt 16 s v H).
    - exact (slit_lt 16 s v H).
    - exact (lit_lt 32 s v H).
    - exact (slit_lt 32 s v H).
    - exact (pf32_bound s v (proj2 H)).
    - exact (lit_lt 64 s v H).
    - exact (slit_lt 64 s v H).
    - exact (pf64_bound s v (proj2 H)).
  Qed.

  Lemma parse_cmd_wf arg c : bytesb arg = true ->
    cli_parse_cmd pf32 pf64 arg = CliOk c -> cli_op_wf c.
  Proof.
    intros Hb H. apply parse_cmd_documented in H; [|exact Hb]. revert Hb. destruct H as
      [name x a q _ Hx | name x a q _ Hx | name tn t x a q _ _ Hx | name tn t x a q _ _ Hx
      | name sa a sv v _ Ha _ | name tn t sa a sv v _ _ Ha Hv | name sa a sv bs _ Ha Hh
      | name sa a sv _ Ha _ | name su u _ Hu]; intros Hb; cbn [cli_op_wf].
    - exact (addr_qty_lt x a q Hx).
    - exact (addr_qty_lt x a q Hx).
    - exact (addr_qty_lt x a q Hx).
    - exact (addr_qty_lt x a q Hx).
    - exact (lit_lt 16 sa a Ha).
    - destruct (doc_value_lt t sv v Hv) as [H1 H2]. exact (conj H1 (conj (lit_lt 16 sa a Ha) H2)).
    - split; [exact (lit_lt 16 sa a Ha)|]. apply hex_string_parse in Hh as [Hh _].
      exact (proj2 (hex_decode_ok sv bs Hh)).
    - split; [exact (lit_lt 16 sa a Ha)|].
      (* the string is the tail of the argument *)
      rewrite !bytesb_app in Hb. repeat (apply andb_true_iff in Hb as [_ Hb]). exact Hb.
    - exact (lit_lt 8 su u Hu).
  Qed.

  Lemma parse_all_wf args ops : Forall (fun a => bytesb a = true) args ->
    cli_parse_all pf32 pf64 args = CliOk ops -> Forall cli_op_wf ops.
  Proof.
    intros Hb H. apply parse_all_ok in H. induction H as [|a o t os Ha _ IH]; [constructor|].
    inversion Hb; subst. constructor; [exact (parse_cmd_wf a o ltac:(assumption) Ha)|]. apply IH. assumption.
  Qed.
End Wf.

Lemma read_regs_valid h t a q o : t <> CtBytes ->
  cli_doc_op (CoReadRegs h t a q) = Some o ->
  valid_op o = ((q + 1) * cli_width t <=? 125) && (a + (q + 1) * cli_width t <=? 65536).
Proof.
  intros Ht H. destruct t; try congruence; cbn in H; inversion H; subst; valid_tac.
Qed.

Lemma read_bytes_valid h a q o :
  cli_doc_op (CoReadRegs h CtBytes a q) = Some o ->
  valid_op o = ((q + 2) / 2 <=? 125) && (a + (q + 2) / 2 <=? 65536).
Proof. intros H. cbn in H. inversion H; subst. valid_tac. Qed.

Lemma read_bools_valid coil a q o :
  cli_doc_op (CoReadBools coil a q) = Some o ->
  valid_op o = (q + 1 <=? 2000) && (a + q + 1 <=? 65536).
Proof. intros H. cbn in H. inversion H; subst. valid_tac. Qed.

Lemma mapi_nth {A B} (f : N -> A -> B) l : forall k i da db, (i < length l)%nat ->
  nth i (cli_mapi f k l) db = f (k + N.of_nat i) (nth i l da).
Proof.
  induction l as [|x t IH]; intros k i da db Hi; [cbn in Hi; lia|].
  destruct i as [|i]; cbn [cli_mapi nth].
  - f_equal. lia.
  - rewrite (IH (k + 1) i da db) by (cbn in Hi; lia). f_equal. lia.
Qed.

Lemma mapi_length {A B} (f : N -> A -> B) l : forall k, length (cli_mapi f k l) = length l.
Proof. induction l as [|x t IH]; intros k; cbn; [reflexivity|]. now rewrite IH. Qed.

(* the uint16 address arithmetic of the print loops, in plain arithmetic *)
Lemma print_addr1 a i : u16 (a + u16 (0 + i)) = (a + i) mod 65536.
Proof. unfold u16. lia. Qed.

Lemma print_addr a i w : w = 2 \/ w = 4 -> u16 (a + u16 (u16 (0 + i) * w)) = (a + i * w) mod 65536.
Proof. unfold u16. intros [-> | ->]; lia. Qed.
