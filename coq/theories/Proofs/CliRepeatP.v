(* Proofs about Model/CliRepeat.v: a repeated command list puts the documented
   frames of the SAME list on the wire in every pass; each pass is a run of
   the execution loop of Model/Cli.v from the state the previous pass left;
   the two extra commands keep parsing all-or-nothing and leave the meaning of
   the other commands alone. *)
From Modbus Require Import Base.Bytes Model.Encoding Model.Wire Model.Client
  Model.Strconv Model.Cli Model.CliRepeat Spec.ModbusSpec Spec.ClientSpec Spec.CliSpec Spec.CliRepeatSpec
  Proofs.CliP.

Lemma doc_end_cons cfg txn c t :
  cli_doc_end cfg txn (c :: t) =
  let '(cfg', txn', _) := doc_step cfg txn c in cli_doc_end cfg' txn' t.
Proof.
  unfold doc_step.
  destruct c; cbn [cli_doc_end]; try reflexivity;
    (destruct (cli_doc_op _) as [o|]; [destruct (valid_op o)|]; reflexivity).
Qed.

Lemma run_end : forall cs st,
  Forall cli_op_wf cs -> cfg_wf (cs_cfg st) -> cs_txn st < 65536 ->
  cli_doc_end (cs_cfg st) (cs_txn st) cs = (cs_cfg (cli_run st cs), cs_txn (cli_run st cs)) /\
  cfg_wf (cs_cfg (cli_run st cs)) /\ cs_txn (cli_run st cs) < 65536.
Proof.
  induction cs as [|c t IH]; intros st Hwf Hcfg Htxn.
  - cbn. auto.
  - inversion Hwf as [|? ? Hc Ht]; subst.
    change (cli_run st (c :: t)) with (cli_run (cli_exec st c) t). rewrite doc_end_cons.
    pose proof (exec_doc st c Hc Hcfg Htxn) as H.
    destruct (doc_step (cs_cfg st) (cs_txn st) c) as [[cfg' txn'] fr].
    destruct H as (_ & E2 & E3 & W1 & W2). subst cfg' txn'. apply IH; assumption.
Qed.

Lemma iter_snoc : forall n st ops,
  clr_iter (S n) st ops = cli_run (clr_iter n st ops) ops.
Proof.
  induction n as [|n IH]; intros st ops; [reflexivity|].
  change (clr_iter (S (S n)) st ops) with (clr_iter (S n) (cli_run st ops) ops).
  rewrite IH. reflexivity.
Qed.

Lemma iter_wf : forall n cs st,
  Forall cli_op_wf cs -> cfg_wf (cs_cfg st) -> cs_txn st < 65536 ->
  cfg_wf (cs_cfg (clr_iter n st cs)) /\ cs_txn (clr_iter n st cs) < 65536.
Proof.
  induction n as [|n IH]; intros cs st Hwf Hcfg Htxn; [cbn; auto|].
  cbn [clr_iter]. destruct (run_end cs st Hwf Hcfg Htxn) as (_ & H1 & H2).
  apply IH; assumption.
Qed.

Lemma iter_frames : forall n cs st,
  Forall cli_op_wf cs -> cfg_wf (cs_cfg st) -> cs_txn st < 65536 ->
  cs_tx (clr_iter n st cs) = cs_tx st ++ clr_doc_frames n (cs_cfg st) (cs_txn st) cs.
Proof.
  induction n as [|n IH]; intros cs st Hwf Hcfg Htxn.
  - cbn. now rewrite app_nil_r.
  - cbn [clr_iter clr_doc_frames].
    destruct (run_end cs st Hwf Hcfg Htxn) as (E & H1 & H2).
    rewrite (IH cs (cli_run st cs) Hwf H1 H2), (run_frames cs st Hwf Hcfg Htxn), E, <- app_assoc.
    reflexivity.
Qed.

Lemma pass_all_ops ops : clr_pass (map ClrOp ops) = ops /\ clr_loops (map ClrOp ops) = false.
Proof.
  induction ops as [|c t [E1 E2]]; [split; reflexivity|]. cbn [map clr_pass clr_loops]. rewrite E1, E2. auto.
Qed.

Section WithOracles.
  Variable pf32 pf64 : list N -> option N.
  Variable dur : list N -> bool.

  (* "repeat" and "sleep" are not among the names of the request commands *)
  Lemma parse_cmd_extra arg name args : cli_split 58 arg = name :: args ->
    name = clr_s_repeat \/ name = clr_s_sleep -> cli_parse_cmd pf32 pf64 arg = CliRefused.
  Proof. intros Es [-> | ->]; unfold cli_parse_cmd; rewrite Es; reflexivity. Qed.

  Lemma parse_cmd_kept arg c :
    cli_parse_cmd pf32 pf64 arg = CliOk c -> clr_parse_cmd pf32 pf64 dur arg = CliOk (ClrOp c).
  Proof.
    intros H. unfold clr_parse_cmd. rewrite H.
    destruct (cli_split 58 arg) as [|name args] eqn:Es.
    { unfold cli_parse_cmd in H. rewrite Es in H. discriminate. }
    destruct (list_eqb name clr_s_repeat) eqn:E1.
    { apply list_eqb_eq in E1. rewrite (parse_cmd_extra arg name args Es (or_introl E1)) in H. discriminate. }
    destruct (list_eqb name clr_s_sleep) eqn:E2.
    { apply list_eqb_eq in E2. rewrite (parse_cmd_extra arg name args Es (or_intror E2)) in H. discriminate. }
    reflexivity.
  Qed.

  Lemma parse_cmd_cases arg i :
    clr_parse_cmd pf32 pf64 dur arg = CliOk i ->
    (i = ClrRepeat /\ arg = clr_s_repeat) \/
    (i = ClrSleep /\ exists d, cli_split 58 arg = [clr_s_sleep; d] /\ dur d = true) \/
    (exists c, i = ClrOp c /\ cli_parse_cmd pf32 pf64 arg = CliOk c).
  Proof.
    unfold clr_parse_cmd. destruct (cli_split 58 arg) as [|name args] eqn:Es; [discriminate|].
    destruct (list_eqb name clr_s_repeat) eqn:E1.
    { apply list_eqb_eq in E1. subst name. destruct args; [|discriminate]. intros H. inversion H; subst.
      left. split; [reflexivity|].
      destruct (split_join 58 arg) as [J _]. rewrite Es in J. cbn in J. symmetry. exact J. }
    destruct (list_eqb name clr_s_sleep) eqn:E2.
    { apply list_eqb_eq in E2. subst name. destruct args as [|d [|? ?]]; try discriminate.
      destruct (dur d) eqn:Ed; [|discriminate]. intros H. inversion H; subst.
      right; left. split; [reflexivity|]. exists d. split; [reflexivity|exact Ed]. }
    destruct (cli_parse_cmd pf32 pf64 arg) as [c|]; [|discriminate].
    intros H. inversion H; subst. right; right. exists c. split; reflexivity.
  Qed.

  Lemma rparse_all_ok args items :
    clr_parse_all pf32 pf64 dur args = CliOk items <->
    Forall2 (fun a o => clr_parse_cmd pf32 pf64 dur a = CliOk o) args items.
  Proof. apply all_ok; reflexivity. Qed.

  Lemma rparse_all_refused args :
    clr_parse_all pf32 pf64 dur args = CliRefused <->
    exists a, In a args /\ clr_parse_cmd pf32 pf64 dur a = CliRefused.
  Proof. apply all_refused; reflexivity. Qed.

  Lemma rparse_all_kept args ops :
    cli_parse_all pf32 pf64 args = CliOk ops ->
    clr_parse_all pf32 pf64 dur args = CliOk (map ClrOp ops).
  Proof.
    intros H. apply parse_all_ok in H. apply rparse_all_ok.
    induction H as [|a o t os Ha _ IH]; cbn [map]; constructor; [|exact IH].
    apply parse_cmd_kept. exact Ha.
  Qed.

  (* all-or-nothing with the two extra commands: a refused argument anywhere
     (also behind a `repeat`) exits before any connection, whatever n *)
  Lemma rmain_all_or_nothing n e w u args dev a :
    In a args -> clr_parse_cmd pf32 pf64 dur a = CliRefused ->
    exists code, clr_main pf32 pf64 dur n e w u args dev = CliExit code /\ code <> 0.
  Proof.
    intros Hin Hr. unfold clr_main.
    destruct (sc_parse_uint 64 u); [|exists 2; split; [reflexivity|lia]..].
    destruct (cli_endian_of e); [|exists 1; split; [reflexivity|lia]].
    destruct (cli_word_of w); [|exists 1; split; [reflexivity|lia]].
    destruct args as [|a0 t]; [destruct Hin|].
    replace (clr_parse_all pf32 pf64 dur (a0 :: t)) with (@CliRefused (list clr_item))
      by (symmetry; apply rparse_all_refused; eauto).
    exists 2. split; [reflexivity|lia].
  Qed.

  Lemma rmain_done n e w u args dev st :
    clr_main pf32 pf64 dur n e w u args dev = CliDone st ->
    exists unit en wo items,
      sc_parse_uint 64 u = ScOk unit /\ unit < 256 /\
      cli_endian_of e = Some en /\ cli_word_of w = Some wo /\
      clr_parse_all pf32 pf64 dur args = CliOk items /\
      st = if clr_loops items
           then clr_iter n (mkclist (mkcfg unit en wo) 0 dev [] []) (clr_pass items)
           else cli_run (mkclist (mkcfg unit en wo) 0 dev [] []) (clr_pass items).
  Proof.
    unfold clr_main. destruct (sc_parse_uint 64 u) as [unit| |]; try discriminate.
    destruct (cli_endian_of e) as [en|]; [|discriminate].
    destruct (cli_word_of w) as [wo|]; [|discriminate].
    destruct args as [|a0 t]; [discriminate|].
    destruct (clr_parse_all pf32 pf64 dur (a0 :: t)) as [items|]; [|discriminate].
    destruct (255 <? unit) eqn:E; [discriminate|]. intros H.
    exists unit, en, wo, items. repeat split; try reflexivity; [lia|].
    destruct (clr_loops items); inversion H; reflexivity.
  Qed.
End WithOracles.

Section Wf.
  Variable pf32 pf64 : list N -> option N.
  Variable dur : list N -> bool.
  Hypothesis pf32_bound : forall s v, pf32 s = Some v -> v < 2 ^ 32.
  Hypothesis pf64_bound : forall s v, pf64 s = Some v -> v < 2 ^ 64.

  Lemma rparse_all_wf args items :
    Forall (fun a => bytesb a = true) args ->
    clr_parse_all pf32 pf64 dur args = CliOk items -> Forall cli_op_wf (clr_pass items).
  Proof.
    intros Hb H. apply rparse_all_ok in H.
    induction H as [|a i t is Ha _ IH]; [constructor|].
    inversion Hb as [|? ? Hba Hbt]; subst. specialize (IH Hbt).
    destruct (parse_cmd_cases pf32 pf64 dur a i Ha) as [[-> _]|[[-> _]|(c & -> & Hc)]]; cbn [clr_pass].
    - constructor.
    - exact IH.
    - constructor; [|exact IH]. exact (parse_cmd_wf pf32 pf64 pf32_bound pf64_bound a c Hba Hc).
  Qed.
End Wf.
