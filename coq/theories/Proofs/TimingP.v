(* Proofs about Model/Timing.v: the computed delays meet Spec/TimingSpec.v for
   every rate, int64 arithmetic never overflows for the rates of the property,
   and the send-time machine keeps the inter-frame silence for every history
   and every clock behaviour. *)
From Modbus Require Import Base.Bytes Model.Timing Spec.TimingSpec.
Local Open Scope Z_scope.

(* Go's truncating division is the floor for the operands that occur here *)
Lemma char_time_div r : 0 < r -> char_time r = (11 * 1000000000) / r.
Proof. intros Hr. unfold char_time, second_ns. apply Z.quot_div_nonneg; lia. Qed.

(* also at rate 0, where Z.quot gives 0 *)
Lemma char_time_nonneg r : 0 <= r -> 0 <= char_time r.
Proof.
  intros Hr. destruct (Z.eq_dec r 0) as [->|Hn]; [discriminate|].
  rewrite char_time_div by lia. apply Z.div_pos; lia.
Qed.

Lemma t35_nonneg r : 0 <= r -> 0 <= t35 r.
Proof.
  intros Hr. unfold t35. destruct (19200 <=? r); [lia|].
  pose proof (char_time_nonneg r Hr). apply Z.quot_pos; lia.
Qed.

Lemma t35_low_div r : 0 < r -> r < 19200 -> t35 r = (char_time r * 35) / 10.
Proof.
  intros Hr Hlt. unfold t35.
  destruct (19200 <=? r) eqn:E; [lia|].
  apply Z.quot_div_nonneg; [|lia].
  pose proof (char_time_nonneg r ltac:(lia)). lia.
Qed.

Lemma t35_high r : 19200 <= r -> t35 r = 1750000.
Proof. intros Hr. unfold t35. destruct (19200 <=? r) eqn:E; lia. Qed.

(* T1: eleven bit times, to the nanosecond *)
Lemma char_time_spec r : 1 <= r -> char_time_ok r (char_time r).
Proof.
  intros Hr. unfold char_time_ok, ns_per_s. rewrite char_time_div by lia.
  pose proof (Z.div_mod (11 * 1000000000) r ltac:(lia)) as Hdm.
  pose proof (Z.mod_pos_bound (11 * 1000000000) r ltac:(lia)) as Hb.
  set (c := 11 * 1000000000 / r) in *. set (m := (11 * 1000000000) mod r) in *.
  split; nia.
Qed.

Lemma char_time_floor r : 1 <= r ->
  11 * 1000000000 - r < char_time r * r /\ char_time r * r <= 11 * 1000000000.
Proof.
  intros Hr. destruct (char_time_spec r Hr) as [H1 H2]. unfold ns_per_s in *. split; lia.
Qed.

(* T2: 3.5 character times below 19200 bps, 1750 us from there on *)
Lemma t35_spec r : 1 <= r -> t35_ok r (char_time r) (t35 r).
Proof.
  intros Hr. unfold t35_ok. split.
  - intros Hlt. rewrite t35_low_div by lia.
    pose proof (char_time_nonneg r ltac:(lia)). lia.
  - intros Hge. rewrite t35_high by exact Hge. reflexivity.
Qed.

Lemma timing_okb_iff r c d : timing_okb r c d = true <-> char_time_ok r c /\ t35_ok r c d.
Proof.
  unfold timing_okb, char_time_ok, t35_ok, ns_per_s.
  destruct (r <? 19200) eqn:E; lia.
Qed.

Lemma timing_model_ok r : 1 <= r -> timing_okb r (char_time r) (t35 r) = true.
Proof.
  intros Hr. apply timing_okb_iff. split; [apply char_time_spec | apply t35_spec]; exact Hr.
Qed.

Definition int64_max : Z := 9223372036854775807.

(* 1100 = 11 * 10^9 / 10^7 at the highest rate, 3850 = 1100 * 35 / 10 *)
Lemma timing_pos r : 1 <= r -> r <= 10000000 -> 1100 <= char_time r /\ 3850 <= t35 r.
Proof.
  intros H1 H2.
  assert (Hc : 1100 <= char_time r).
  { rewrite char_time_div by lia. apply Z.div_le_lower_bound; lia. }
  split; [exact Hc|].
  unfold t35. destruct (19200 <=? r); [lia|].
  rewrite Z.quot_div_nonneg by lia. lia.
Qed.

(* Go computes in int64: no intermediate value overflows for these rates, so
   the model's unbounded integers are the machine's values. The largest is
   256 * char_time 1 = 2816 * 10^9 < 2^42. *)
Lemma timing_no_overflow r : 1 <= r -> r <= 10000000 ->
  11 * second_ns <= int64_max /\ r <= int64_max /\
  0 <= char_time r <= int64_max /\
  0 <= char_time r * 35 <= int64_max /\
  0 <= t35 r <= int64_max /\
  (forall n, 0 <= n <= 256 -> 0 <= n * char_time r <= int64_max).
Proof.
  intros H1 H2. unfold int64_max, second_ns.
  assert (Hc : 0 <= char_time r <= 11000000000).
  { rewrite char_time_div by lia. split; [apply Z.div_pos; lia|].
    apply Z.div_le_upper_bound; nia. }
  assert (Ht : 0 <= t35 r <= 38500000000).
  { unfold t35. destruct (19200 <=? r); [lia|].
    rewrite Z.quot_div_nonneg by lia. lia. }
  repeat split; try lia; nia.
Qed.

(* the pre-send wait: the request is not written before the line has been
   quiet until l *)
Lemma sleep_until now l : (if now - l <? 0 then sleep now (- (now - l)) 0 else now) = Z.max now l.
Proof. unfold sleep. destruct (now - l <? 0) eqn:E; lia. Qed.

Lemma exchange_facts t1 t35 s x s' e :
  0 <= t1 -> 0 <= t35 -> admissible x -> exchange t1 t35 s x = (s', e) ->
  last_activity s + t35 <= ev_tx_start e /\
  last_activity s <= last_activity s' /\
  (forall f, frame_end e = Some f -> f <= last_activity s') /\
  clock s <= clock s'.
Proof.
  intros Ht1 Ht35 (Hn & He & Hs1 & Hw & Hwr & Hs2 & Hr & Hrx & Hst) Hex.
  assert (Hnt : 0 <= x_n x * t1) by nia.
  unfold exchange in Hex. cbv zeta in Hex. rewrite sleep_until in Hex.
  unfold sleep, frame_end in *.
  destruct (x_out x); injection Hex as <- <-;
    cbn [ev_out ev_tx_start ev_tx_end ev_rx_end last_activity clock];
    (repeat split; [| |intros f [= <-]|]); lia.
Qed.

(* a heard reply: its last byte arrived not later than the instant the code
   stamps, and the stamp is the clock *)
Lemma exchange_heard t1 t35 s x s' e :
  0 <= t1 -> 0 <= t35 -> admissible x -> x_out x = Heard -> exchange t1 t35 s x = (s', e) ->
  frame_end e = Some (ev_rx_end e) /\ ev_rx_end e <= last_activity s' /\
  last_activity s' = clock s' /\ ev_tx_end e + t35 <= clock s'.
Proof.
  intros Ht1 Ht35 (Hn & He & Hs1 & Hw & Hwr & Hs2 & Hr & Hrx & Hst) Ho Hex.
  assert (Hnt : 0 <= x_n x * t1) by nia.
  unfold exchange in Hex. cbv zeta in Hex. rewrite sleep_until, Ho in Hex.
  unfold sleep, frame_end in *. injection Hex as <- <-.
  cbn [ev_out ev_tx_start ev_tx_end ev_rx_end last_activity clock]. repeat split; lia.
Qed.

Lemma run_outcomes t1 t35 xs : forall s, map ev_out (run t1 t35 s xs) = map x_out xs.
Proof.
  induction xs as [|x xs IH]; intros s; cbn [run map]; [reflexivity|].
  destruct (exchange t1 t35 s x) as [s' e] eqn:Ex. cbn [map]. rewrite IH. f_equal.
  unfold exchange in Ex. destruct (x_out x); inversion Ex; reflexivity.
Qed.

(* a history that keeps the silence from the instant l on: every request
   starts at least t35 after l, and l moves up to cover the end of each frame
   before the next request *)
Inductive quiet_from (t35 : Z) : Z -> list event -> Prop :=
| quiet_nil l : quiet_from t35 l []
| quiet_cons l l' e es :
    l + t35 <= ev_tx_start e -> l <= l' -> (forall f, frame_end e = Some f -> f <= l') ->
    quiet_from t35 l' es -> quiet_from t35 l (e :: es).

Lemma quiet_from_after t35 l es : quiet_from t35 l es ->
  Forall (fun e => l + t35 <= ev_tx_start e) es.
Proof.
  induction 1 as [|l l' e es Hs Hl _ _ IH]; constructor; [exact Hs|].
  eapply Forall_impl; [|exact IH]. cbn beta. intros e' He'. lia.
Qed.

Lemma quiet_from_silence t35 l es : quiet_from t35 l es ->
  ForallOrdPairs (fun e1 e2 => forall f, frame_end e1 = Some f -> f + t35 <= ev_tx_start e2) es.
Proof.
  induction 1 as [|l l' e es _ _ Hend Hq IH]; constructor; [|exact IH].
  eapply Forall_impl; [|exact (quiet_from_after _ _ _ Hq)].
  cbn beta. intros e' He' f Hf. specialize (Hend f Hf). lia.
Qed.

Lemma run_quiet t1 t35 xs : 0 <= t1 -> 0 <= t35 -> Forall admissible xs ->
  forall s, quiet_from t35 (last_activity s) (run t1 t35 s xs).
Proof.
  intros Ht1 Ht35 Hadm. induction Hadm as [|x xs Hx _ IH]; intros s; cbn [run]; [constructor|].
  destruct (exchange t1 t35 s x) as [s' e] eqn:Ex.
  destruct (exchange_facts t1 t35 s x s' e Ht1 Ht35 Hx Ex) as (Hstart & Hmono & Hend & _).
  econstructor; [exact Hstart|exact Hmono|exact Hend|apply IH].
Qed.

(* T3: every request starts at least t35 after the end of every earlier frame *)
Lemma run_silence t1 t35 xs s : 0 <= t1 -> 0 <= t35 -> Forall admissible xs ->
  ForallOrdPairs
    (fun e1 e2 => forall f, frame_end e1 = Some f -> f + t35 <= ev_tx_start e2)
    (run t1 t35 s xs).
Proof. intros Ht1 Ht35 Hadm. eapply quiet_from_silence, run_quiet; assumption. Qed.

Lemma ordpairs_nth {A} (R : A -> A -> Prop) l : ForallOrdPairs R l ->
  forall i j a b, (i < j)%nat -> nth_error l i = Some a -> nth_error l j = Some b -> R a b.
Proof.
  induction 1 as [|x l Hx _ IH]; intros i j a b Hij Ha Hb.
  - destruct i; discriminate.
  - destruct j as [|j]; [lia|]. cbn [nth_error] in Hb.
    destruct i as [|i]; cbn [nth_error] in Ha.
    + inversion Ha; subst x. rewrite Forall_forall in Hx. apply Hx.
      eapply nth_error_In; exact Hb.
    + eapply IH; [|exact Ha|exact Hb]. lia.
Qed.

(* T3 by position in the history, at the delays computed for a rate *)
Lemma run_silence_rate : forall r xs s i j e1 e2 f,
  1 <= r -> r <= 10000000 -> Forall admissible xs -> (i < j)%nat ->
  nth_error (run (char_time r) (t35 r) s xs) i = Some e1 ->
  nth_error (run (char_time r) (t35 r) s xs) j = Some e2 ->
  frame_end e1 = Some f -> f + t35 r <= ev_tx_start e2.
Proof.
  intros r xs s i j e1 e2 f H1 H2 Hadm Hij Hi Hj Hf.
  destruct (timing_pos r H1 H2) as [Hc Ht].
  assert (Hs := run_silence (char_time r) (t35 r) xs s ltac:(lia) ltac:(lia) Hadm).
  exact (ordpairs_nth _ _ Hs i j e1 e2 Hij Hi Hj f Hf).
Qed.
