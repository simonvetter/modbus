(* Proofs for property C11 (Model/Sessions.v): many concurrent sessions, one
   private session state per connection, one shared handler. The global run
   projected on one connection is that connection's private session, the shared
   handler being seen through the answers it gave; the private session fed chunk
   by chunk is the single-connection loop of Model/Server.v on the whole stream. *)
From Modbus Require Import Base.Bytes Model.Encoding Model.Wire Model.Server
  Spec.ModbusSpec Spec.ServerSpec Spec.ServerSessionSpec Model.Sessions Spec.SessionsSpec
  Proofs.MbapServerP Proofs.ServerP.

Lemma read_mbap_any_end e s :
  read_mbap e s =
  match read_mbap Stall s with
  | (FErr x, r) => if gs_is_wait x then (FErr (short_err e), []) else (FErr x, r)
  | ok => ok
  end.
Proof.
  unfold read_mbap, read_full.
  destruct s as [|t1 [|t0 [|p1 [|p0 [|l1 [|l0 [|u s]]]]]]];
    cbn [length Nat.leb firstn skipn short_err gs_is_wait]; try reflexivity.
  destruct (260 <? l1 * 256 + l0 - 1 + 7); [reflexivity|].
  destruct (l1 * 256 + l0 <=? 1); [reflexivity|].
  destruct (Nat.leb (N.to_nat (l1 * 256 + l0 - 1)) (length s)); [|reflexivity].
  destruct (negb (p1 * 256 + p0 =? 0)); [reflexivity|].
  destruct (firstn (N.to_nat (l1 * 256 + l0 - 1)) s); reflexivity.
Qed.

Lemma read_mbap_app a b r rest :
  read_mbap Stall a = (r, rest) -> (forall x, r = FErr x -> gs_is_wait x = false) ->
  read_mbap Stall (a ++ b) = (r, rest ++ b).
Proof.
  unfold read_mbap, read_full.
  destruct a as [|t1 [|t0 [|p1 [|p0 [|l1 [|l0 [|u s]]]]]]];
    cbn [length Nat.leb firstn skipn short_err app];
    try (intros H Hw; injection H as <- <-; specialize (Hw _ eq_refl); discriminate Hw).
  destruct (260 <? l1 * 256 + l0 - 1 + 7); [intros H _; injection H as <- <-; reflexivity|].
  destruct (l1 * 256 + l0 <=? 1); [intros H _; injection H as <- <-; reflexivity|].
  remember (N.to_nat (l1 * 256 + l0 - 1)) as n eqn:Hn.
  destruct (Nat.leb n (length s)) eqn:E3.
  2:{ intros H Hw; injection H as <- <-; specialize (Hw _ eq_refl); discriminate Hw. }
  apply Nat.leb_le in E3.
  replace (Nat.leb n (length (s ++ b))) with true
    by (symmetry; apply Nat.leb_le; rewrite app_length; lia).
  rewrite firstn_app, skipn_app. replace (n - length s)%nat with 0%nat by lia.
  cbn [firstn skipn]. rewrite app_nil_r.
  destruct (negb (p1 * 256 + p0 =? 0)); [intros H _; injection H as <- <-; reflexivity|].
  destruct (firstn n s); intros H _; injection H as <- <-; reflexivity.
Qed.

(* One turn of the dispatcher under two handlers. server_process is made of
   tests on the request, results without a call, and a single handler call
   followed by a result that is a function of the answer; each of the three
   keeps proc_sim, so the whole does, with no case left to run. *)
Section TwoHandlers.
  Context {S1 S2 : Type} (h1 : handler S1) (h2 : handler S2) (s1 : S1) (s2 : S2) (p : pdu).

  Definition same_unit (act : action) : Prop :=
    match act with Respond res => p_unit res = p_unit p | CloseLink => True end.

  Definition proc_sim (x1 : S1 * list hreq * action) (x2 : S2 * list hreq * action) : Prop :=
    let '(s1', calls, act) := x1 in
    same_unit act /\
    match calls with
    | [] => s1' = s1 /\ x2 = (s2, [], act)
    | [r] => h_unit r = p_unit p /\ s1' = fst (h1 s1 r) /\
             (snd (h2 s2 r) = snd (h1 s1 r) -> x2 = (fst (h2 s2 r), [r], act))
    | _ => False
    end.

  Lemma proc_sim_if (c : bool) x1 y1 x2 y2 :
    proc_sim x1 x2 -> proc_sim y1 y2 -> proc_sim (if c then x1 else y1) (if c then x2 else y2).
  Proof. intros Hx Hy. destruct c; assumption. Qed.

  Lemma proc_sim_direct act : same_unit act -> proc_sim (s1, [], act) (s2, [], act).
  Proof. intros H. split; [exact H|]. split; reflexivity. Qed.

  Lemma proc_sim_call r (k1 : S1 -> hres -> S1 * list hreq * action) (k2 : S2 -> hres -> S2 * list hreq * action) :
    h_unit r = p_unit p ->
    (forall st1 st2 res, exists act,
       k1 st1 res = (st1, [r], act) /\ k2 st2 res = (st2, [r], act) /\ same_unit act) ->
    proc_sim (let '(st', res) := h1 s1 r in
              match norm_herr (r_err res) with
              | HNone => k1 st' res
              | e => (st', [r], Respond (exception_pdu p (herr_code e)))
              end)
             (let '(st', res) := h2 s2 r in
              match norm_herr (r_err res) with
              | HNone => k2 st' res
              | e => (st', [r], Respond (exception_pdu p (herr_code e)))
              end).
  Proof.
    intros Hu Hk. unfold proc_sim. destruct (h1 s1 r) as [st1 res] eqn:E1.
    destruct (Hk st1 (fst (h2 s2 r)) res) as (act & K1 & K2 & Ha).
    destruct (norm_herr (r_err res)) eqn:En; rewrite ?K1.
    all: split; [first [exact Ha|reflexivity]|]; split; [exact Hu|]; rewrite E1; split; [reflexivity|].
    all: cbn [snd]; intros Heq; destruct (h2 s2 r) as [st2 res2]; cbn [fst snd] in *; subst res2.
    all: rewrite En, ?K2; reflexivity.
  Qed.

  Lemma server_process_sim : proc_sim (server_process h1 s1 p) (server_process h2 s2 p).
  Proof.
    unfold server_process. cbv zeta.
    repeat apply proc_sim_if.
    all: try (apply proc_sim_direct; first [exact I|reflexivity]).
    (* the two decoders of function codes 15 and 16 *)
    all: try (destruct (decode_bools _ _); [|apply proc_sim_direct; exact I]).
    all: try (destruct (bytes_to_u16s _ _); [|apply proc_sim_direct; exact I]).
    all: apply proc_sim_call; [reflexivity|]; intros st1 st2 res.
    (* the reads compare the length of the answer with the quantity *)
    all: try destruct (negb _).
    all: eexists; split; [reflexivity|]; split; reflexivity.
  Qed.
End TwoHandlers.

Lemma server_process_unit {St} (h : handler St) st p :
  let '(_, calls, act) := server_process h st p in
  (forall r, In r calls -> h_unit r = p_unit p) /\ same_unit p act.
Proof.
  pose proof (server_process_sim h h st st p) as H. unfold proc_sim in H.
  destruct (server_process h st p) as [[st' calls] act]. destruct H as [Ha H]. split; [|exact Ha].
  destruct calls as [|r [|]]; [intros r []| |destruct H]. intros r' [<-|[]]. apply H.
Qed.

(* the buffered bytes are not yet a whole frame (maybe none at all): the request
   loop stops on them without an event and without closing *)
Definition waitingb (buf : list N) : bool :=
  match read_mbap Stall buf with
  | (FErr x, _) => gs_is_wait x
  | _ => false
  end.

Section Drain.
  Context {St : Type} (gh : ghandler St) (a ro : N).

  Lemma drain_fuel f1 : forall f2 st buf, (length buf < f1)%nat -> (length buf < f2)%nat ->
    sess_drain gh f1 a ro st buf = sess_drain gh f2 a ro st buf.
  Proof.
    induction f1 as [|f1 IH]; intros f2 st buf H1 H2; [lia|]. destruct f2 as [|f2]; [lia|].
    cbn [sess_drain]. destruct (read_mbap Stall buf) as [[p t|x] rest] eqn:Er; [|reflexivity].
    apply read_mbap_consumes in Er.
    destruct (server_process (conn_handler gh a ro) st p) as [[st' calls] act].
    destruct act as [r|]; [|reflexivity]. rewrite (IH f2) by lia. reflexivity.
  Qed.

  Lemma drain_waiting f st buf : waitingb buf = true -> sess_drain gh f a ro st buf = (st, [], buf, false).
  Proof.
    unfold waitingb. destruct f as [|f]; [reflexivity|]. cbn [sess_drain].
    destruct (read_mbap Stall buf) as [[p t|x] rest]; [discriminate|]. intros ->. reflexivity.
  Qed.

  Lemma drain_result f : forall st buf, (length buf < f)%nat ->
    let '(_, _, b, cl) := sess_drain gh f a ro st buf in
    if cl then b = [] else waitingb b = true.
  Proof.
    induction f as [|f IH]; intros st buf Hf; [lia|]. cbn [sess_drain].
    destruct (read_mbap Stall buf) as [[p t|x] rest] eqn:Er.
    - apply read_mbap_consumes in Er as Hc.
      destruct (server_process (conn_handler gh a ro) st p) as [[st' calls] act].
      destruct act as [r|]; [|reflexivity].
      specialize (IH st' rest). destruct (sess_drain gh f a ro st' rest) as [[[st2 evs] b] cl].
      apply IH. lia.
    - destruct (gs_is_wait x) eqn:Ew; [|reflexivity]. unfold waitingb. rewrite Er. exact Ew.
  Qed.

  Definition drain_all (st : St) (buf : list N) := sess_drain gh (S (length buf)) a ro st buf.

  Lemma drain_app f : forall st buf more, (length buf < f)%nat ->
    let '(st1, ev1, b1, cl1) := sess_drain gh f a ro st buf in
    drain_all st (buf ++ more) =
    if cl1 then (st1, ev1, [], true)
    else let '(st2, ev2, b2, cl2) := drain_all st1 (b1 ++ more) in
         (st2, ev1 ++ ev2, b2, cl2).
  Proof.
    induction f as [|f IH]; intros st buf more Hf; [lia|].
    cbn [sess_drain]. destruct (read_mbap Stall buf) as [[p t|x] rest] eqn:Er.
    - apply read_mbap_consumes in Er as Hc.
      unfold drain_all at 1. cbn [sess_drain].
      rewrite (read_mbap_app _ more _ _ Er) by (intros x Hx; discriminate Hx).
      destruct (server_process (conn_handler gh a ro) st p) as [[st' calls] act].
      destruct act as [r|]; [|reflexivity].
      specialize (IH st' rest more).
      rewrite (drain_fuel (length (buf ++ more)) (S (length (rest ++ more)))) by (rewrite !app_length; lia).
      destruct (sess_drain gh f a ro st' rest) as [[[st1 ev1] b1] cl1].
      unfold drain_all at 1 in IH.
      rewrite IH by lia. destruct cl1; [reflexivity|].
      destruct (drain_all st1 (b1 ++ more)) as [[[st2 ev2] b2] cl2].
      rewrite <- app_assoc. reflexivity.
    - destruct (gs_is_wait x) eqn:Ew.
      + destruct (drain_all st (buf ++ more)) as [[[st2 ev2] b2] cl2].
        reflexivity.
      + unfold drain_all. cbn [sess_drain].
        rewrite (read_mbap_app _ more _ _ Er) by (intros y Hy; injection Hy as <-; exact Ew).
        rewrite Ew. reflexivity.
  Qed.

  Lemma strip_calls (g : hreq -> hres) calls :
    map gev_strip (map (fun r => GEvCall (mkgreq a ro r) (g r)) calls) = map EvCall calls.
  Proof. rewrite map_map. apply map_ext. intros r. reflexivity. Qed.

  Lemma drain_session f : forall st buf e,
    server_session (conn_handler gh a ro) f st e buf =
    let '(_, evs, _, cl) := sess_drain gh f a ro st buf in map gev_strip evs ++ close_tail cl.
  Proof.
    induction f as [|f IH]; intros st buf e; [reflexivity|].
    cbn [sess_drain server_session]. rewrite read_mbap_any_end.
    destruct (read_mbap Stall buf) as [[p t|x] rest] eqn:Er.
    - destruct (server_process (conn_handler gh a ro) st p) as [[st' calls] act].
      destruct act as [r|].
      + rewrite IH. destruct (sess_drain gh f a ro st' rest) as [[[st2 evs] b] cl].
        rewrite map_app, strip_calls. cbn [map gev_strip]. rewrite <- app_assoc. reflexivity.
      + rewrite map_app, strip_calls. cbn [map gev_strip close_tail]. rewrite app_nil_r. reflexivity.
    - destruct (gs_is_wait x); reflexivity.
  Qed.

  Lemma drain_calls_from f : forall st buf,
    let '(_, evs, _, _) := sess_drain gh f a ro st buf in calls_from a ro evs.
  Proof.
    induction f as [|f IH]; intros st buf; cbn [sess_drain]; [intros r ans []|].
    destruct (read_mbap Stall buf) as [[p t|x] rest] eqn:Er.
    - destruct (server_process (conn_handler gh a ro) st p) as [[st' calls] act].
      assert (Hc : calls_from a ro (map (fun r => GEvCall (mkgreq a ro r) (snd (gh st (mkgreq a ro r)))) calls)).
      { intros r ans Hin. apply in_map_iff in Hin. destruct Hin as (r' & Heq & _). injection Heq as <- _.
        split; reflexivity. }
      destruct act as [r|].
      + specialize (IH st' rest). destruct (sess_drain gh f a ro st' rest) as [[[st2 evs] b] cl].
        intros r' ans Hin. apply in_app_or in Hin. destruct Hin as [Hin|[Hin|Hin]];
          [exact (Hc _ _ Hin)|discriminate|exact (IH _ _ Hin)].
      + intros r' ans Hin. apply in_app_or in Hin. destruct Hin as [Hin|[Hin|[]]];
          [exact (Hc _ _ Hin)|discriminate].
    - destruct (gs_is_wait x); [intros r ans []|intros r ans [Hin|[]]; discriminate].
  Qed.
End Drain.

Section Feeds.
  Context {St : Type} (gh : ghandler St).

  Lemma feeds_closed xs : forall st s, gs_closed s = true -> sess_feeds gh st s xs = (st, s, []).
  Proof.
    induction xs as [|x t IH]; intros st s Hc; [reflexivity|].
    cbn [sess_feeds]. unfold sess_feed. rewrite Hc. rewrite IH by exact Hc. reflexivity.
  Qed.

  Lemma feed_keeps_identity st s x :
    let '(_, s', _) := sess_feed gh st s x in gs_addr s' = gs_addr s /\ gs_role s' = gs_role s.
  Proof.
    unfold sess_feed. destruct (gs_closed s); [split; reflexivity|].
    destruct x as [chunk|]; [|split; reflexivity].
    destruct (sess_drain gh _ _ _ st _) as [[[st' evs] b] cl]. split; reflexivity.
  Qed.

  (* chunking independence of one session: the chunks only matter through
     their concatenation (and whether the stream ended) *)
  Lemma feeds_whole xs : forall st s, gs_closed s = false -> waitingb (gs_buf s) = true ->
    sess_feeds gh st s xs =
    let '(st', evs, b, cl) := drain_all gh (gs_addr s) (gs_role s) st (gs_buf s ++ gin_stream xs) in
    if cl then (st', mkgsess b (gs_addr s) (gs_role s) true, evs)
    else if gin_ended xs then (st', mkgsess [] (gs_addr s) (gs_role s) true, evs ++ [GEvClosed])
    else (st', mkgsess b (gs_addr s) (gs_role s) false, evs).
  Proof.
    induction xs as [|x t IH]; intros st s Hc Hw.
    - cbn [sess_feeds gin_stream gin_ended]. rewrite app_nil_r. unfold drain_all.
      rewrite drain_waiting by exact Hw. destruct s as [b a ro cl]. cbn [gs_closed] in Hc. subst cl.
      reflexivity.
    - cbn [sess_feeds]. destruct x as [chunk|].
      + unfold sess_feed. rewrite Hc. cbn [gin_stream gin_ended].
        pose proof (drain_app gh (gs_addr s) (gs_role s) (S (length (gs_buf s ++ chunk))) st
                      (gs_buf s ++ chunk) (gin_stream t) (Nat.lt_succ_diag_r _)) as HA.
        pose proof (drain_result gh (gs_addr s) (gs_role s) (S (length (gs_buf s ++ chunk))) st
                      (gs_buf s ++ chunk) (Nat.lt_succ_diag_r _)) as HR.
        destruct (sess_drain gh (S (length (gs_buf s ++ chunk))) (gs_addr s) (gs_role s) st (gs_buf s ++ chunk))
          as [[[st1 ev1] b1] cl1].
        rewrite <- app_assoc in HA. rewrite HA. destruct cl1.
        * subst b1. rewrite feeds_closed by reflexivity. rewrite app_nil_r. reflexivity.
        * rewrite IH by (try reflexivity; exact HR). cbn [gs_buf gs_addr gs_role].
          destruct (drain_all gh (gs_addr s) (gs_role s) st1 (b1 ++ gin_stream t)) as [[[st2 ev2] b2] cl2].
          destruct cl2; [reflexivity|]. destruct (gin_ended t); [|reflexivity].
          rewrite app_assoc. reflexivity.
      + unfold sess_feed. rewrite Hc. rewrite feeds_closed by reflexivity.
        cbn [gin_stream gin_ended]. rewrite !app_nil_r. unfold drain_all.
        rewrite drain_waiting by exact Hw. reflexivity.
  Qed.

  Lemma feeds_fresh_whole xs st a ro :
    sess_feeds gh st (gs_fresh a ro) xs = sess_whole gh st a ro (gin_stream xs) (gin_ended xs).
  Proof.
    rewrite feeds_whole by reflexivity. reflexivity.
  Qed.
End Feeds.

Lemma gev_answers_app x y : gev_answers (x ++ y) = gev_answers x ++ gev_answers y.
Proof.
  induction x as [|e x IH]; [reflexivity|]. destruct e; cbn [app gev_answers]; rewrite IH; reflexivity.
Qed.

Lemma gs_lookup_update_same c v l s :
  gs_lookup c l = Some s -> gs_lookup c (gs_update c v l) = Some v.
Proof.
  induction l as [|[k x] t IH]; cbn [gs_lookup gs_update]; [discriminate|].
  destruct (k =? c) eqn:E; cbn [gs_lookup]; rewrite E; [reflexivity|exact IH].
Qed.

Lemma gs_lookup_update_other c c' v l :
  c' <> c -> gs_lookup c' (gs_update c v l) = gs_lookup c' l.
Proof.
  intros Hne. induction l as [|[k x] t IH]; cbn [gs_lookup gs_update]; [reflexivity|].
  destruct (k =? c) eqn:E; cbn [gs_lookup].
  - apply N.eqb_eq in E. subst k. replace (c =? c') with false by (symmetry; apply N.eqb_neq; congruence).
    reflexivity.
  - destruct (k =? c'); [reflexivity|exact IH].
Qed.

Lemma gproj_app {A} c (x y : list (N * A)) : gproj c (x ++ y) = gproj c x ++ gproj c y.
Proof.
  induction x as [|[k e] x IH]; [reflexivity|]. cbn [app gproj].
  destruct (k =? c); rewrite IH; reflexivity.
Qed.

Lemma gproj_same {A} c (l : list A) : gproj c (map (fun e => (c, e)) l) = l.
Proof.
  induction l as [|e l IH]; [reflexivity|]. cbn [map gproj]. rewrite N.eqb_refl, IH. reflexivity.
Qed.

Lemma gproj_other {A} c c' (l : list A) : c' <> c -> gproj c' (map (fun e => (c, e)) l) = [].
Proof.
  intros Hne. induction l as [|e l IH]; [reflexivity|]. cbn [map gproj].
  replace (c =? c') with false by (symmetry; apply N.eqb_neq; congruence). exact IH.
Qed.

Lemma ginit_lookup {St} (st : St) conns c a ro :
  gs_lookup c (g_sessions (ginit st conns)) = Some (gs_fresh a ro) <->
  (exists pre post, conns = pre ++ (c, (a, ro)) :: post /\ ~ In c (map fst pre)).
Proof.
  unfold ginit. cbn [g_sessions]. induction conns as [|[k [a' ro']] t IH]; cbn [map gs_lookup fst snd].
  - split; [discriminate|]. intros (pre & post & H & _). destruct pre; discriminate.
  - destruct (k =? c) eqn:E.
    + apply N.eqb_eq in E. subst k. split.
      * intros H. injection H as <- <-. exists [], t. split; [reflexivity|intros []].
      * intros (pre & post & H & Hn). destruct pre as [|[k2 v2] pre].
        -- injection H as <- <- _. reflexivity.
        -- injection H as <- _ _. exfalso. apply Hn. left. reflexivity.
    + apply N.eqb_neq in E. rewrite IH. split.
      * intros (pre & post & -> & Hn). exists ((k, (a', ro')) :: pre), post. split; [reflexivity|].
        intros [H|H]; [exact (E H)|exact (Hn H)].
      * intros (pre & post & H & Hn). destruct pre as [|[k2 v2] pre].
        -- injection H as -> _ _. congruence.
        -- injection H as _ _ ->. exists pre, post. split; [reflexivity|].
           intros Hin. apply Hn. right. exact Hin.
Qed.

Section Global.
  Context {St : Type} (gh : ghandler St).

  (* T1: whatever a step for connection c produces is addressed to c *)
  Lemma gstep_tagged g c x : Forall (fun o => fst o = c) (snd (gstep gh g (c, x))).
  Proof.
    unfold gstep. cbn [fst snd]. destruct (gs_lookup c (g_sessions g)) as [s|]; [|constructor].
    destruct (sess_feed gh (g_shared g) s x) as [[st' s'] evs]. cbn [snd].
    apply Forall_forall. intros o Hin. apply in_map_iff in Hin. destruct Hin as (e & <- & _). reflexivity.
  Qed.

  Lemma gstep_view g k x c s : gs_lookup c (g_sessions g) = Some s ->
    let '(g1, o1) := gstep gh g (k, x) in
    if k =? c
    then let '(st1, s1, e1) := sess_feed gh (g_shared g) s x in
         g_shared g1 = st1 /\ gs_lookup c (g_sessions g1) = Some s1 /\ gproj c o1 = e1
    else gs_lookup c (g_sessions g1) = Some s /\ gproj c o1 = [].
  Proof.
    intros Hl. destruct (k =? c) eqn:Ek.
    - apply N.eqb_eq in Ek. subst k. unfold gstep. cbn [fst snd]. rewrite Hl.
      destruct (sess_feed gh (g_shared g) s x) as [[st1 s1] e1]. cbn [g_shared g_sessions].
      split; [reflexivity|split; [exact (gs_lookup_update_same _ _ _ _ Hl)|apply gproj_same]].
    - apply N.eqb_neq in Ek. unfold gstep. cbn [fst snd].
      destruct (gs_lookup k (g_sessions g)) as [sk|]; [|split; [exact Hl|reflexivity]].
      destruct (sess_feed gh (g_shared g) sk x) as [[st1 s1] e1]. cbn [g_sessions].
      split; [rewrite gs_lookup_update_other by congruence; exact Hl|apply gproj_other; congruence].
  Qed.

End Global.

(* A second handler gh2 whose state says which answers are still to come:
   push l t is the state from which gh2 gives the answers l and is then in
   t. If gh2 answers every call as gh did, the session of one connection
   under gh2, started from the answers gh gave it, is its session under gh.
   Two instances: the recorded answers themselves (gh_oracle, push = app),
   and a handler whose answers do not depend on the state (gh_pure, one
   state). *)
Section Replay.
  Context {St T : Type} (gh : ghandler St) (gh2 : ghandler T) (push : list hres -> T -> T).
  Hypothesis push_nil : forall t, push [] t = t.
  Hypothesis push_app : forall a b t, push (a ++ b) t = push a (push b t).
  Hypothesis push_call : forall st q t, gh2 (push [snd (gh st q)] t) q = (t, snd (gh st q)).

  Lemma dispatch_replays a ro st p tl t :
    let '(_, calls, act) := server_process (conn_handler gh a ro) st p in
    let cev := map (fun r => GEvCall (mkgreq a ro r) (snd (gh st (mkgreq a ro r)))) calls in
    let t2 := push (gev_answers (cev ++ tl)) t in
    server_process (conn_handler gh2 a ro) t2 p = (push (gev_answers tl) t, calls, act) /\
    map (fun r => GEvCall (mkgreq a ro r) (snd (gh2 t2 (mkgreq a ro r)))) calls = cev.
  Proof.
    pose proof (fun t2 => server_process_sim (conn_handler gh a ro) (conn_handler gh2 a ro) st t2 p) as HS.
    unfold proc_sim in HS. destruct (server_process (conn_handler gh a ro) st p) as [[st' calls] act].
    destruct calls as [|r [|r2 calls]]; [| |destruct (HS t) as [_ []]]; cbn [map app gev_answers].
    - destruct (HS (push (gev_answers tl) t)) as (_ & _ & H). split; [exact H|reflexivity].
    - change (?x :: gev_answers tl) with ([x] ++ gev_answers tl). rewrite push_app.
      destruct (HS (push [snd (gh st (mkgreq a ro r))] (push (gev_answers tl) t))) as (_ & _ & _ & H).
      unfold conn_handler in H. rewrite push_call in H. cbn [fst snd] in H.
      split; [apply H; reflexivity|rewrite push_call; reflexivity].
  Qed.

  Lemma drain_sim a ro fuel : forall st buf t,
    let '(_, evs, b, cl) := sess_drain gh fuel a ro st buf in
    sess_drain gh2 fuel a ro (push (gev_answers evs) t) buf = (t, evs, b, cl).
  Proof.
    induction fuel as [|fuel IH]; intros st buf t; cbn [sess_drain].
    { cbn [gev_answers]. rewrite push_nil. reflexivity. }
    destruct (read_mbap Stall buf) as [[p txn|x] rest] eqn:Er.
    2:{ destruct (gs_is_wait x); cbn [gev_answers]; rewrite push_nil; reflexivity. }
    pose proof (fun tl => dispatch_replays a ro st p tl t) as HP.
    destruct (server_process (conn_handler gh a ro) st p) as [[st' calls] act].
    destruct act as [res|].
    - specialize (IH st' rest t).
      destruct (sess_drain gh fuel a ro st' rest) as [[[st2 evs] b] cl].
      destruct (HP (GEvResp (assemble_mbap txn res) :: evs)) as [H1 H2]. cbv zeta in H1, H2.
      rewrite H1, H2. cbn [gev_answers]. rewrite IH. reflexivity.
    - destruct (HP [GEvClosed]) as [H1 H2]. cbv zeta in H1, H2.
      rewrite H1, H2. cbn [gev_answers]. rewrite push_nil. reflexivity.
  Qed.

  Lemma feed_sim st s x t :
    let '(_, s', evs) := sess_feed gh st s x in
    sess_feed gh2 (push (gev_answers evs) t) s x = (t, s', evs).
  Proof.
    unfold sess_feed. destruct (gs_closed s); [cbn [gev_answers]; rewrite push_nil; reflexivity|].
    destruct x as [chunk|]; [|cbn [gev_answers]; rewrite push_nil; reflexivity].
    pose proof (drain_sim (gs_addr s) (gs_role s) (S (length (gs_buf s ++ chunk))) st (gs_buf s ++ chunk) t) as H.
    destruct (sess_drain gh _ _ _ st _) as [[[st' evs] b] cl]. rewrite H. reflexivity.
  Qed.

  (* T2: the outputs of connection c in ANY global run under gh are the
     private session of c alone under gh2 *)
  Lemma grun_proj_sim c :
    forall ins g s g' outs t, gs_lookup c (g_sessions g) = Some s -> grun gh g ins = (g', outs) ->
    exists s', gs_lookup c (g_sessions g') = Some s' /\
      sess_feeds gh2 (push (gev_answers (gproj c outs)) t) s (gproj c ins) = (t, s', gproj c outs).
  Proof.
    induction ins as [|[k x] rest IH]; intros g s g' outs t Hl Hr.
    - cbn [grun] in Hr. injection Hr as <- <-. exists s. split; [exact Hl|].
      cbn [gproj gev_answers sess_feeds]. rewrite push_nil. reflexivity.
    - cbn [grun] in Hr. pose proof (gstep_view gh g k x c s Hl) as HV.
      destruct (gstep gh g (k, x)) as [g1 o1]. destruct (grun gh g1 rest) as [g2 o2] eqn:E2.
      injection Hr as <- <-. cbn [gproj]. rewrite gproj_app. destruct (k =? c).
      + pose proof (feed_sim (g_shared g) s x (push (gev_answers (gproj c o2)) t)) as HF.
        destruct (sess_feed gh (g_shared g) s x) as [[st1 s1] e1]. destruct HV as (_ & Hl1 & ->).
        destruct (IH g1 s1 g2 o2 t Hl1 E2) as (s' & Hl2 & Hf). exists s'. split; [exact Hl2|].
        cbn [sess_feeds]. rewrite gev_answers_app, push_app, HF, Hf. reflexivity.
      + destruct HV as (Hl1 & ->). exact (IH g1 s g2 o2 t Hl1 E2).
  Qed.
End Replay.

Lemma grun_proj_oracle {St} (gh : ghandler St) c ins g s g' outs :
  gs_lookup c (g_sessions g) = Some s -> grun gh g ins = (g', outs) ->
  exists s', gs_lookup c (g_sessions g') = Some s' /\
    sess_feeds gh_oracle (gev_answers (gproj c outs)) s (gproj c ins) = ([], s', gproj c outs).
Proof.
  intros Hl Hr.
  destruct (grun_proj_sim gh gh_oracle (@app hres) (fun _ => eq_refl)
              (fun a b t => eq_sym (app_assoc a b t)) (fun _ _ _ => eq_refl) c ins g s g' outs [] Hl Hr)
    as (s' & Hl' & Hf).
  rewrite app_nil_r in Hf. eauto.
Qed.

Lemma grun_proj_pure {St} (gh : ghandler St) (f : greq -> hres) (Hp : forall st r, snd (gh st r) = f r)
  c ins g s g' outs :
  gs_lookup c (g_sessions g) = Some s -> grun gh g ins = (g', outs) ->
  exists s', gs_lookup c (g_sessions g') = Some s' /\
    sess_feeds (gh_pure f) tt s (gproj c ins) = (tt, s', gproj c outs).
Proof.
  apply (grun_proj_sim gh (gh_pure f) (fun _ _ => tt)).
  - intros []. reflexivity.
  - reflexivity.
  - intros st q []. unfold gh_pure. rewrite Hp. reflexivity.
Qed.

Lemma sess_whole_facts {St} (gh : ghandler St) st a ro stream ended st' s' evs :
  sess_whole gh st a ro stream ended = (st', s', evs) ->
  gs_addr s' = a /\ gs_role s' = ro /\ calls_from a ro evs /\
  forall e, map gev_strip evs ++ close_tail (gs_closed s') = server_run (conn_handler gh a ro) st e stream.
Proof.
  unfold sess_whole, server_run.
  pose proof (drain_calls_from gh a ro (S (length stream)) st stream) as HC.
  pose proof (drain_session gh a ro (S (length stream)) st stream) as HS.
  destruct (sess_drain gh (S (length stream)) a ro st stream) as [[[st1 ev1] b1] cl1].
  assert (HC' : calls_from a ro (ev1 ++ [GEvClosed])).
  { intros r ans Hin. apply in_app_or in Hin.
    destruct Hin as [Hin|[Hin|[]]]; [exact (HC _ _ Hin)|discriminate]. }
  destruct cl1; [|destruct ended]; intros H; injection H as <- <- <-;
    cbn [gs_addr gs_role gs_closed close_tail];
    (split; [reflexivity|]; split; [reflexivity|]; split; [assumption|]);
    intros e; rewrite HS; try reflexivity.
  rewrite map_app, app_nil_r. reflexivity.
Qed.

Lemma answers_ok_prefix x : forall fs y, answers_ok fs (x ++ y) -> answers_ok fs x.
Proof.
  induction x as [|e x IH]; intros fs y H; [apply ao_quiet|].
  cbn [app] in H. inversion H; subst.
  - destruct x; [apply ao_closed|discriminate].
  - apply ao_call; [assumption|]. eapply IH. eassumption.
  - apply ao_resp; [assumption|]. eapply IH. eassumption.
  - apply ao_beyond.
Qed.

Lemma spec_mbap_carries t r : resp_carries t (p_unit r) (spec_mbap t r).
Proof.
  unfold resp_carries, spec_mbap. unfold be16 at 2. cbn [app].
  eexists _, _, (p_fc r :: p_payload r). reflexivity.
Qed.

Lemma spec_session_answers_ok {St} (h : handler St) frames : forall st k,
  answers_ok frames (spec_session h st frames k).
Proof.
  induction frames as [|[t p] fs IH]; intros st k; [apply ao_beyond|].
  cbn [spec_session]. pose proof (server_process_unit h st p) as HU.
  destruct (server_process h st p) as [[st' calls] act]. destruct HU as [Hc Ha].
  assert (HC : forall evs, answers_ok ((t, p) :: fs) evs -> answers_ok ((t, p) :: fs) (map EvCall calls ++ evs)).
  { clear Ha. induction calls as [|r calls IHc]; intros evs Hev; [exact Hev|].
    cbn [map app]. apply ao_call; [apply Hc; left; reflexivity|].
    apply IHc; [|exact Hev]. intros r' Hin. apply Hc. right. exact Hin. }
  apply HC. destruct act as [r|]; [|apply ao_closed].
  apply ao_resp; [|apply IH]. rewrite <- Ha. apply spec_mbap_carries.
Qed.

Section Results.
  Context {St : Type} (gh : ghandler St).

  (* T2 (oracle form): the observations of connection c in any global run are
     the single-connection session on c's own bytes, the shared handler being
     replaced by the list of answers it gave to c *)
  Lemma sessions_projection_oracle c a ro ins g g' outs e :
    gs_lookup c (g_sessions g) = Some (gs_fresh a ro) -> grun gh g ins = (g', outs) ->
    exists s', gs_lookup c (g_sessions g') = Some s' /\ gs_addr s' = a /\ gs_role s' = ro /\
      map gev_strip (gproj c outs) ++ close_tail (gs_closed s') =
      server_run oracle_handler (gev_answers (gproj c outs)) e (gin_stream (gproj c ins)).
  Proof.
    intros Hl Hr. destruct (grun_proj_oracle gh c ins g _ g' outs Hl Hr) as (s' & Hl' & Hf).
    rewrite feeds_fresh_whole in Hf.
    destruct (sess_whole_facts _ _ _ _ _ _ _ _ _ Hf) as (Ha & Hro & _ & Hrun).
    exists s'. split; [exact Hl'|]. split; [exact Ha|]. split; [exact Hro|apply Hrun].
  Qed.

  (* T1: every response observed on c answers the next request frame of c and
     carries its transaction id and unit id; calls carry its unit id *)
  Lemma sessions_answers c a ro ins g g' outs frames tail :
    gs_lookup c (g_sessions g) = Some (gs_fresh a ro) -> grun gh g ins = (g', outs) ->
    Forall (fun f => fst f < 65536 /\ pdu_wf (snd f)) frames ->
    gin_stream (gproj c ins) = frames_stream frames ++ tail ->
    answers_ok frames (map gev_strip (gproj c outs)).
  Proof.
    intros Hl Hr HF Hs.
    destruct (sessions_projection_oracle c a ro ins g g' outs Closed Hl Hr) as (s' & _ & _ & _ & Heq).
    rewrite Hs in Heq. unfold frames_stream in Heq. rewrite server_pipelined in Heq by exact HF.
    eapply answers_ok_prefix. rewrite Heq. apply spec_session_answers_ok.
  Qed.

  (* T2 (pure handler) + chunking independence: exact equality with the
     private session fed with c's whole stream at once *)
  Lemma sessions_projection_pure (f : greq -> hres) (Hp : forall st r, snd (gh st r) = f r) c a ro ins g g' outs :
    gs_lookup c (g_sessions g) = Some (gs_fresh a ro) -> grun gh g ins = (g', outs) ->
    exists s', gs_lookup c (g_sessions g') = Some s' /\
      sess_whole (gh_pure f) tt a ro (gin_stream (gproj c ins)) (gin_ended (gproj c ins)) = (tt, s', gproj c outs).
  Proof.
    intros Hl Hr. destruct (grun_proj_pure gh f Hp c ins g _ g' outs Hl Hr) as (s' & Hl' & Hf).
    rewrite feeds_fresh_whole in Hf. exists s'. split; [exact Hl'|exact Hf].
  Qed.

  (* T1 / T3, frame by frame: a complete request frame at the head of c's
     buffer is dispatched and answered by the step that delivers its last
     bytes, with its own transaction id, whatever state the other sessions are
     in (no hypothesis on them); the step then goes on with the bytes left *)
  Lemma gstep_frame g c s chunk t p rest :
    gs_lookup c (g_sessions g) = Some s -> gs_closed s = false ->
    gs_buf s ++ chunk = spec_mbap t p ++ rest -> t < 65536 -> pdu_wf p ->
    let a := gs_addr s in
    let ro := gs_role s in
    let '(st', calls, act) := server_process (conn_handler gh a ro) (g_shared g) p in
    snd (gstep gh g (c, GData chunk)) =
    map (fun r => (c, GEvCall (mkgreq a ro r) (snd (gh (g_shared g) (mkgreq a ro r))))) calls ++
    match act with
    | Respond res =>
        (c, GEvResp (spec_mbap t res)) ::
        snd (gstep gh (mkgstate st' (gs_update c (mkgsess rest a ro false) (g_sessions g))) (c, GData []))
    | CloseLink => [(c, GEvClosed)]
    end.
  Proof.
    intros Hl Hc Hb Ht Hp. cbv zeta. unfold gstep at 1. cbn [fst snd]. rewrite Hl.
    unfold sess_feed. rewrite Hc, Hb. cbn [sess_drain].
    rewrite read_spec_mbap by (try exact Ht; apply Hp).
    pose proof (server_process_resp_len (conn_handler gh (gs_addr s) (gs_role s)) (g_shared g) p) as HL.
    destruct (server_process (conn_handler gh (gs_addr s) (gs_role s)) (g_shared g) p) as [[st' calls] act].
    cbn [snd] in HL. destruct act as [res|].
    - unfold gstep. cbn [fst snd g_sessions g_shared].
      rewrite (gs_lookup_update_same _ _ _ _ Hl). unfold sess_feed. cbn [gs_closed gs_buf gs_addr gs_role].
      rewrite app_nil_r.
      assert (Hlen : (length rest < length (spec_mbap t p ++ rest))%nat).
      { rewrite app_length. unfold spec_mbap, be16. cbn [app length]. lia. }
      rewrite (drain_fuel gh _ _ (length (spec_mbap t p ++ rest)) (S (length rest))) by lia.
      destruct (sess_drain gh (S (length rest)) (gs_addr s) (gs_role s) st' rest) as [[[st2 evs] b] cl].
      cbn [snd]. rewrite map_app, map_map. cbn [map]. rewrite assemble_is_spec by exact HL. reflexivity.
    - cbn [snd]. rewrite map_app, map_map. reflexivity.
  Qed.

End Results.

