(* udp.go (udpSockWrapper) and tls_utils.go (tlsSockWrapper) as translated from
   the Go source (Gen/SrcPure.v) compute the wrapper model of Model/Transport.v
   (Section Wrappers) on every world. *)
From Coq Require Import List NArith String Lia Bool.
Import ListNotations.
From Modbus Require Import Base.Bytes Model.GoLite Gen.SrcPure Model.Wire Model.Transport.
From Modbus Require Import Proofs.GoLiteP Proofs.GoLiteLinkP Proofs.SrcCrcP Proofs.SrcMiscP Proofs.SrcClientP
  Proofs.SrcTransportP Proofs.SrcWrapP.
Open Scope string_scope.
Open Scope N_scope.

Lemma run_udp_Write fe fuel T lft rxbuf buf w : sock_hyp fe T ->
  run_fn ge fe fuel src_fn_udpSockWrapper_Write [VN lft; vbytes rxbuf; vbytes buf; w] = out_udp_write T lft rxbuf buf w.
Proof.
  intros (_ & Hwr & _ & _).
  unfold run_fn, src_fn_udpSockWrapper_Write, out_udp_write.
  gl_step. rewrite Hwr.
  destruct (t_write T w buf) as [[w1 n] e].
  gl_step. reflexivity.
Qed.

Lemma run_udp_Close fe fuel T lft rxbuf w : sock_hyp fe T ->
  run_fn ge fe fuel src_fn_udpSockWrapper_Close [VN lft; vbytes rxbuf; w] = out_udp_close T lft rxbuf w.
Proof.
  intros (_ & _ & Hcl & _). run_one_call Hcl.
Qed.

Lemma run_udp_SetDeadline fe fuel T lft rxbuf d w : sock_hyp fe T ->
  run_fn ge fe fuel src_fn_udpSockWrapper_SetDeadline [VN lft; vbytes rxbuf; VN d; w] = out_udp_setdl T lft rxbuf d w.
Proof.
  intros (_ & _ & _ & Hdl). run_one_call Hdl.
Qed.

Lemma run_tls_Close fe fuel T w : sock_hyp fe T -> run_fn ge fe fuel src_fn_tlsSockWrapper_Close [w] = out_tls_close T w.
Proof.
  intros (_ & _ & Hcl & _). run_one_call Hcl.
Qed.

Lemma run_tls_SetDeadline fe fuel T d w : sock_hyp fe T ->
  run_fn ge fe fuel src_fn_tlsSockWrapper_SetDeadline [VN d; w] = out_tls_setdl T d w.
Proof.
  intros (_ & _ & _ & Hdl). run_one_call Hdl.
Qed.

(* Write: the socket is closed after a write that timed out *)
Lemma run_tls_Write fe fuel T buf w : sock_hyp fe T ->
  run_fn ge fe fuel src_fn_tlsSockWrapper_Write [vbytes buf; w] = out_tls_write T buf w.
Proof.
  intros (_ & Hwr & Hcl & _).
  unfold run_fn, src_fn_tlsSockWrapper_Write, out_tls_write, t_tls_write.
  gl_step. rewrite Hwr.
  destruct (t_write T w buf) as [[w1 n] e].
  gl_auto.
  destruct (e =? 0) eqn:E0; gl_auto; [reflexivity|].
  destruct (e =? 2) eqn:E2; gl_auto; [|reflexivity].
  rewrite Hcl. gl_auto. reflexivity.
Qed.

(* copy(dst, src) *)
Section Steps.
  Variables (fe : fenv) (fuel : nat).

  (* _k := min(len dst, len _src) *)
  Definition min_stmt (dst src k : nat) : stmt :=
    SIf (ECmp CLt (ELen (EVar dst)) (ELen (EVar src))) (SSet (LVar k) (ELen (EVar dst))) (SSet (LVar k) (ELen (EVar src))).

  Lemma exec_min st dst src k d s st1 :
    get_slot st dst = GOk (vbytes d) -> get_slot st src = GOk (vbytes s) ->
    set_slot st k (VN (go_copy_n d s)) = GOk st1 ->
    exec ge fe fuel st (min_stmt dst src k) = ONormal st1.
  Proof.
    intros Hd Hs Hk. unfold min_stmt.
    assert (Ed : eval ge fe st (ELen (EVar dst)) = GOk (VN (lenN d))) by (apply eval_len_b; exact Hd).
    assert (Es : eval ge fe st (ELen (EVar src)) = GOk (VN (lenN s))) by (apply eval_len_b; exact Hs).
    destruct (lenN d <? lenN s) eqn:E.
    - apply exec_if_true.
      + cbn [eval] in *. rewrite Ed, Es. cbn [rbind compare_v compare_n]. rewrite E. reflexivity.
      + eapply exec_set; [exact Ed|]. rewrite <- Hk. do 2 f_equal. unfold go_copy_n, lenN in *. lia.
    - apply exec_if_false.
      + cbn [eval] in *. rewrite Ed, Es. cbn [rbind compare_v compare_n]. rewrite E. reflexivity.
      + eapply exec_set; [exact Es|]. rewrite <- Hk. do 2 f_equal. unfold go_copy_n, lenN in *. lia.
  Qed.

  (* dst := _src[0:_k] ++ dst[_k:] *)
  Definition copy_e (dst src k : nat) : expr :=
    EAppendSlice (ESlice (EVar src) (EN 0) (EVar k)) (ESlice (EVar dst) (EVar k) (ELen (EVar dst))).

  Lemma eval_copy st dst src k d s :
    get_slot st dst = GOk (vbytes d) -> get_slot st src = GOk (vbytes s) ->
    get_slot st k = GOk (VN (go_copy_n d s)) ->
    eval ge fe st (copy_e dst src k) = GOk (vbytes (go_copy d s)).
  Proof.
    intros Hd Hs Hk. unfold copy_e.
    assert (Hkd : go_copy_n d s <= lenN d) by (unfold go_copy_n, lenN; lia).
    assert (Hks : go_copy_n d s <= lenN s) by (unfold go_copy_n, lenN; lia).
    rewrite (eval_app_b fe st _ _ (firstn (N.to_nat (go_copy_n d s - 0)) (skipn (N.to_nat 0) s))
               (firstn (N.to_nat (lenN d - go_copy_n d s)) (skipn (N.to_nat (go_copy_n d s)) d))).
    - unfold go_copy. change (N.to_nat 0) with 0%nat. cbn [skipn].
      rewrite N.sub_0_r. unfold go_copy_n. rewrite Nat2N.id.
      rewrite (firstn_all2 (n := N.to_nat _)); [reflexivity|].
      rewrite skipn_length. unfold lenN. lia.
    - eapply eval_slice_b; [exact Hs|reflexivity|exact Hk|lia|exact Hks].
    - eapply eval_slice_b; [exact Hd|exact Hk|apply eval_len_b; exact Hd|exact Hkd|lia].
  Qed.

End Steps.

Lemma run_tls_Read fe fuel T buf w : sock_hyp fe T -> tread_wf T -> lenN buf < 2 ^ 32 ->
  run_fn ge fe fuel src_fn_tlsSockWrapper_Read [vbytes buf; w] = out_tls_read T buf w.
Proof.
  intros (Hrd & _) Hwf Hlen.
  run_body. unfold out_tls_read, t_tls_read.
  (* rlen, err = tsw.sock.Read(buf) *)
  pose proof (Hwf w (lenN buf)) as Hw. pose proof (Hrd w (lenN buf)) as Hc.
  destruct (t_readfull T w (lenN buf)) as [[w1 got] e]. destruct Hw as [_ Hle].
  rewrite seq_assoc.
  erewrite seq_normal by (eapply exec_read_call; [reflexivity|reflexivity|lia|exact Hc|reflexivity]).
  rewrite seq_assoc.
  erewrite seq_normal by (eapply exec_splice; [reflexivity|reflexivity|exact Hle|lia|reflexivity]).
  gl_stmt. rewrite map_length. reflexivity.
Qed.

(* copied = copy(buf, rxbuf[0:av]); if av > copied { copy(rxbuf, rxbuf[copied:av]) }; leftoverCount = av - copied *)
Definition take_stmt (av s1 k1 s2 k2 : nat) : stmt :=
  SSeq (SSeq (SSet (LVar s1) (ESlice (EVar 1) (EN 0) (EVar av)))
       (SSeq (min_stmt 2 s1 k1)
       (SSeq (SSet (LVar 2) (copy_e 2 s1 k1))
             (SSet (LVar 6) (EVar k1)))))
  (SSeq (SIf (ECmpS CGt (EVar av) (EVar 6))
          (SSeq (SSet (LVar s2) (ESlice (EVar 1) (EVar 6) (EVar av)))
          (SSeq (min_stmt 1 s2 k2)
                (SSet (LVar 1) (copy_e 1 s2 k2))))
          (SSkip))
        (SSet (LVar 0) (EBin OSub (U 64) (EVar av) (EVar 6)))).

Definition udp_read_body : stmt :=
  SSeq (SSet (LVar 6) (EN 0))
  (SSeq (SIf (ECmpS CGt (EVar 0) (EN 0))
     (take_stmt 0 12 13 14 15)
     (SSeq (SSeq (SCall "sock.Read" (ECons (EVar 3) (ECons (EBin OSub (U 64) (ELen (EVar 1)) (EN 0)) (ENil)))
                        [LVar 3; LVar 7; LVar 5])
                 (SSeq (SSet (LVar 1) (splice_e 1 0 7)) (SSet (LVar 4) (ELen (EVar 7)))))
     (SSeq (SIf (ECmp CNe (EVar 5) (EN 0)) (SReturn (ENil)) (SSkip))
           (take_stmt 4 8 9 10 11))))
  (SSeq (SSet (LVar 4) (EVar 6)) (SReturn (ENil)))).

Lemma skipn_firstn_N (l : list N) avail k : k <= avail ->
  skipn (N.to_nat k) (firstn (N.to_nat avail) l) = firstn (N.to_nat (avail - k)) (skipn (N.to_nat k) l).
Proof. intros H. rewrite skipn_firstn_comm. f_equal. lia. Qed.

Local Ltac set_done := cbn [set_slot sset]; reflexivity.

Local Ltac take_tac Hav H32 k Hk E :=
  unfold t_udp_take;
  match goal with
  | |- context [go_copy_n ?b (firstn (N.to_nat ?a) ?r)] =>
      assert (Hk : go_copy_n b (firstn (N.to_nat a) r) <= a)
        by (unfold go_copy_n, lenN in *; rewrite firstn_length; lia);
      rewrite (skipn_firstn_N r a _ Hk);
      set (k := go_copy_n b (firstn (N.to_nat a) r)) in *;
      change (2 ^ 32) with 4294967296 in H32;
      destruct (k <? a) eqn:E; cbv beta iota zeta; eexists; unfold take_stmt;
      (eapply exec_seq_n;
       [ eapply exec_seq_n;
         [ eapply exec_set; [eapply eval_slice0_b; [reflexivity|reflexivity|exact Hav]|set_done] |];
         eapply exec_seq_n; [eapply exec_min; [reflexivity|reflexivity|set_done]|];
         eapply exec_seq_n; [eapply exec_set; [eapply eval_copy; reflexivity|set_done]|];
         eapply exec_set; [reflexivity|set_done] |]);
      (eapply exec_seq_n;
       [ eapply exec_if_b;
         [ eapply eval_cmps_gt; [reflexivity|reflexivity| |];
           change (2 ^ 63) with 9223372036854775808; unfold lenN in *; lia |];
         fold k; rewrite E |])
  end.

Local Ltac take_move Hav Hk :=
  eapply exec_seq_n;
  [ eapply exec_set; [eapply eval_slice_b; [reflexivity|reflexivity|reflexivity|exact Hk|exact Hav]|set_done] |];
  eapply exec_seq_n; [eapply exec_min; [reflexivity|reflexivity|set_done]|];
  eapply exec_set; [eapply eval_copy; reflexivity|set_done].

Local Ltac take_last Hk H32 :=
  eapply exec_set;
  [ eapply eval_sub64; [reflexivity|reflexivity|exact Hk|];
    change (2 ^ 64) with 18446744073709551616; unfold lenN in *; lia
  | set_done ].

Lemma exec_take_A fe fuel avail rxbuf buf w v4 v5 v6 v7 v8 v9 v10 v11 v12 v13 v14 v15 :
  avail <= lenN rxbuf -> lenN rxbuf < 2 ^ 32 ->
  exists rest,
    exec ge fe fuel [VN avail; vbytes rxbuf; vbytes buf; w; v4; v5; v6; v7; v8; v9; v10; v11; v12; v13; v14; v15]
         (take_stmt 0 12 13 14 15) =
    let '(l', rx', buf', k) := t_udp_take avail rxbuf buf in
    ONormal (VN l' :: vbytes rx' :: vbytes buf' :: w :: v4 :: v5 :: VN k :: rest).
Proof.
  intros Hav H32.
  take_tac Hav H32 k Hk E.
  - take_move Hav Hk.
  - take_last Hk H32.
  - reflexivity.
  - take_last Hk H32.
Qed.

Lemma exec_take_B fe fuel avail rxbuf buf w v0 v5 v6 v7 v8 v9 v10 v11 v12 v13 v14 v15 :
  avail <= lenN rxbuf -> lenN rxbuf < 2 ^ 32 ->
  exists rest,
    exec ge fe fuel [v0; vbytes rxbuf; vbytes buf; w; VN avail; v5; v6; v7; v8; v9; v10; v11; v12; v13; v14; v15]
         (take_stmt 4 8 9 10 11) =
    let '(l', rx', buf', k) := t_udp_take avail rxbuf buf in
    ONormal (VN l' :: vbytes rx' :: vbytes buf' :: w :: VN avail :: v5 :: VN k :: rest).
Proof.
  intros Hav H32.
  take_tac Hav H32 k Hk E.
  - take_move Hav Hk.
  - take_last Hk H32.
  - reflexivity.
  - take_last Hk H32.
Qed.

Lemma run_udp_Read fe fuel T lft rxbuf buf w : sock_hyp fe T -> tread_wf T -> bytesb rxbuf = true -> bytesb buf = true ->
  lft <= lenN rxbuf -> lenN rxbuf < 2 ^ 32 -> lenN buf < 2 ^ 32 ->
  run_fn ge fe fuel src_fn_udpSockWrapper_Read [VN lft; vbytes rxbuf; vbytes buf; w] = out_udp_read T lft rxbuf buf w.
Proof.
  intros (Hrd & _) Hwf _ _ Hlft Hrx Hbuf.
  rewrite run_fn_exec by reflexivity. set (ret := fn_ret _).
  change (f_body src_fn_udpSockWrapper_Read) with udp_read_body.
  unfold out_udp_read, t_udp_read, udp_read_body, src_fn_udpSockWrapper_Read.
  cbn [f_zeros app].
  gl_stmt.
  (* if usw.leftoverCount > 0 *)
  erewrite seq_if by gl_close.
  destruct (0 <? lft) eqn:E0.
  - edestruct (exec_take_A fe fuel lft rxbuf buf w) as [rest Hex]; [exact Hlft|exact Hrx|].
    destruct (t_udp_take lft rxbuf buf) as [[[l' rx'] buf'] k].
    erewrite seq_normal by exact Hex.
    gl_stmt. reflexivity.
  - (* rlen, err = usw.sock.Read(usw.rxbuf); if err != nil *)
    assert (lft = 0) by lia. subst lft.
    pose proof (Hwf w (lenN rxbuf)) as Hw. pose proof (Hrd w (lenN rxbuf)) as Hc.
    destruct (t_readfull T w (lenN rxbuf)) as [[w1 got] e]. destruct Hw as [_ Hle].
    rewrite !seq_assoc.
    erewrite seq_normal by (eapply exec_read_call; [reflexivity|reflexivity|lia|exact Hc|reflexivity]).
    rewrite seq_assoc.
    erewrite seq_normal by (eapply exec_splice; [reflexivity|reflexivity|exact Hle|lia|reflexivity]).
    cbn [N.to_nat firstn app Nat.add].
    gl_stmt. rewrite map_length, seq_assoc.
    gl_return. guard_cases Ee; [reflexivity|].
    assert (Hlen1 : lenN (got ++ skipn (List.length got) rxbuf) = lenN rxbuf).
    { unfold lenN in *. rewrite app_length, skipn_length. lia. }
    edestruct (exec_take_B fe fuel (lenN got) (got ++ skipn (List.length got) rxbuf) buf w1) as [rest Hex];
      [rewrite Hlen1; exact Hle|rewrite Hlen1; exact Hrx|].
    destruct (t_udp_take (lenN got) (got ++ skipn (List.length got) rxbuf) buf) as [[[l' rx'] buf'] k].
    erewrite seq_normal by exact Hex.
    gl_stmt. replace e with 0 by lia. reflexivity.
Qed.

Print Assumptions run_udp_Read.
Print Assumptions run_udp_Write.
Print Assumptions run_udp_Close.
Print Assumptions run_udp_SetDeadline.
Print Assumptions run_tls_Read.
Print Assumptions run_tls_Write.
Print Assumptions run_tls_Close.
Print Assumptions run_tls_SetDeadline.
