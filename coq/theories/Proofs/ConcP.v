(* Proofs about the lock-discipline model (Model/Conc.v). (S) the structured
   check gives flat paths that are well bracketed and have every ATx followed by
   its ARx; (G) well-bracketed threads give mutual exclusion and accesses by the
   holder only, hence T1-T4 of C08; (W) a thread that waits for a peer does not
   hold the mutex. cc_good and cc_olist are vocabulary of the statements in
   Properties/C08.v, C08w.v, C11b.v; cc_nowait and cc_table_nowait are what
   GenLocksP.v checks of the generated tables. *)
From Coq Require Import List Bool String Arith Lia.
Import ListNotations.
From Modbus Require Import Base.Trace Model.Conc.

Lemma cc_swb_app h p q :
  cc_swb h (p ++ q) = match cc_swb h p with Some h' => cc_swb h' q | None => None end.
Proof.
  revert h. induction p as [|a p IH]; intros h; cbn [app cc_swb]; [reflexivity|].
  destruct (cc_act_held a h); [apply IH|reflexivity].
Qed.

Lemma cc_txrx_app p q :
  cc_txrx_ok p = true -> cc_txrx_ok q = true -> cc_txrx_ok (p ++ q) = true.
Proof.
  intros Hp Hq. revert Hp.
  (* the check reads a Tx together with the action after it: the induction goes
     through for a sequence and for the same sequence behind a pending Tx *)
  enough (H : (cc_txrx_ok p = true -> cc_txrx_ok (p ++ q) = true) /\
              (cc_txrx_ok (ATx :: p) = true -> cc_txrx_ok (ATx :: p ++ q) = true)) by exact (proj1 H).
  induction p as [|a p [IH0 IH1]]; (split; [|cbn [app cc_txrx_ok]]).
  - intros _. exact Hq.
  - discriminate.
  - destruct a; cbn [app]; try exact IH1; cbn [cc_txrx_ok]; try exact IH0. discriminate.
  - destruct a; try discriminate. exact IH0.
Qed.

Definition cc_good (ps : list (list cact)) : Prop :=
  Forall (fun p => cc_flat_wb p /\ cc_txrx_ok p = true) ps.

Lemma cc_concat_wb ps : cc_good ps ->
  cc_flat_wb (List.concat ps) /\ cc_txrx_ok (List.concat ps) = true.
Proof.
  induction 1 as [|p ps [Hp Ht] _ [IH IHt]]; [split; reflexivity|]. cbn [List.concat]. split.
  - unfold cc_flat_wb in *. rewrite cc_swb_app, Hp. exact IH.
  - exact (cc_txrx_app _ _ Ht IHt).
Qed.

Lemma cc_merge_spec a b c : cc_merge a b = Some c -> (a = None \/ a = c) /\ (b = None \/ b = c).
Proof.
  destruct a as [h1|], b as [h2|]; cbn [cc_merge].
  - destruct (Bool.eqb h1 h2) eqn:E; [|discriminate]. apply eqb_prop in E. subst h2.
    intros [= <-]. split; right; reflexivity.
  - intros [= <-]. split; [right|left]; reflexivity.
  - intros [= <-]. split; [left|right]; reflexivity.
  - intros [= <-]. split; left; reflexivity.
Qed.

Lemma cc_alt_spec f h : forall bs acc r, cc_alt_wbs f h acc bs = Some r ->
  (acc = None \/ acc = r) /\
  forall b, In b bs -> exists rb, f h b = Some rb /\ (rb = None \/ rb = r).
Proof.
  induction bs as [|b t IH]; intros acc r H; cbn [cc_alt_wbs] in H.
  - injection H as <-. split; [right; reflexivity|intros b []].
  - destruct (f h b) as [rb|] eqn:Eb; [|discriminate].
    destruct (cc_merge acc rb) as [acc'|] eqn:Em; [|discriminate].
    destruct (cc_merge_spec _ _ _ Em) as [Ha Hb], (IH _ _ H) as [Hacc Hall].
    assert (Hle : forall x : option bool, x = None \/ x = acc' -> x = None \/ x = r).
    { intros x [-> | ->]; [left; reflexivity|exact Hacc]. }
    split; [exact (Hle _ Ha)|].
    intros b' [<- | Hin]; [exists rb; split; [exact Eb|exact (Hle _ Hb)]|exact (Hall _ Hin)].
Qed.

Section Structured.
  Variable tb : ctable.

  Definition cc_callk_ok (callk : bool -> string -> option bool) : Prop :=
    forall h m h', callk h m = Some h' ->
      h' = h /\
      forall cm p o, cc_find tb m = Some cm -> cc_path tb (cm_body cm) p o ->
        cc_swb h (p ++ cc_exit cm) = Some h /\ cc_txrx_ok (p ++ cc_exit cm) = true.

  (* the held flag the check expects where a path leaves by o; r is the
     result of the check: the flag of the paths that fall through *)
  Definition cc_exp (rh : bool) (bh lh r : option bool) (o : pout) : option bool :=
    match o with PFall => r | PRet => Some rh | PBrk => bh | PCont => lh end.

  Definition cc_out_ok (rh : bool) (bh lh : option bool) (h : bool) (r : option bool)
             (p : list cact) (o : pout) : Prop :=
    cc_txrx_ok p = true /\ exists h', cc_swb h p = Some h' /\ cc_exp rh bh lh r o = Some h'.

  Lemma cc_out_ok_nil rh bh lh h : cc_out_ok rh bh lh h (Some h) [] PFall.
  Proof. split; [reflexivity|]. exists h. split; reflexivity. Qed.

  Lemma cc_out_ok_app rh bh lh h h1 r p1 p2 o :
    cc_txrx_ok p1 = true -> cc_swb h p1 = Some h1 ->
    cc_out_ok rh bh lh h1 r p2 o -> cc_out_ok rh bh lh h r (p1 ++ p2) o.
  Proof.
    intros Ht1 H1 (Ht2 & h' & H2 & He). split; [exact (cc_txrx_app _ _ Ht1 Ht2)|].
    exists h'. rewrite cc_swb_app, H1. split; [exact H2|exact He].
  Qed.

  (* a path looks at the result of the check only if it falls through (rb is
     the result for one alternative, r the merged one), at the break flag only
     if it leaves by break *)
  Lemma cc_out_ok_alt rh bh bh' lh h rb r p o :
    (o = PFall -> rb = None \/ rb = r) -> (o = PBrk -> bh' = bh) ->
    cc_out_ok rh bh' lh h rb p o -> cc_out_ok rh bh lh h r p o.
  Proof.
    intros Hr Hb (Ht & h' & Hs & He). split; [exact Ht|]. exists h'. split; [exact Hs|].
    destruct o; cbn [cc_exp] in *; try exact He.
    - destruct (Hr eq_refl) as [->| <-]; [discriminate|exact He].
    - rewrite <- (Hb eq_refl). exact He.
  Qed.

  Lemma cc_leaf_ok a p h r callk rh bh lh :
    cc_leaf a = Some p -> cc_wbs callk rh bh lh h (SAct a) = Some r -> cc_out_ok rh bh lh h r p PFall.
  Proof.
    intros Hl Hw. destruct a; cbn in Hl; inversion Hl; subst; cbn in Hw;
      try discriminate;
      try (destruct h; cbn in Hw; inversion Hw; subst; split; [reflexivity|eexists; split; reflexivity]).
  Qed.

  (* a return, break or continue passes the check when the flag is the one
     expected there (x) *)
  Lemma cc_wbs_jump h (x r : option bool) :
    match x with Some h0 => if Bool.eqb h h0 then Some None else None | None => None end = Some r ->
    x = Some h.
  Proof.
    destruct x as [h0|]; [|discriminate]. destruct (Bool.eqb h h0) eqn:E; [|discriminate].
    apply eqb_prop in E. subst h0. reflexivity.
  Qed.

  Lemma cc_wbs_switch callk rh bh lh h bs r : cc_wbs callk rh bh lh h (SSwitch bs) = Some r ->
    r = Some h /\
    forall b, In b bs ->
      exists rb, cc_wbs callk rh (Some h) lh h b = Some rb /\ (rb = None \/ rb = Some h).
  Proof.
    cbn [cc_wbs]. intros H. destruct (cc_alt_spec _ _ _ _ _ H) as [[E|E] Hall]; [discriminate|].
    subst r. split; [reflexivity|exact Hall].
  Qed.

  Lemma cc_wbs_loop callk rh bh lh h b r : cc_wbs callk rh bh lh h (SLoop b) = Some r ->
    r = Some h /\
    exists rb, cc_wbs callk rh (Some h) (Some h) h b = Some rb /\ (rb = None \/ rb = Some h).
  Proof.
    cbn [cc_wbs]. destruct (cc_wbs callk rh (Some h) (Some h) h b) as [[h'|]|]; try discriminate.
    - destruct (Bool.eqb h' h) eqn:E; [|discriminate]. apply eqb_prop in E. subst h'.
      intros [= <-]. split; [reflexivity|]. eexists. split; [reflexivity|right; reflexivity].
    - intros [= <-]. split; [reflexivity|]. eexists. split; [reflexivity|left; reflexivity].
  Qed.

  Lemma cc_wbs_paths callk : cc_callk_ok callk ->
    forall sp p o, cc_path tb sp p o ->
    forall rh bh lh h r, cc_wbs callk rh bh lh h sp = Some r -> cc_out_ok rh bh lh h r p o.
  Proof.
    intros Hk sp p o Hp.
    induction Hp as
      [a p Hl| | | |m cm p o Hf Hb _| |s l p1 p2 o H1 IH1 H2 IH2|s l p1 o H1 IH1 Hne
       |bs b p o Hin Hb IH|bs b p o Hin Hb IH Hne|bs b p Hin Hb IH
       |b|b p1 p2 o o1 H1 IH1 Hoo H2 IH2|b p1 H1 IH1|b p1 H1 IH1];
      intros rh bh lh h r Hw.
    - exact (cc_leaf_ok _ _ _ _ _ _ _ _ Hl Hw).
    - split; [reflexivity|]. exists h. split; [reflexivity|exact (cc_wbs_jump h (Some rh) r Hw)].
    - split; [reflexivity|]. exists h. split; [reflexivity|exact (cc_wbs_jump h bh r Hw)].
    - split; [reflexivity|]. exists h. split; [reflexivity|exact (cc_wbs_jump h lh r Hw)].
    - cbn in Hw. destruct (callk h m) as [h'|] eqn:Ec; [|discriminate].
      injection Hw as <-. destruct (Hk _ _ _ Ec) as [-> Hall].
      destruct (Hall _ _ _ Hf Hb) as [Hs Ht]. split; [exact Ht|].
      exists h. split; [exact Hs|reflexivity].
    - injection Hw as <-. apply cc_out_ok_nil.
    - (* the first statement falls through, with flag h1: the rest is checked from h1 *)
      cbn [cc_wbs cc_seq_wbs] in Hw.
      destruct (cc_wbs callk rh bh lh h s) as [rs|] eqn:Es; [|discriminate].
      destruct (IH1 _ _ _ _ _ Es) as (Ht1 & h1 & Hs1 & E1). cbn [cc_exp] in E1. subst rs.
      exact (cc_out_ok_app _ _ _ _ _ _ _ _ _ Ht1 Hs1 (IH2 _ _ _ _ _ Hw)).
    - (* the first statement leaves: the rest is not executed *)
      cbn [cc_wbs cc_seq_wbs] in Hw.
      destruct (cc_wbs callk rh bh lh h s) as [rs|] eqn:Es; [|discriminate].
      apply (cc_out_ok_alt rh bh bh lh h rs r p1 o); [contradiction|reflexivity|exact (IH1 _ _ _ _ _ Es)].
    - cbn [cc_wbs] in Hw. destruct (cc_alt_spec _ _ _ _ _ Hw) as [_ Hall].
      destruct (Hall _ Hin) as (rb & Eb & Hrb).
      exact (cc_out_ok_alt _ _ _ _ _ _ _ _ _ (fun _ => Hrb) (fun _ => eq_refl) (IH _ _ _ _ _ Eb)).
    - destruct (cc_wbs_switch _ _ _ _ _ _ _ Hw) as [-> Hall]. destruct (Hall _ Hin) as (rb & Eb & Hrb).
      apply (cc_out_ok_alt rh bh (Some h) lh h rb (Some h) p o); [intros _; exact Hrb|contradiction|].
      exact (IH _ _ _ _ _ Eb).
    - (* a break in a switch ends it: the flag expected at the break is the
         one expected behind the switch *)
      destruct (cc_wbs_switch _ _ _ _ _ _ _ Hw) as [-> Hall]. destruct (Hall _ Hin) as (rb & Eb & _).
      exact (IH _ _ _ _ _ Eb).
    - destruct (cc_wbs_loop _ _ _ _ _ _ _ Hw) as [-> _]. apply cc_out_ok_nil.
    - (* an iteration that falls through or continues is back at the loop
         head with the flag h it started with *)
      destruct (cc_wbs_loop _ _ _ _ _ _ _ Hw) as [-> (rb & Eb & Hrb)].
      destruct (IH1 _ _ _ _ _ Eb) as (Ht1 & h' & Hs1 & E1).
      assert (h' = h) as ->.
      { destruct Hoo as [-> | ->]; cbn [cc_exp] in E1; [destruct Hrb as [-> | ->]|]; congruence. }
      exact (cc_out_ok_app _ _ _ _ _ _ _ _ _ Ht1 Hs1 (IH2 _ _ _ _ _ Hw)).
    - destruct (cc_wbs_loop _ _ _ _ _ _ _ Hw) as [-> (rb & Eb & _)]. exact (IH1 _ _ _ _ _ Eb).
    - destruct (cc_wbs_loop _ _ _ _ _ _ _ Hw) as [-> (rb & Eb & _)]. exact (IH1 _ _ _ _ _ Eb).
  Qed.
End Structured.

Lemma cc_wb_call_ok tb : forall n, cc_callk_ok tb (cc_wb_call tb n).
Proof.
  induction n as [|n IH]; intros h m h' Hc; cbn [cc_wb_call] in Hc; [discriminate|].
  destruct (cc_find tb m) as [cm|] eqn:Ef; [|discriminate].
  unfold cc_wb_method in Hc.
  destruct (cm_deferred cm && h) eqn:Edh; [discriminate|].
  set (rh := if cm_deferred cm then true else h) in *.
  destruct (cc_wbs (cc_wb_call tb n) rh None None h (cm_body cm)) as [r|] eqn:Ew; [|discriminate].
  assert (Hr : h' = h /\ (r = None \/ r = Some rh)).
  { destruct r as [h''|].
    - destruct (Bool.eqb h'' rh) eqn:E; [|discriminate]. apply eqb_prop in E. subst h''.
      injection Hc as <-. split; [reflexivity|right; reflexivity].
    - injection Hc as <-. split; [reflexivity|left; reflexivity]. }
  destruct Hr as [-> Hr]. split; [reflexivity|].
  intros cm' p o Hf Hp. assert (Ecm : cm' = cm) by congruence. subst cm'.
  destruct (cc_wbs_paths tb _ IH _ _ _ Hp _ _ _ _ _ Ew) as (Ht & h'' & Hs & He).
  (* no loop or switch around a method body: its paths return or fall
     through, with flag rh either way *)
  assert (h'' = rh) as ->.
  { destruct o; cbn [cc_exp] in He; [destruct Hr as [-> | ->]|..]; congruence. }
  (* the deferred unlock belongs to a method that is entered without the mutex *)
  assert (Hx : cc_swb rh (cc_exit cm) = Some h /\ cc_txrx_ok (cc_exit cm) = true).
  { subst rh. unfold cc_exit. destruct (cm_deferred cm); [cbn [andb] in Edh; subst h|]; split; reflexivity. }
  split; [rewrite cc_swb_app, Hs; exact (proj1 Hx)|exact (cc_txrx_app _ _ Ht (proj2 Hx))].
Qed.

(* (S) for a public call and for a goroutine making a list of public calls *)
Lemma cc_entry_flat_wb tb fuel m p :
  cc_wb_entry tb fuel m = true -> cc_entry_path tb m p ->
  cc_flat_wb p /\ cc_txrx_ok p = true.
Proof.
  unfold cc_wb_entry, cc_entry_path. intros Hw Hp.
  destruct (cc_wb_call tb fuel false m) as [[|]|] eqn:Ec; try discriminate.
  inversion Hp as [a q Hl| | | |m' cm q o Hf Hb| | | | | | | | | |]; subst; [cbn in Hl; discriminate|].
  destruct (cc_wb_call_ok tb fuel _ _ _ Ec) as [_ Hall].
  destruct (Hall _ _ _ Hf Hb) as [Hs Ht]. split; [exact Hs|exact Ht].
Qed.

Lemma cc_thread_flat_wb tb fuel entries ms p :
  forallb (cc_wb_entry tb fuel) entries = true ->
  (forall m, In m ms -> In m entries) ->
  cc_thread_path tb ms p -> cc_flat_wb p /\ cc_txrx_ok p = true.
Proof.
  intros Hall Hin (ps & HF & ->). apply cc_concat_wb, (Forall2_Forall_r _ _ _ _ HF).
  intros m q Hm Hq. apply (cc_entry_flat_wb tb fuel m); [|exact Hq].
  rewrite forallb_forall in Hall. apply Hall, Hin, Hm.
Qed.

(* What cc_fp_thread computes is a flat path of the thread (used by the
   Examples that exhibit a path: the definitions of cc_path are satisfiable on
   the generated tables). sprog is a nested inductive type (lists of sprog):
   its induction principle with Forall is written by hand. *)
Section SprogInd.
  Variable P : sprog -> Prop.
  Hypothesis Hact : forall a, P (SAct a).
  Hypothesis Hseq : forall l, Forall P l -> P (SSeq l).
  Hypothesis Hif : forall l, Forall P l -> P (SIf l).
  Hypothesis Hsw : forall l, Forall P l -> P (SSwitch l).
  Hypothesis Hloop : forall b, P b -> P (SLoop b).
  Fixpoint sprog_ind2 (s : sprog) : P s :=
    let fix go (l : list sprog) : Forall P l :=
      match l with
      | [] => Forall_nil P
      | x :: t => Forall_cons x (sprog_ind2 x) (go t)
      end in
    match s with
    | SAct a => Hact a
    | SSeq l => Hseq l (go l)
    | SIf l => Hif l (go l)
    | SSwitch l => Hsw l (go l)
    | SLoop b => Hloop b (sprog_ind2 b)
    end.
End SprogInd.

Lemma cc_fp_pick_in f : forall bs b r, cc_fp_pick f bs = Some (b, r) -> In b bs /\ f b = Some r.
Proof.
  induction bs as [|x t IH]; intros b r H; cbn [cc_fp_pick] in H; [discriminate|].
  destruct (f x) as [[p o]|] eqn:Ex.
  - (* x is picked unless it leaves and a later branch is picked *)
    assert (Hx : Some (x, (p, o)) = Some (b, r) -> In b (x :: t) /\ f b = Some r).
    { intros [= <- <-]. split; [left; reflexivity|exact Ex]. }
    destruct o; [exact (Hx H)|..].
    all: destruct (cc_fp_pick f t) as [[b' r']|] eqn:Et; [|exact (Hx H)].
    all: injection H as -> ->; destruct (IH _ _ eq_refl) as [Hi Hf].
    all: split; [right; exact Hi|exact Hf].
  - destruct (IH _ _ H) as [Hi Hf]. split; [right; exact Hi|exact Hf].
Qed.

Lemma cc_fp_gen_path tb callk :
  (forall m p, callk m = Some p -> cc_path tb (SAct (ACall m)) p PFall) ->
  forall sp p o, cc_fp_gen callk sp = Some (p, o) -> cc_path tb sp p o.
Proof.
  intros Hk. induction sp as [a|l IH|l IH|l IH|b IH] using sprog_ind2; intros p o H.
  - destruct a; cbn in H; inversion H; subst;
      try (apply cp_leaf; reflexivity); try constructor.
    destruct (callk m) as [q|] eqn:Ec; [|discriminate]. inversion H; subst. apply Hk, Ec.
  - cbn [cc_fp_gen] in H. revert p o H. induction IH as [|s t Hs _ IHt]; intros p o H; cbn [cc_fp_seq] in H.
    + inversion H. constructor.
    + destruct (cc_fp_gen callk s) as [[p1 o1]|] eqn:Es; [|discriminate].
      destruct o1; [|inversion H; subst; apply cp_seq_stop; [apply Hs; reflexivity|discriminate]..].
      destruct (cc_fp_seq (cc_fp_gen callk) t) as [[p2 o2]|] eqn:Et; [|discriminate].
      inversion H; subst. apply cp_seq_fall; [apply Hs; reflexivity|apply IHt; reflexivity].
  - cbn [cc_fp_gen] in H. destruct (cc_fp_pick (cc_fp_gen callk) l) as [[b r]|] eqn:Ep; [|discriminate].
    inversion H; subst. destruct (cc_fp_pick_in _ _ _ _ Ep) as [Hi Hf].
    rewrite Forall_forall in IH. apply cp_if with b; [exact Hi|apply IH; assumption].
  - cbn [cc_fp_gen] in H. destruct (cc_fp_pick (cc_fp_gen callk) l) as [[b [q oq]]|] eqn:Ep; [|discriminate].
    destruct (cc_fp_pick_in _ _ _ _ Ep) as [Hi Hf]. rewrite Forall_forall in IH.
    destruct oq; inversion H; subst; [| |apply cp_switch_brk with b; [exact Hi|apply IH; assumption]|].
    all: apply cp_switch with b; [exact Hi|apply IH; assumption|discriminate].
  - cbn [cc_fp_gen] in H. inversion H. constructor.
Qed.

Lemma cc_fp_call_path tb : forall n m p, cc_fp_call tb n m = Some p -> cc_entry_path tb m p.
Proof.
  induction n as [|n IH]; intros m p H; cbn [cc_fp_call] in H; [discriminate|].
  destruct (cc_find tb m) as [cm|] eqn:Ef; [|discriminate].
  destruct (cc_fp_gen (cc_fp_call tb n) (cm_body cm)) as [[q o]|] eqn:Eg; [|discriminate].
  inversion H; subst. unfold cc_entry_path. eapply cp_call; [exact Ef|].
  eapply cc_fp_gen_path; [|exact Eg]. exact IH.
Qed.

Lemma cc_fp_thread_path tb n : forall ms p, cc_fp_thread tb n ms = Some p -> cc_thread_path tb ms p.
Proof.
  induction ms as [|m t IH]; intros p H; cbn [cc_fp_thread] in H.
  - inversion H. exists []. split; [constructor|reflexivity].
  - destruct (cc_fp_call tb n m) as [q|] eqn:Ec; [|discriminate].
    destruct (cc_fp_thread tb n t) as [q2|] eqn:Et; [|discriminate].
    inversion H; subst. destruct (IH _ eq_refl) as (ps & HF & ->).
    exists (q :: ps). split; [constructor; [apply cc_fp_call_path with n, Ec|exact HF]|reflexivity].
Qed.

Lemma cc_act_eqb_eq a b : cc_act_eqb a b = true -> a = b.
Proof.
  destruct a, b; cbn; intros H; try discriminate; try reflexivity;
    apply String.eqb_eq in H; subst; reflexivity.
Qed.

Lemma cc_nth_upd_same : forall c i th x, nth_error c i = Some x -> nth_error (cc_upd c i th) i = Some th.
Proof.
  induction c as [|y t IH]; intros [|i] th x H; cbn in *; try discriminate; [reflexivity|].
  eapply IH, H.
Qed.

Lemma cc_nth_upd_other : forall c i j th, i <> j -> nth_error (cc_upd c i th) j = nth_error c j.
Proof.
  induction c as [|y t IH]; intros [|i] [|j] th H; cbn; try reflexivity; [congruence|].
  apply IH. congruence.
Qed.

Lemma cc_nth_upd_inv : forall c i j th t, nth_error (cc_upd c i th) j = Some t ->
  (j = i /\ t = th) \/ (j <> i /\ nth_error c j = Some t).
Proof.
  induction c as [|y c IH]; intros [|i] [|j] th t H; cbn in H; try discriminate.
  - left. injection H as <-. split; reflexivity.
  - right. split; [discriminate|exact H].
  - right. split; [discriminate|exact H].
  - destruct (IH _ _ _ _ H) as [[-> ->]|[Hne Hn]]; [left; split; reflexivity|right].
    split; [congruence|exact Hn].
Qed.

Lemma cc_free_holds c j : cc_free c = true -> cc_holds c j = false.
Proof.
  unfold cc_free, cc_holds. intros H. apply negb_true_iff in H.
  destruct (nth_error c j) as [t|] eqn:E; [|reflexivity].
  destruct (ct_holds t) eqn:Eh; [|reflexivity].
  assert (existsb ct_holds c = true); [|congruence].
  apply existsb_exists. exists t. split; [eapply nth_error_In, E|exact Eh].
Qed.

Lemma cc_stepf_inv c i a c' : cc_stepf c (i, a) = Some c' ->
  exists th r, nth_error c i = Some th /\ ct_rem th = a :: r /\
    (a = ALock -> cc_free c = true) /\
    c' = cc_upd c i (mk_cthread r (cc_holds_after a (ct_holds th))).
Proof.
  unfold cc_stepf. destruct (nth_error c i) as [th|] eqn:En; [|discriminate].
  destruct (ct_rem th) as [|b r] eqn:Er; [discriminate|].
  destruct (cc_act_eqb a b) eqn:Ea; [|discriminate]. apply cc_act_eqb_eq in Ea. subst b.
  cbn [andb]. intros H. exists th, r. split; [reflexivity|]. split; [exact Er|].
  destruct a; try (inversion H; split; [intros; discriminate|reflexivity]).
  destruct (cc_free c); [|discriminate]. inversion H. split; reflexivity.
Qed.

Lemma cc_step_holds c k b c' j : cc_stepf c (k, b) = Some c' ->
  cc_holds c' j = if Nat.eqb j k then cc_holds_after b (cc_holds c j) else cc_holds c j.
Proof.
  intros H. destruct (cc_stepf_inv _ _ _ _ H) as (th & r & En & _ & _ & ->).
  unfold cc_holds. destruct (Nat.eqb j k) eqn:E.
  - apply Nat.eqb_eq in E. subst j. rewrite (cc_nth_upd_same _ _ _ _ En), En. reflexivity.
  - apply Nat.eqb_neq in E. rewrite cc_nth_upd_other by congruence. reflexivity.
Qed.

Definition cc_thread_ok (th : cthread) : Prop := cc_swb (ct_holds th) (ct_rem th) = Some false.

Definition cc_inv_mutex (c : cconfig) : Prop :=
  (forall i th, nth_error c i = Some th -> cc_thread_ok th) /\ cc_mutex c.

Lemma cc_thread_ok_step th a r : cc_thread_ok th -> ct_rem th = a :: r ->
  cc_act_held a (ct_holds th) = Some (cc_holds_after a (ct_holds th)) /\
  cc_swb (cc_holds_after a (ct_holds th)) r = Some false.
Proof.
  unfold cc_thread_ok. intros H Er. rewrite Er in H. cbn [cc_swb] in H.
  destruct (cc_act_held a (ct_holds th)) as [h'|] eqn:Ea; [|discriminate].
  assert (h' = cc_holds_after a (ct_holds th)).
  { destruct a; cbn in Ea |- *; destruct (ct_holds th); inversion Ea; reflexivity. }
  subst h'. split; [reflexivity|exact H].
Qed.

Lemma cc_thread_ok_holder th a r : cc_thread_ok th -> ct_rem th = a :: r ->
  a <> ALock -> (forall w, a <> AWait w) -> ct_holds th = true.
Proof.
  intros H Er Hne Hnw. destruct (cc_thread_ok_step _ _ _ H Er) as [Ha _].
  destruct a; cbn in Ha; destruct (ct_holds th); try discriminate; try reflexivity; try congruence.
Qed.

Lemma cc_thread_ok_wait th w r : cc_thread_ok th -> ct_rem th = AWait w :: r -> ct_holds th = false.
Proof.
  intros H Er. destruct (cc_thread_ok_step _ _ _ H Er) as [Ha _].
  cbn in Ha. destruct (ct_holds th); [discriminate|reflexivity].
Qed.

Lemma cc_inv_mutex_step c e c' : cc_inv_mutex c -> cc_stepf c e = Some c' -> cc_inv_mutex c'.
Proof.
  intros [Hok Hmx] H. destruct e as [k b].
  destruct (cc_stepf_inv _ _ _ _ H) as (th & r & En & Er & Hfree & Ec). split.
  - intros i t Hi. subst c'. apply cc_nth_upd_inv in Hi as [[-> ->]|[_ Hi]]; [|apply (Hok _ _ Hi)].
    unfold cc_thread_ok. cbn [ct_holds ct_rem].
    apply (cc_thread_ok_step th b r); [apply (Hok _ _ En)|exact Er].
  - intros i j Hi Hj. rewrite (cc_step_holds _ _ _ _ i H) in Hi. rewrite (cc_step_holds _ _ _ _ j H) in Hj.
    destruct (Nat.eqb i k) eqn:Eik, (Nat.eqb j k) eqn:Ejk.
    + apply Nat.eqb_eq in Eik, Ejk. congruence.
    + apply Nat.eqb_eq in Eik. subst i. destruct b; cbn [cc_holds_after] in Hi;
        try (apply Hmx; assumption); try discriminate.
      rewrite (cc_free_holds _ j (Hfree eq_refl)) in Hj. discriminate.
    + apply Nat.eqb_eq in Ejk. subst j. destruct b; cbn [cc_holds_after] in Hj;
        try (apply Hmx; assumption); try discriminate.
      rewrite (cc_free_holds _ i (Hfree eq_refl)) in Hi. discriminate.
    + apply Hmx; assumption.
Qed.

Lemma cc_inv_mutex_run evs c c' : cc_inv_mutex c -> cc_run c evs = Some c' -> cc_inv_mutex c'.
Proof. exact (prun_inv cc_stepf cc_inv_mutex cc_inv_mutex_step evs c c'). Qed.

Lemma cc_init_nth ps i th : nth_error (cc_init ps) i = Some th ->
  exists p, nth_error ps i = Some p /\ th = mk_cthread p false.
Proof.
  unfold cc_init. intros H. rewrite nth_error_map in H.
  destruct (nth_error ps i) as [p|]; [|discriminate]. inversion H. exists p. split; reflexivity.
Qed.

Lemma cc_init_holds ps i : cc_holds (cc_init ps) i = false.
Proof.
  unfold cc_holds. destruct (nth_error (cc_init ps) i) as [th|] eqn:E; [|reflexivity].
  destruct (cc_init_nth _ _ _ E) as (p & _ & ->). reflexivity.
Qed.

Lemma cc_inv_mutex_init ps : cc_good ps -> cc_inv_mutex (cc_init ps).
Proof.
  intros Hg. split.
  - intros i th Hi. destruct (cc_init_nth _ _ _ Hi) as (p & Hp & ->).
    unfold cc_good in Hg. rewrite Forall_forall in Hg.
    destruct (Hg p (nth_error_In _ _ Hp)) as [Hw _]. exact Hw.
  - intros i j Hi _. rewrite cc_init_holds in Hi. discriminate.
Qed.

(* (G) mutual exclusion and accesses made by the holder only *)
Lemma cc_reach_mutex ps evs c : cc_good ps -> cc_exec (cc_init ps) evs c -> cc_mutex c.
Proof. intros Hg H. exact (proj2 (cc_inv_mutex_run _ _ _ (cc_inv_mutex_init _ Hg) H)). Qed.

Lemma cc_access_by_holder ps e1 i a e2 c : cc_good ps ->
  cc_exec (cc_init ps) (e1 ++ (i, a) :: e2) c -> a <> ALock -> (forall w, a <> AWait w) ->
  exists c1, cc_exec (cc_init ps) e1 c1 /\ cc_holds c1 i = true /\
             forall j, cc_holds c1 j = true -> j = i.
Proof.
  intros Hg H Hne Hnw. apply (prun_at cc_stepf) in H as (c1 & c2 & H1 & Es & _).
  exists c1. split; [exact H1|].
  pose proof (cc_inv_mutex_run _ _ _ (cc_inv_mutex_init _ Hg) H1) as [Hok Hmx].
  destruct (cc_stepf_inv _ _ _ _ Es) as (th & r & En & Er & _ & _).
  assert (Hh : cc_holds c1 i = true).
  { unfold cc_holds. rewrite En. eapply cc_thread_ok_holder; [apply (Hok _ _ En)|exact Er|exact Hne|exact Hnw]. }
  split; [exact Hh|]. intros j Hj. apply Hmx; assumption.
Qed.

Definition cc_olist (o : option nat) : list nat := match o with Some i => [i] | None => [] end.

(* o = the thread whose request is outstanding (sent, reply not yet read):
   it holds the mutex, and what it has left to do continues its Tx *)
Definition cc_inv_out (c : cconfig) (o : option nat) : Prop :=
  (forall j t, nth_error c j = Some t -> o <> Some j -> cc_txrx_ok (ct_rem t) = true) /\
  (forall j, o = Some j -> exists t, nth_error c j = Some t /\
                                    cc_txrx_ok (ATx :: ct_rem t) = true /\ ct_holds t = true).

Lemma cc_inv_out_init ps : cc_good ps -> cc_inv_out (cc_init ps) None.
Proof.
  intros Hg. split; [|intros j; discriminate].
  intros j t Hj _. destruct (cc_init_nth _ _ _ Hj) as (p & Hp & ->).
  unfold cc_good in Hg. rewrite Forall_forall in Hg.
  destruct (Hg p (nth_error_In _ _ Hp)) as [_ Ht]. exact Ht.
Qed.

Lemma cc_txrx_tail a r : cc_txrx_ok (a :: r) = true -> a <> ATx -> a <> ARx /\ cc_txrx_ok r = true.
Proof. destruct a; cbn; intros H Hne; try discriminate; try (split; [discriminate|exact H]). congruence. Qed.

(* another thread cannot lock, and every other action needs the mutex *)
Lemma cc_blocked_waits c i a c' k : cc_inv_mutex c -> cc_stepf c (i, a) = Some c' ->
  cc_holds c k = true -> i <> k -> exists w, a = AWait w.
Proof.
  intros [Hok Hmx] H Hk Hne. destruct (cc_stepf_inv _ _ _ _ H) as (th & r & En & Er & Hfree & _).
  assert (Hhi : ct_holds th = false).
  { destruct (ct_holds th) eqn:Eh; [|reflexivity]. exfalso. apply Hne, Hmx; [|exact Hk].
    unfold cc_holds. rewrite En. exact Eh. }
  destruct (cc_thread_ok_step _ _ _ (Hok _ _ En) Er) as [Ha _]. rewrite Hhi in Ha.
  destruct a; cbn in Ha; try discriminate; [|eexists; reflexivity].
  rewrite (cc_free_holds _ k (Hfree eq_refl)) in Hk. discriminate.
Qed.

Definition cc_out_next (o : option nat) (i : nat) (a : cact) : option nat :=
  match a with ATx => Some i | ARx => None | _ => o end.

Lemma cc_inv_out_step c o i a c' : cc_inv_mutex c -> cc_inv_out c o -> cc_stepf c (i, a) = Some c' ->
  match o with
  | Some k => (i = k /\ a = ARx) \/ (i <> k /\ exists w, a = AWait w)
  | None => a <> ARx
  end /\ cc_inv_out c' (cc_out_next o i a).
Proof.
  intros H1 [Hrest Hout] H. pose proof H1 as [Hok _].
  destruct (cc_stepf_inv _ _ _ _ H) as (th & r & En & Er & _ & ->).
  destruct o as [k|].
  - destruct (Hout k eq_refl) as (tk & Enk & Htk & Hhk).
    destruct (Nat.eq_dec i k) as [->|Hne].
    + (* the thread whose request is outstanding reads its reply *)
      assert (tk = th) as -> by congruence. rewrite Er in Htk.
      assert (a = ARx) as -> by (destruct a; try discriminate Htk; reflexivity).
      split; [left; split; reflexivity|]. split; [|intros j; discriminate].
      intros j t Hj _. apply cc_nth_upd_inv in Hj as [[_ ->]|[Hjk Hj]]; [exact Htk|].
      apply (Hrest _ _ Hj). congruence.
    + assert (Hk : cc_holds c k = true) by (unfold cc_holds; rewrite Enk; exact Hhk).
      destruct (cc_blocked_waits _ _ _ _ _ H1 H Hk Hne) as [w ->].
      split; [right; split; [exact Hne|eexists; reflexivity]|]. split.
      * intros j t Hj Hjk. apply cc_nth_upd_inv in Hj as [[-> ->]|[_ Hj]]; [|exact (Hrest _ _ Hj Hjk)].
        pose proof (Hrest _ _ En Hjk) as Ht. rewrite Er in Ht. exact Ht.
      * intros j [= <-]. exists tk. rewrite cc_nth_upd_other by exact Hne. repeat split; assumption.
  - pose proof (Hrest _ _ En ltac:(discriminate)) as Ht. rewrite Er in Ht.
    split; [intros ->; discriminate Ht|].
    destruct (cc_out_next None i a) as [k|] eqn:Eo.
    + (* Tx: the request becomes outstanding, and the sender holds the mutex *)
      destruct a; try discriminate Eo. injection Eo as <-. split.
      * intros j t Hj Hji. apply cc_nth_upd_inv in Hj as [[-> _]|[_ Hj]]; [congruence|].
        apply (Hrest _ _ Hj). discriminate.
      * intros j [= <-]. eexists. split; [apply (cc_nth_upd_same _ _ _ _ En)|]. split; [exact Ht|].
        apply (cc_thread_ok_holder th ATx _ (Hok _ _ En) Er); discriminate.
    + split; [|intros j; discriminate]. intros j t Hj _.
      apply cc_nth_upd_inv in Hj as [[_ ->]|[_ Hj]]; [|apply (Hrest _ _ Hj); discriminate].
      apply (cc_txrx_tail _ _ Ht). intros ->. discriminate Eo.
Qed.

Lemma cc_txs_app x : forall y, cc_txs (x ++ y) = cc_txs x ++ cc_txs y.
Proof. induction x as [|[j b] x IHx]; intros y; [reflexivity|]. destruct b; cbn; rewrite ?IHx; reflexivity. Qed.

Lemma cc_rxs_app x : forall y, cc_rxs (x ++ y) = cc_rxs x ++ cc_rxs y.
Proof. induction x as [|[j b] x IHx]; intros y; [reflexivity|]. destruct b; cbn; rewrite ?IHx; reflexivity. Qed.

Lemma cc_inv_out_run evs : forall c c' o, cc_inv_mutex c -> cc_inv_out c o -> cc_run c evs = Some c' ->
  exists o', cc_inv_out c' o' /\ cc_olist o ++ cc_txs evs = cc_rxs evs ++ cc_olist o'.
Proof.
  induction evs as [|[i a] t IH]; intros c c' o H1 H2 H; cbn [cc_run] in H.
  - injection H as <-. exists o. split; [exact H2|]. cbn. apply app_nil_r.
  - destruct (cc_stepf c (i, a)) as [c1|] eqn:Es; [|discriminate].
    destruct (cc_inv_out_step _ _ _ _ _ H1 H2 Es) as [Hc Hi2].
    destruct (IH _ _ _ (cc_inv_mutex_step _ _ _ H1 Es) Hi2 H) as (o' & Hi2' & Heq).
    exists o'. split; [exact Hi2'|].
    (* a Tx puts its thread behind the requests answered so far, an Rx takes it from there *)
    destruct o as [k|].
    + destruct Hc as [[-> ->]|[_ [w ->]]]; cbn [cc_txs cc_rxs cc_out_next cc_olist app] in *;
        [f_equal|]; exact Heq.
    + destruct a; cbn [cc_txs cc_rxs cc_out_next cc_olist app] in *; try exact Heq. congruence.
Qed.

(* T1: at most one request is outstanding, and its sender holds the mutex *)
Lemma cc_one_outstanding ps evs c : cc_good ps -> cc_exec (cc_init ps) evs c ->
  exists o, cc_txs evs = cc_rxs evs ++ cc_olist o /\ (forall k, o = Some k -> cc_holds c k = true).
Proof.
  intros Hg H.
  destruct (cc_inv_out_run _ _ _ _ (cc_inv_mutex_init _ Hg) (cc_inv_out_init _ Hg) H) as (o & Hi & Heq).
  exists o. split; [exact Heq|]. intros k ->. destruct (proj2 Hi k eq_refl) as (t & En & _ & Hh).
  unfold cc_holds. rewrite En. exact Hh.
Qed.

(* T2: contiguity: the event that follows a Tx event is the Rx event of the same thread *)
Lemma cc_tx_then_rx ps e1 i e e2 c : cc_good ps ->
  cc_exec (cc_init ps) (e1 ++ (i, ATx) :: e :: e2) c ->
  e = (i, ARx) \/ exists j w, j <> i /\ e = (j, AWait w).
Proof.
  intros Hg H. apply (prun_at cc_stepf) in H as (c1 & c2 & H1 & Es & H2).
  pose proof (cc_inv_mutex_run _ _ _ (cc_inv_mutex_init _ Hg) H1) as Hi1.
  destruct (cc_inv_out_run _ _ _ _ (cc_inv_mutex_init _ Hg) (cc_inv_out_init _ Hg) H1) as (o & Hi2 & _).
  destruct (cc_inv_out_step _ _ _ _ _ Hi1 Hi2 Es) as [_ Hi2']. cbn [cc_out_next] in Hi2'.
  destruct e as [j b]. cbn [prun] in H2. destruct (cc_stepf c2 (j, b)) as [c3|] eqn:Es2; [|discriminate].
  destruct (cc_inv_out_step _ _ _ _ _ (cc_inv_mutex_step _ _ _ Hi1 Es) Hi2' Es2) as [[[-> ->]|[Hne [w ->]]] _];
    [left; reflexivity|].
  right. exists j, w. split; [exact Hne|reflexivity].
Qed.

(* T3: the k-th reply is consumed by the thread that sent the k-th request *)
Lemma cc_own_reply ps evs c k i : cc_good ps -> cc_exec (cc_init ps) evs c ->
  nth_error (cc_rxs evs) k = Some i -> nth_error (cc_txs evs) k = Some i.
Proof.
  intros Hg H Hk. destruct (cc_one_outstanding _ _ _ Hg H) as (o & -> & _).
  rewrite nth_error_app1; [exact Hk|]. apply nth_error_Some. congruence.
Qed.

(* the witness is the first configuration in which the flag has changed *)
Lemma cc_holds_flip i b : forall mid c c', cc_run c mid = Some c' ->
  cc_holds c i = b -> cc_holds c' i = negb b ->
  exists m1 m2 cm, mid = m1 ++ (i, if b then AUnlock else ALock) :: m2 /\
                   cc_run c m1 = Some cm /\ cc_holds cm i = b.
Proof.
  induction mid as [|[k a] t IH]; intros c c' H Hb Hn; cbn [cc_run] in H.
  - injection H as <-. rewrite Hb in Hn. destruct b; discriminate.
  - destruct (cc_stepf c (k, a)) as [c1|] eqn:Es; [|discriminate].
    destruct (bool_dec (cc_holds c1 i) b) as [E|E].
    + destruct (IH _ _ H E Hn) as (m1 & m2 & cm & -> & Hr & Hc).
      exists ((k, a) :: m1), m2, cm. split; [reflexivity|]. split; [|exact Hc].
      cbn [cc_run]. rewrite Es. exact Hr.
    + exists [], t, c. rewrite (cc_step_holds _ _ _ _ i Es), Hb in E.
      destruct (Nat.eqb i k) eqn:Eik; [|congruence]. apply Nat.eqb_eq in Eik. subst k.
      split; [|split; [reflexivity|exact Hb]].
      destruct b, a; cbn [cc_holds_after] in E; try congruence; reflexivity.
Qed.

Lemma cc_access_holds c i a c' : cc_inv_mutex c -> cc_stepf c (i, a) = Some c' ->
  cc_is_access a = true -> cc_holds c i = true /\ cc_holds c' i = true.
Proof.
  intros [Hok _] Es Ha. destruct (cc_stepf_inv _ _ _ _ Es) as (th & r & En & Er & _ & _).
  assert (Hh : cc_holds c i = true).
  { unfold cc_holds. rewrite En.
    apply (cc_thread_ok_holder th a r (Hok _ _ En) Er); destruct a; discriminate. }
  split; [exact Hh|]. rewrite (cc_step_holds _ _ _ _ i Es), Nat.eqb_refl, Hh.
  destruct a; try discriminate; reflexivity.
Qed.

(* T4: two accesses by different threads i, then j: between them i unlocks
   and, later, j locks. i holds the mutex after its access and j holds it at
   its own, so by mutual exclusion i does not hold it then: the flag of i has
   flipped in between (cc_holds_flip gives its Unlock), and after that Unlock
   j does not hold yet, so the flag of j flips later (its Lock). *)
Lemma cc_release_acquire ps e1 i a1 mid j a2 e2 c : cc_good ps ->
  cc_exec (cc_init ps) (e1 ++ (i, a1) :: mid ++ (j, a2) :: e2) c ->
  i <> j -> cc_is_access a1 = true -> cc_is_access a2 = true ->
  exists m1 m2 m3, mid = m1 ++ (i, AUnlock) :: m2 ++ (j, ALock) :: m3.
Proof.
  intros Hg H Hij Ha1 Ha2.
  apply (prun_at cc_stepf) in H as (c1 & c2 & H1 & Es1 & H).
  apply (prun_at cc_stepf) in H as (c3 & c4 & H3 & Es2 & _).
  pose proof (cc_inv_mutex_run _ _ _ (cc_inv_mutex_init _ Hg) H1) as Hi1.
  pose proof (cc_inv_mutex_step _ _ _ Hi1 Es1) as Hi2.
  pose proof (cc_inv_mutex_run _ _ _ Hi2 H3) as Hi3.
  (* i holds in c2, j (hence not i) holds in c3: i unlocks in between *)
  destruct (cc_access_holds _ _ _ _ Hi1 Es1 Ha1) as [_ Hh2].
  destruct (cc_access_holds _ _ _ _ Hi3 Es2 Ha2) as [Hh3 _].
  assert (Hn3 : cc_holds c3 i = false).
  { destruct (cc_holds c3 i) eqn:E; [|reflexivity]. exfalso. apply Hij. apply (proj2 Hi3); assumption. }
  destruct (cc_holds_flip i true _ _ _ H3 Hh2 Hn3) as (m1 & m2 & cm & -> & Hr1 & Hcm).
  apply (prun_at cc_stepf) in H3 as (cm' & cu & Hr1' & Esu & Hr2).
  injection (eq_trans (eq_sym Hr1) Hr1') as <-.
  (* j does not hold while i does, nor right after i's Unlock: j locks after it *)
  assert (Hnu : cc_holds cu j = false).
  { rewrite (cc_step_holds _ _ _ _ j Esu). replace (Nat.eqb j i) with false.
    - destruct (cc_holds cm j) eqn:E; [|reflexivity]. exfalso. apply Hij.
      apply (proj2 (cc_inv_mutex_run _ _ _ Hi2 Hr1)); assumption.
    - symmetry. apply Nat.eqb_neq. congruence. }
  destruct (cc_holds_flip j false _ _ _ Hr2 Hnu Hh3) as (m2' & m3 & _ & -> & _).
  exists m1, m2', m3. reflexivity.
Qed.

(* (W): a thread that waits for a peer (Accept, a read or write on a connection,
   a handler call, ...) does not hold the mutex at that moment *)
Lemma cc_wait_not_holder ps e1 i w e2 c : cc_good ps ->
  cc_exec (cc_init ps) (e1 ++ (i, AWait w) :: e2) c ->
  exists c1, cc_exec (cc_init ps) e1 c1 /\ cc_holds c1 i = false.
Proof.
  intros Hg H. apply (prun_at cc_stepf) in H as (c1 & c2 & H1 & Es & _).
  exists c1. split; [exact H1|].
  pose proof (cc_inv_mutex_run _ _ _ (cc_inv_mutex_init _ Hg) H1) as [Hok _].
  destruct (cc_stepf_inv _ _ _ _ Es) as (th & r & En & Er & _ & _).
  unfold cc_holds. rewrite En. exact (cc_thread_ok_wait _ _ _ (Hok _ _ En) Er).
Qed.

(* the holder of the mutex can always move on without any peer *)
Lemma cc_holder_not_waiting ps evs c i th w r : cc_good ps -> cc_exec (cc_init ps) evs c ->
  nth_error c i = Some th -> ct_holds th = true -> ct_rem th <> AWait w :: r.
Proof.
  intros Hg H En Hh Er.
  pose proof (cc_inv_mutex_run _ _ _ (cc_inv_mutex_init _ Hg) H) as [Hok _].
  rewrite (cc_thread_ok_wait _ _ _ (Hok _ _ En) Er) in Hh. discriminate.
Qed.

(* programs without waits: the client *)
Definition cc_is_wait (a : cact) : bool := match a with AWait _ => true | _ => false end.
Definition cc_nowait (p : list cact) : bool := forallb (fun a => negb (cc_is_wait a)) p.

Lemma cc_exec_nowait ps : Forall (fun p => cc_nowait p = true) ps ->
  forall evs c, cc_exec (cc_init ps) evs c -> forall i a, In (i, a) evs -> cc_is_wait a = false.
Proof.
  intros Hnw evs c H i a Hin.
  (* no thread has a wait left: kept by every step, and the next action of a
     thread is among those it has left *)
  set (N := fun c : cconfig => forall j th, nth_error c j = Some th -> cc_nowait (ct_rem th) = true).
  assert (Hnext : forall c0 k b c1, N c0 -> cc_stepf c0 (k, b) = Some c1 ->
            cc_is_wait b = false /\ N c1).
  { intros c0 k b c1 H0 Es. destruct (cc_stepf_inv _ _ _ _ Es) as (th & r & En & Er & _ & ->).
    pose proof (H0 _ _ En) as Hth. rewrite Er in Hth. apply andb_true_iff in Hth as [Hb Hr].
    split; [apply negb_true_iff, Hb|].
    intros j tj Hj. apply cc_nth_upd_inv in Hj as [[_ ->]|[_ Hj]]; [exact Hr|exact (H0 _ _ Hj)]. }
  assert (Hinit : N (cc_init ps)).
  { intros j th Hj. destruct (cc_init_nth _ _ _ Hj) as (p & Hp & ->).
    rewrite Forall_forall in Hnw. exact (Hnw _ (nth_error_In _ _ Hp)). }
  apply in_split in Hin as (e1 & e2 & ->).
  apply (prun_at cc_stepf) in H as (c1 & c2 & H1 & Es & _).
  assert (Hstep : forall c0 e c3, N c0 -> cc_stepf c0 e = Some c3 -> N c3).
  { intros c0 [k b] c3 H0 E. exact (proj2 (Hnext _ _ _ _ H0 E)). }
  exact (proj1 (Hnext _ _ _ _ (prun_inv cc_stepf N Hstep _ _ _ Hinit H1) Es)).
Qed.

(* T2 for programs without waits: the event after a Tx is the Rx of the same thread *)
Lemma cc_tx_then_rx_nowait ps e1 i e e2 c : cc_good ps -> Forall (fun p => cc_nowait p = true) ps ->
  cc_exec (cc_init ps) (e1 ++ (i, ATx) :: e :: e2) c -> e = (i, ARx).
Proof.
  intros Hg Hnw H. destruct (cc_tx_then_rx _ _ _ _ _ _ Hg H) as [He|(j & w & _ & He)]; [exact He|].
  exfalso. subst e.
  assert (Hin : In (j, AWait w) (e1 ++ (i, ATx) :: (j, AWait w) :: e2)).
  { apply in_or_app. right. right. left. reflexivity. }
  pose proof (cc_exec_nowait ps Hnw _ _ H _ _ Hin) as Hf. discriminate Hf.
Qed.

Definition cc_table_nowait (tb : ctable) : bool :=
  forallb (fun cm => cc_nowait (cc_acts (cm_body cm))) tb.

Lemma cc_nowait_app p q : cc_nowait (p ++ q) = true <-> cc_nowait p = true /\ cc_nowait q = true.
Proof. unfold cc_nowait. rewrite forallb_app. apply andb_true_iff. Qed.

Lemma cc_find_in tb m cm : cc_find tb m = Some cm -> In cm tb.
Proof.
  induction tb as [|x t IH]; cbn [cc_find]; [discriminate|].
  destruct (String.eqb (cm_name x) m); [intros [= <-]; left; reflexivity|intros H; right; apply IH, H].
Qed.

Lemma cc_nowait_flat_map l : cc_nowait (flat_map cc_acts l) = true ->
  forall b, In b l -> cc_nowait (cc_acts b) = true.
Proof.
  induction l as [|x t IH]; intros H b Hb; [contradiction|].
  cbn [flat_map] in H. apply cc_nowait_app in H as [Hx Ht].
  destruct Hb as [->|Hb]; [exact Hx|exact (IH Ht b Hb)].
Qed.

Lemma cc_path_nowait tb : cc_table_nowait tb = true ->
  forall sp p o, cc_path tb sp p o -> cc_nowait (cc_acts sp) = true -> cc_nowait p = true.
Proof.
  intros Htb sp p o Hp.
  induction Hp as
    [a p Hl| | | |m cm p o Hf Hb IHb| |s l p1 p2 o H1 IH1 H2 IH2|s l p1 o H1 IH1 Hne
     |bs b p o Hin Hb IH|bs b p o Hin Hb IH Hne|bs b p Hin Hb IH
     |b|b p1 p2 o o1 H1 IH1 Hoo H2 IH2|b p1 H1 IH1|b p1 H1 IH1]; intros Hs;
    try reflexivity.
  - destruct a; cbn in Hl; inversion Hl; subst; try reflexivity; exact Hs.
  - (* the body of the callee is a method of the table *)
    apply cc_nowait_app. split; [|unfold cc_exit; destruct (cm_deferred cm); reflexivity].
    apply IHb. exact (proj1 (forallb_forall _ _) Htb cm (cc_find_in _ _ _ Hf)).
  - cbn [cc_acts flat_map] in Hs. apply cc_nowait_app in Hs as [Ha Hb].
    apply cc_nowait_app. split; [apply IH1, Ha|apply IH2, Hb].
  - cbn [cc_acts flat_map] in Hs. apply cc_nowait_app in Hs as [Ha _]. apply IH1, Ha.
  - apply IH. exact (cc_nowait_flat_map _ Hs _ Hin).
  - apply IH. exact (cc_nowait_flat_map _ Hs _ Hin).
  - apply IH. exact (cc_nowait_flat_map _ Hs _ Hin).
  - apply cc_nowait_app. split; [apply IH1, Hs|apply IH2, Hs].
  - apply IH1, Hs.
  - apply IH1, Hs.
Qed.

Lemma cc_thread_path_nowait tb ms p : cc_table_nowait tb = true ->
  cc_thread_path tb ms p -> cc_nowait p = true.
Proof.
  intros Htb (ps & HF & ->). induction HF as [|m q ms' ps' Hq _ IH]; [reflexivity|].
  cbn [List.concat]. apply cc_nowait_app. split; [|exact IH].
  exact (cc_path_nowait tb Htb _ _ _ Hq eq_refl).
Qed.
