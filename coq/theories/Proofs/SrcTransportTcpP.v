(* tcp_transport.go as translated from the Go source (Gen/SrcPure.v):
   readResponse (the loop that skips frames of an unknown protocol and frames
   with another transaction id), ReadRequest, WriteResponse, ExecuteRequest and
   Close equal the transport model of Model/Transport.v. *)
From Coq Require Import List NArith String Lia Bool.
Import ListNotations.
From Modbus Require Import Base.Bytes Model.GoLite Gen.SrcPure Model.Crc Model.Encoding.
From Modbus Require Import Model.Wire Model.Transport.
From Modbus Require Import Proofs.GoLiteP Proofs.GoLiteLinkP Proofs.SrcCrcP Proofs.SrcLinkP Proofs.SrcMiscP Proofs.SrcClientP.
From Modbus Require Import Proofs.SrcTransportP.
Open Scope string_scope.
Open Scope N_scope.

Definition rr_body : stmt :=
  Eval cbv in match f_body src_fn_tcpTransport_readResponse with
              | SSeq _ (SSeq (SFor _ _ b) _) => b
              | _ => SSkip
              end.

(* the state of readResponse: 0=tt.timeout 1=tt.lastTxnId 2=$world 3..6=res 7=err 8=txnId *)
Definition rr_state (tmo last : N) (w : val) (p : option pdu) (e txn : N) : state :=
  ([VN tmo; VN last; w] ++ enc_opdu p ++ [VN e; VN txn])%list.

Lemma rr_body_eval fe fuel T tmo last w r3 r4 r5 r6 r7 r8 :
  read_mbap_hyp fe T ->
  exec ge fe fuel [VN tmo; VN last; w; r3; r4; r5; r6; r7; r8] rr_body =
  let '(w1, p, txn, e) := t_read_mbap T src_codes w in
  if e =? 19 then OContinue (rr_state tmo last w1 p e txn)
  else if negb (e =? 0) then OReturn (rr_state tmo last w1 p e txn) None
  else if negb (last =? txn) then OContinue (rr_state tmo last w1 p e txn)
  else OBreak (rr_state tmo last w1 p e txn).
Proof.
  intros Hrm. unfold rr_body.
  gl_step. rewrite Hrm. unfold out_read_mbap.
  destruct (t_read_mbap T src_codes w) as [[[w1 p] txn] e].
  unfold rr_state.
  destruct p as [q|]; cbn [enc_opdu app]; gl_auto;
    (destruct (e =? 19) eqn:E19; gl_auto; [reflexivity|]);
    (destruct (e =? 0) eqn:E0; gl_auto; [|reflexivity]);
    (destruct (last =? txn) eqn:El; gl_auto; reflexivity).
Qed.

Lemma rr_loop fe fuel T tmo last :
  read_mbap_hyp fe T ->
  forall n w r3 r4 r5 r6 r7 r8,
  exists t8,
    for_go n (fun st' => eval ge fe st' (EB true)) (fun st' => exec ge fe fuel st' rr_body)
           (fun st' => exec ge fe fuel st' SSkip) [VN tmo; VN last; w; r3; r4; r5; r6; r7; r8] =
    match t_read_response T src_codes n last w with
    | Some (w', p, e) =>
        if e =? 0 then ONormal (rr_state tmo last w' p e t8)
        else OReturn (rr_state tmo last w' p e t8) None
    | None => OFail GoLite.OutOfFuel
    end.
Proof.
  intros Hrm. induction n as [|n IH]; intros w r3 r4 r5 r6 r7 r8.
  - exists 0. reflexivity.
  - cbn [t_read_response]. change (c_unkproto src_codes) with 19.
    pose proof (rr_body_eval fe fuel T tmo last w r3 r4 r5 r6 r7 r8 Hrm) as Hb.
    destruct (t_read_mbap T src_codes w) as [[[w1 p] txn] e].
    destruct (e =? 19) eqn:E19.
    { rewrite (for_go_body_continue n _ _ _ _ _ _ eq_refl Hb eq_refl).
      unfold rr_state. destruct p as [q|]; cbn [enc_opdu app]; apply IH. }
    destruct (e =? 0) eqn:E0; cbn [negb] in Hb |- *.
    2:{ rewrite (for_go_body_return n _ _ _ _ _ _ eq_refl Hb).
        exists txn. rewrite E0. reflexivity. }
    destruct (last =? txn) eqn:El; cbn [negb] in Hb |- *.
    2:{ rewrite (for_go_body_continue n _ _ _ _ _ _ eq_refl Hb eq_refl).
        unfold rr_state. destruct p as [q|]; cbn [enc_opdu app]; apply IH. }
    rewrite (for_go_body_break n _ _ _ _ _ eq_refl Hb).
    exists txn. replace e with 0 by lia. reflexivity.
Qed.

(* the fuel of the loop is the fuel of the call *)
Lemma run_readResponse fe fuel T tmo last w : read_mbap_hyp fe T ->
  run_fn ge fe fuel src_fn_tcpTransport_readResponse [VN tmo; VN last; w] = out_read_response T fuel tmo last w.
Proof.
  intros Hrm. unfold run_fn.
  change (f_body src_fn_tcpTransport_readResponse) with
    (SSeq (SSet (LVar 8) (EN 0)) (SSeq (SFor (EB true) SSkip rr_body) (SReturn ENil))).
  unfold src_fn_tcpTransport_readResponse. cbn [f_nparams f_zeros f_outs f_results].
  remember (SFor (EB true) SSkip rr_body) as loop eqn:Eloop.
  gl_step.
  subst loop. rewrite exec_for.
  match goal with
  | |- context [for_go fuel _ _ _ [_; _; _; ?r3; ?r4; ?r5; ?r6; ?r7; ?r8]] =>
      destruct (rr_loop fe fuel T tmo last Hrm fuel w r3 r4 r5 r6 r7 r8) as [t8 Hloop]
  end.
  rewrite Hloop. clear Hloop.
  unfold out_read_response.
  destruct (t_read_response T src_codes fuel last w) as [[[w' p] e]|]; [|reflexivity].
  unfold rr_state.
  destruct (e =? 0); destruct p as [q|]; cbn [enc_opdu app]; gl_step; reflexivity.
Qed.

Lemma run_tcp_ReadRequest fe fuel T tmo last w : tworld_hyp fe T "socket" -> read_mbap_hyp fe T ->
  run_fn ge fe fuel src_fn_tcpTransport_ReadRequest [VN tmo; VN last; w] = out_tcp_read_request T tmo last w.
Proof.
  intros HT Hrm. destruct HT as (Hnow & _ & Hdl & _ & _ & _).
  cbn [append] in Hdl.
  unfold run_fn, src_fn_tcpTransport_ReadRequest.
  gl_step. rewrite Hnow. gl_auto. rewrite Hdl. gl_auto.
  unfold out_tcp_read_request, t_tcp_read_request, add64.
  destruct (t_now T w) as [w0 now]. cbn [fst snd].
  destruct (t_setdl T w0 ((now + tmo) mod 2 ^ 64)) as [w1 e]. cbn [fst snd].
  destruct (e =? 0) eqn:E0; gl_auto; [|reflexivity].
  rewrite Hrm. unfold out_read_mbap.
  destruct (t_read_mbap T src_codes w1) as [[[w2 p] txn] e2].
  destruct p as [q|]; cbn [enc_opdu app]; gl_auto;
    (destruct (e2 =? 0) eqn:E2; gl_auto; [replace e2 with 0 by lia|]; reflexivity).
Qed.

Lemma run_tcp_WriteResponse fe fuel T tmo last res w : tworld_hyp fe T "socket" -> asm_mbap_hyp fe -> pdu_ok res ->
  run_fn ge fe fuel src_fn_tcpTransport_WriteResponse ([VN tmo; VN last] ++ pdu_args res ++ [w])%list = out_tcp_write_response T tmo last res w.
Proof.
  intros HT Hasm [_ Hlen]. destruct HT as (_ & _ & _ & Hwr & _ & _).
  cbn [append] in Hwr.
  destruct res as [u fc pl]. cbn [p_payload] in Hlen.
  unfold run_fn, src_fn_tcpTransport_WriteResponse, pdu_args. cbn [p_unit p_fc p_payload].
  gl_step. rewrite (Hasm last u fc pl Hlen). gl_step. rewrite Hwr.
  unfold out_tcp_write_response, t_tcp_write_response.
  destruct (t_write T w (assemble_mbap last (mkpdu u fc pl))) as [[w1 n] e].
  gl_auto. destruct (e =? 0); gl_auto; reflexivity.
Qed.

Lemma run_tcp_ExecuteRequest fe fuel T rfuel tmo last req w :
  tworld_hyp fe T "socket" -> asm_mbap_hyp fe -> read_response_hyp fe T rfuel -> pdu_ok req ->
  run_fn ge fe fuel src_fn_tcpTransport_ExecuteRequest ([VN tmo; VN last] ++ pdu_args req ++ [w])%list = out_tcp_execute T rfuel tmo last req w.
Proof.
  intros HT Hasm Hrr [_ Hlen]. destruct HT as (Hnow & _ & Hdl & Hwr & _ & _).
  cbn [append] in Hdl, Hwr.
  destruct req as [u fc pl]. cbn [p_payload] in Hlen.
  unfold run_fn, src_fn_tcpTransport_ExecuteRequest, pdu_args. cbn [p_unit p_fc p_payload].
  gl_step. rewrite Hnow. gl_auto. rewrite Hdl. gl_auto.
  unfold out_tcp_execute, t_tcp_execute, add64.
  destruct (t_now T w) as [w0 now]. cbn [fst snd].
  destruct (t_setdl T w0 ((now + tmo) mod 2 ^ 64)) as [w1 e]. cbn [fst snd].
  destruct (e =? 0) eqn:E0; gl_auto; [|reflexivity].
  change (2 ^ 16) with 65536.
  rewrite (Hasm ((last + 1) mod 65536) u fc pl Hlen). gl_step. rewrite Hwr.
  destruct (t_write T w1 (assemble_mbap ((last + 1) mod 65536) (mkpdu u fc pl))) as [[w2 n] e2].
  gl_auto.
  destruct (e2 =? 0) eqn:E2; gl_auto; [|reflexivity].
  rewrite Hrr. unfold out_read_response.
  destruct (t_read_response T src_codes rfuel ((last + 1) mod 65536) w2) as [[[w3 p] e3]|]; [|reflexivity].
  destruct p as [q|]; cbn [enc_opdu app]; gl_step; reflexivity.
Qed.

Lemma run_tcp_Close fe fuel T tmo last w : tworld_hyp fe T "socket" ->
  run_fn ge fe fuel src_fn_tcpTransport_Close [VN tmo; VN last; w] = out_close T [VN tmo; VN last] w.
Proof.
  intros (_ & _ & _ & _ & _ & Hcl). cbn [append] in Hcl. run_one_call Hcl.
Qed.

Print Assumptions run_readResponse.
Print Assumptions run_tcp_ReadRequest.
Print Assumptions run_tcp_WriteResponse.
Print Assumptions run_tcp_ExecuteRequest.
Print Assumptions run_tcp_Close.
