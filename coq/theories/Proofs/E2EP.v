(* Property C04: the end-to-end composition (Model/E2E.v) refines the
   sequential register file (Spec/RegFile.v).
   The file begins with the definitions that the statements of
   Properties/C04.v are written in, then the facts about cells_store and
   cells_load of Base/Cells.v. *)
From Modbus Require Import Base.Bytes Base.Cells Model.Crc Model.Encoding Model.Wire Model.Client
  Model.Server Spec.ModbusSpec Spec.ClientSpec Spec.ServerSpec Spec.ServerSessionSpec Spec.RegFile
  Model.E2E Proofs.EncodingP Proofs.BoolsP Proofs.FramingP Proofs.ClientReqP Proofs.ClientRespP
  Proofs.MbapServerP Proofs.ServerP.

Definition e2e_wf (s : e2e_state) : Prop :=
  cfg_wf (e2e_cfg s) /\ rfmem_wf (e2e_mem s) /\ e2e_txn s < 65536 /\ e2e_left s = [].

Definition rf_history_wf (h : list ((hreq -> option herr) * rf_op)) : Prop :=
  Forall (fun fx => rf_fail_wf (fst fx) /\ rf_op_wf (snd fx)) h.

Definition rf_nofail : hreq -> option herr := fun _ => None.

(* registers as they travel: big-endian (the right-hand side of
   ServerP.u16s_be_layout) *)
Definition be_regs (l : list N) : list N := flat_map (fun v => [v / 256; v mod 256]) l.

Definition readback (o : op) : option (op * values) :=
  match o with
  | OpWriteCoil a v => Some (OpReadBools false a 1, VBools [v])
  | OpWriteCoils a vs => Some (OpReadBools false a (lenN vs), VBools vs)
  | OpWriteReg a v => Some (OpReadRegs 1 a 1 Holding, VNums [v])
  | OpWriteRegs w a vs => Some (OpReadRegs w a (lenN vs) Holding, VNums vs)
  | OpWriteBytes raw a bs => Some (OpReadBytes raw a (lenN bs) Holding, VBytes bs)
  | _ => None
  end.

Lemma cells_load_length {A} (m : N -> A) a n : length (cells_load m a n) = N.to_nat n.
Proof. unfold cells_load, cells_addrs. rewrite !map_length, seq_length. reflexivity. Qed.

Lemma cells_load_lenN {A} (m : N -> A) a n : lenN (cells_load m a n) = n.
Proof. unfold lenN. rewrite cells_load_length. lia. Qed.

Lemma cells_load_Forall {A} (P : A -> Prop) (m : N -> A) a n :
  (forall k, P (m k)) -> Forall P (cells_load m a n).
Proof.
  intros H. unfold cells_load. apply Forall_forall. intros x Hx.
  apply in_map_iff in Hx. destruct Hx as (k & <- & _). apply H.
Qed.

Lemma cells_load_nat {A} (m : N -> A) a n :
  cells_load m a (N.of_nat n) = map (fun i => m (a + N.of_nat i)) (seq 0 n).
Proof. unfold cells_load, cells_addrs. rewrite map_map, Nat2N.id. reflexivity. Qed.

Lemma cells_load_app {A} (m : N -> A) a n1 n2 :
  cells_load m a (n1 + n2) = cells_load m a n1 ++ cells_load m (a + n1) n2.
Proof.
  rewrite <- (N2Nat.id n1), <- (N2Nat.id n2), <- Nat2N.inj_add, !cells_load_nat.
  rewrite seq_app, map_app. f_equal. cbn [plus].
  rewrite <- (Nat.add_0_r (N.to_nat n1)) at 1.
  generalize 0%nat. intros s. revert s. induction (N.to_nat n2) as [|k IH]; intros s; [reflexivity|].
  cbn [seq map]. f_equal; [f_equal; lia|].
  replace (S (N.to_nat n1 + s)) with (N.to_nat n1 + S s)%nat by lia. apply IH.
Qed.

Lemma cells_load_store {A} (m : N -> A) a l : cells_load (cells_store m a l) a (lenN l) = l.
Proof.
  unfold lenN. rewrite cells_load_nat.
  transitivity (firstn (length l) l); [|apply firstn_all].
  rewrite <- (map_nth_seq l (m a) (length l)) by lia.
  apply map_ext_in. intros i Hi. apply in_seq in Hi. unfold cells_store, lenN.
  replace ((a <=? a + N.of_nat i) && (a + N.of_nat i <? a + N.of_nat (length l))) with true by lia.
  replace (N.to_nat (a + N.of_nat i - a)) with i by lia.
  apply nth_indep. lia.
Qed.

Lemma cells_load_store_sub {A} (m : N -> A) a L off n : off + n <= lenN L ->
  cells_load (cells_store m a L) (a + off) n = firstn (N.to_nat n) (skipn (N.to_nat off) L).
Proof.
  intros H. rewrite <- (N2Nat.id n) at 1. rewrite cells_load_nat.
  rewrite <- (map_nth_seq (skipn (N.to_nat off) L) (m a) (N.to_nat n))
    by (rewrite skipn_length; unfold lenN in H; lia).
  apply map_ext_in. intros i Hi. apply in_seq in Hi. unfold cells_store.
  replace ((a <=? a + off + N.of_nat i) && (a + off + N.of_nat i <? a + lenN L)) with true by lia.
  rewrite nth_skipn'. replace (N.to_nat (a + off + N.of_nat i - a)) with (N.to_nat off + i)%nat by lia.
  apply nth_indep. unfold lenN in H. lia.
Qed.

Lemma cells_store_bound (m : N -> N) a l B :
  (forall k, m k < B) -> Forall (fun v => v < B) l -> forall k, cells_store m a l k < B.
Proof.
  intros Hm Hl k. unfold cells_store.
  destruct ((a <=? k) && (k <? a + lenN l)); [|apply Hm].
  destruct (nth_in_or_default (N.to_nat (k - a)) l (m k)) as [Hin| ->]; [|apply Hm].
  rewrite Forall_forall in Hl. apply Hl. exact Hin.
Qed.

(* two lists of numbers written out element by element are equal when lia
   proves the elements equal *)
Ltac list_lia :=
  repeat (match goal with
          | |- _ :: _ = _ :: _ => apply (f_equal2 (@cons N)); [lia|]
          end); try reflexivity.

Lemma be_regs_app a b : be_regs (a ++ b) = be_regs a ++ be_regs b.
Proof. apply flat_map_app. Qed.

Lemma be_regs_bytes l : Forall (fun v => v < 65536) l -> bytesb (be_regs l) = true.
Proof.
  induction 1 as [|x t Hx _ IH]; [reflexivity|].
  cbn [be_regs flat_map app]. apply bytesb_cons_intro; [lia|]. apply bytesb_cons_intro; [lia|exact IH].
Qed.

Lemma dec_be_regs rs : Forall (fun v => v < 65536) rs -> bytes_to_u16s BigE (be_regs rs) = Some rs.
Proof.
  intros H. unfold be_regs. rewrite <- (u16s_be_layout rs H). apply u16s_roundtrip. exact H.
Qed.

Lemma be_regs_be16 l : Forall (fun v => v < 65536) l -> flat_map be16 l = be_regs l.
Proof.
  induction 1 as [|x t Hx _ IH]; [reflexivity|]. cbn [flat_map be_regs]. rewrite IH. unfold be16.
  rewrite (N.mod_small (x / 256)) by lia. reflexivity.
Qed.

Lemma rf_image_lt e x : x < 65536 -> rf_image e x < 65536.
Proof. destruct e; cbn [rf_image]; unfold rf_swap16; lia. Qed.

Lemma rf_image_invol e x : x < 65536 -> rf_image e (rf_image e x) = x.
Proof. destruct e; cbn [rf_image]; unfold rf_swap16; lia. Qed.

Lemma rf_images_lt e l : Forall (fun v => v < 65536) l -> Forall (fun v => v < 65536) (map (rf_image e) l).
Proof. induction 1; constructor; [apply rf_image_lt|]; assumption. Qed.

Lemma rf_images_invol e l : Forall (fun v => v < 65536) l -> map (rf_image e) (map (rf_image e) l) = l.
Proof. induction 1 as [|x t Hx _ IH]; [reflexivity|]. cbn [map]. rewrite IH, rf_image_invol by exact Hx. reflexivity. Qed.

Lemma rf_order_invol {A} w (l : list A) : rf_order w (rf_order w l) = l.
Proof. destruct w; [reflexivity|apply rev_involutive]. Qed.

Lemma rf_order_Forall {A} (P : A -> Prop) w l : Forall P l -> Forall P (rf_order w l).
Proof. destruct w; [trivial|apply Forall_rev]. Qed.

Lemma rf_order_map {A B} (f : A -> B) w l : rf_order w (map f l) = map f (rf_order w l).
Proof. destruct w; [reflexivity|symmetry; apply map_rev]. Qed.

Lemma rf_order_length {A} w (l : list A) : length (rf_order w l) = length l.
Proof. destruct w; [reflexivity|apply rev_length]. Qed.

Lemma word_bytes_image e x : x < 65536 ->
  word_bytes e x = [rf_image e x / 256; rf_image e x mod 256].
Proof. intros H. destruct e; cbn [word_bytes rf_image]; unfold rf_swap16; list_lia. Qed.

Lemma layout_regs e ws : Forall (fun v => v < 65536) ws ->
  flat_map (word_bytes e) ws = be_regs (map (rf_image e) ws).
Proof.
  induction 1 as [|x t Hx _ IH]; [reflexivity|].
  cbn [flat_map map be_regs]. rewrite IH, word_bytes_image by exact Hx. reflexivity.
Qed.

Lemma words_of_lt n v : Forall (fun x => x < 65536) (words_of n v).
Proof.
  unfold words_of. apply Forall_forall. intros x Hx. apply in_map_iff in Hx.
  destruct Hx as (k & <- & _). lia.
Qed.

Lemma words_of_length n v : length (words_of n v) = n.
Proof. unfold words_of. rewrite map_length, rev_length, seq_length. reflexivity. Qed.

Lemma rf_value_regs_lt c w v : Forall (fun x => x < 65536) (rf_value_regs c w v).
Proof. unfold rf_value_regs. apply rf_images_lt, rf_order_Forall, words_of_lt. Qed.

Lemma rf_value_regs_length c w v : length (rf_value_regs c w v) = N.to_nat w.
Proof. unfold rf_value_regs. rewrite map_length, rf_order_length, words_of_length. reflexivity. Qed.

Lemma spec_bytes_regs c w v :
  spec_bytes (N.to_nat w) (c_endian c) (c_word c) v = be_regs (rf_value_regs c w v).
Proof.
  unfold spec_bytes, layout, rf_value_regs.
  change (match c_word c with HighFirst => words_of (N.to_nat w) v | LowFirst => rev (words_of (N.to_nat w) v) end)
    with (rf_order (c_word c) (words_of (N.to_nat w) v)).
  apply layout_regs, rf_order_Forall, words_of_lt.
Qed.

Lemma spec_bytes_regs_list c w vs :
  flat_map (spec_bytes (N.to_nat w) (c_endian c) (c_word c)) vs =
  be_regs (flat_map (rf_value_regs c w) vs).
Proof.
  induction vs as [|v t IH]; [reflexivity|].
  cbn [flat_map]. rewrite be_regs_app, IH, spec_bytes_regs. reflexivity.
Qed.

Lemma rf_values_regs_lt c w vs : Forall (fun x => x < 65536) (flat_map (rf_value_regs c w) vs).
Proof.
  induction vs as [|v t IH]; [constructor|]. cbn [flat_map]. apply Forall_app.
  split; [apply rf_value_regs_lt|exact IH].
Qed.

Lemma rf_values_regs_lenN c w vs : lenN (flat_map (rf_value_regs c w) vs) = w * lenN vs.
Proof.
  unfold lenN. rewrite (flat_map_length_const _ (N.to_nat w)); [lia|].
  intros v _. apply rf_value_regs_length.
Qed.

(* words_of and rf_join are the digits of a number in base 65536 and their
   sum, most significant digit first: both peel off the last digit *)
Lemma words_of_S n v : words_of (S n) v = words_of n (v / 65536) ++ [v mod 65536].
Proof.
  unfold words_of. cbn [seq rev]. rewrite <- seq_shift, <- map_rev, map_app, map_map. f_equal.
  - apply map_ext. intros k.
    rewrite Nat2N.inj_succ, N.mul_succ_r, N.pow_add_r, N.div_div, (N.mul_comm 65536); try discriminate.
    + reflexivity.
    + apply N.pow_nonzero. discriminate.
  - cbn [map]. change (2 ^ (16 * N.of_nat 0)) with 1. rewrite N.div_1_r. reflexivity.
Qed.

Lemma rf_join_snoc ws x : rf_join (ws ++ [x]) = rf_join ws * 65536 + x.
Proof. unfold rf_join. rewrite fold_left_app. reflexivity. Qed.

Lemma pow16_S n : 2 ^ (16 * N.of_nat (S n)) = 65536 * 2 ^ (16 * N.of_nat n).
Proof. rewrite Nat2N.inj_succ, N.mul_succ_r, N.pow_add_r. apply N.mul_comm. Qed.

Lemma join_words n : forall v, v < 2 ^ (16 * N.of_nat n) -> rf_join (words_of n v) = v.
Proof.
  induction n as [|n IH]; intros v Hv.
  - change (2 ^ (16 * N.of_nat 0)) with 1 in Hv. cbn. lia.
  - rewrite pow16_S in Hv. rewrite words_of_S, rf_join_snoc, IH; [lia|].
    apply N.div_lt_upper_bound; [discriminate|exact Hv].
Qed.

Lemma words_join ws : Forall (fun x => x < 65536) ws ->
  words_of (length ws) (rf_join ws) = ws /\ rf_join ws < 2 ^ (16 * N.of_nat (length ws)).
Proof.
  induction ws as [|x ws IH] using rev_ind; intros Hw.
  - split; reflexivity.
  - apply Forall_app in Hw as [Hws Hx]. inversion Hx as [|? ? Hx' _]; subst.
    destruct (IH Hws) as [IH1 IH2].
    rewrite app_length, Nat.add_1_r, pow16_S, words_of_S, rf_join_snoc.
    replace ((rf_join ws * 65536 + x) / 65536) with (rf_join ws) by lia.
    replace ((rf_join ws * 65536 + x) mod 65536) with x by lia.
    rewrite IH1. split; [reflexivity|lia].
Qed.

Lemma regs_value_bytes c w rs : length rs = N.to_nat w ->
  Forall (fun x => x < 65536) rs ->
  spec_bytes (N.to_nat w) (c_endian c) (c_word c) (rf_regs_value c rs) = be_regs rs /\
  rf_regs_value c rs < 2 ^ (16 * w).
Proof.
  intros Hl Hr. unfold rf_regs_value.
  set (ws := rf_order (c_word c) (map (rf_image (c_endian c)) rs)).
  assert (Hlen : length ws = N.to_nat w).
  { unfold ws. rewrite rf_order_length, map_length. exact Hl. }
  destruct (words_join ws) as [Hwj Hb]; [apply rf_order_Forall, rf_images_lt, Hr|].
  rewrite Hlen in Hwj, Hb. rewrite N2Nat.id in Hb. split; [|exact Hb].
  unfold spec_bytes, layout. rewrite Hwj.
  change (match c_word c with HighFirst => ws | LowFirst => rev ws end) with (rf_order (c_word c) ws).
  unfold ws. rewrite rf_order_invol, layout_regs by (apply rf_images_lt, Hr).
  rewrite rf_images_invol by exact Hr. reflexivity.
Qed.

Lemma regs_value_roundtrip c w v : v < 2 ^ (16 * w) ->
  rf_regs_value c (rf_value_regs c w v) = v.
Proof.
  intros Hv. unfold rf_regs_value, rf_value_regs.
  rewrite rf_images_invol by (apply rf_order_Forall, words_of_lt).
  rewrite rf_order_invol. apply join_words. rewrite N2Nat.id. exact Hv.
Qed.

Lemma padded_cons2 a b t : padded (a :: b :: t) = a :: b :: padded t.
Proof. unfold padded, Nat.odd. cbn [length Nat.even]. destruct (Nat.even (length t)); reflexivity. Qed.

Lemma bytes_image (sw : bool) bs : bytesb bs = true ->
  (if sw then pair_swap (padded bs) else padded bs) = be_regs (rf_bytes_regs sw bs).
Proof.
  induction bs as [|a|a b t IH] using list_ind2; intros Hb.
  - destruct sw; reflexivity.
  - apply bytesb_cons in Hb. destruct Hb as [Ha _]. unfold padded, Nat.odd.
    destruct sw; cbn [length Nat.even negb app pair_swap rf_bytes_regs be_regs flat_map]; list_lia.
  - apply bytesb_cons in Hb. destruct Hb as [Ha Hb]. apply bytesb_cons in Hb. destruct Hb as [Hb' Hb].
    rewrite padded_cons2. specialize (IH Hb).
    destruct sw; cbn [pair_swap rf_bytes_regs be_regs flat_map app]; rewrite IH; unfold be_regs; list_lia.
Qed.

Lemma byte_image_regs c raw bs : bytesb bs = true ->
  spec_byte_image c raw bs = be_regs (rf_bytes_regs (rf_swapped c raw) bs).
Proof.
  intros Hb. rewrite <- image_spec. unfold write_bytes_image, rf_swapped. fold (padded bs).
  destruct raw, (c_endian c); first [exact (bytes_image false bs Hb) | exact (bytes_image true bs Hb)].
Qed.

Lemma rf_bytes_regs_lt sw bs : bytesb bs = true -> Forall (fun x => x < 65536) (rf_bytes_regs sw bs).
Proof.
  induction bs as [|a|a b t IH] using list_ind2; intros Hb; cbn [rf_bytes_regs].
  - constructor.
  - apply bytesb_cons in Hb. destruct Hb as [Ha _]. constructor; [destruct sw; lia|constructor].
  - apply bytesb_cons in Hb. destruct Hb as [Ha Hb]. apply bytesb_cons in Hb. destruct Hb as [Hb' Hb].
    constructor; [destruct sw; lia|apply IH, Hb].
Qed.

Lemma rf_bytes_regs_lenN sw bs : lenN (rf_bytes_regs sw bs) = (lenN bs + 1) / 2.
Proof.
  unfold lenN. induction bs as [|a|a b t IH] using list_ind2; cbn [rf_bytes_regs length] in *.
  - reflexivity.
  - reflexivity.
  - lia.
Qed.

Lemma reg_bytes_plain rs : be_regs rs = flat_map (rf_reg_bytes false) rs.
Proof. reflexivity. Qed.

Lemma reg_bytes_swapped rs : pair_swap (be_regs rs) = flat_map (rf_reg_bytes true) rs.
Proof.
  induction rs as [|r t IH]; [reflexivity|].
  cbn [be_regs flat_map app pair_swap rf_reg_bytes]. fold (be_regs t). rewrite IH. reflexivity.
Qed.

Lemma rf_reg_bytes_roundtrip sw bs : bytesb bs = true ->
  firstn (length bs) (flat_map (rf_reg_bytes sw) (rf_bytes_regs sw bs)) = bs.
Proof.
  induction bs as [|a|a b t IH] using list_ind2; intros Hb.
  - reflexivity.
  - apply bytesb_cons in Hb. destruct Hb as [Ha _].
    destruct sw; cbn [rf_bytes_regs flat_map rf_reg_bytes app length firstn]; list_lia.
  - apply bytesb_cons in Hb. destruct Hb as [Ha Hb]. apply bytesb_cons in Hb. destruct Hb as [Hb' Hb].
    cbn [rf_bytes_regs flat_map app length].
    destruct sw; cbn [rf_reg_bytes app firstn]; rewrite (IH Hb); list_lia.
Qed.

Lemma coil_bytes_lenN l : lenN (spec_coil_bytes l) = (lenN l + 7) / 8.
Proof. rewrite <- encode_bools_spec. apply encode_bools_lenN. Qed.

Lemma coil_bytes_bytes l : bytesb (spec_coil_bytes l) = true.
Proof. rewrite <- encode_bools_spec. apply encode_bools_bytes. Qed.

Lemma coil_bytes_decode l : decode_bools (N.to_nat (lenN l)) (spec_coil_bytes l) = Some l.
Proof. unfold lenN. rewrite Nat2N.id, <- encode_bools_spec. apply decode_encode_bools. Qed.

Lemma coil_bytes_at l i : (i < length l)%nat -> nth i l false = coil_at (spec_coil_bytes l) i.
Proof.
  intros Hi. pose proof (decode_at_encode l i Hi) as H1.
  rewrite <- encode_bools_spec.
  rewrite decode_bool_at_coil in H1; [congruence|].
  rewrite encode_bools_len. apply Nat.div_lt_upper_bound; [lia|].
  pose proof (Nat.div_mod (length l + 7) 8). pose proof (Nat.mod_upper_bound (length l + 7) 8). lia.
Qed.

Lemma e2e_wf_mk c m t : cfg_wf c -> rfmem_wf m -> t < 65536 -> e2e_wf (mke2e c m t []).
Proof. intros Hc Hm Ht. unfold e2e_wf. cbn [e2e_cfg e2e_mem e2e_txn e2e_left]. auto. Qed.

Lemma spec_pdu_wf c o : op_wf o -> cfg_wf c -> valid_op o = true -> pdu_wf (spec_pdu c o).
Proof.
  intros Hwf Hc V. unfold pdu_wf.
  pose proof (client_request_bytes c o (spec_pdu c o) Hwf) as Hb.
  rewrite (client_request_exact c o Hwf), V in Hb. destruct (Hb eq_refl) as (_ & _ & Hbytes).
  split; [exact Hc|]. split; [pose proof (spec_fc_byte o); cbn [spec_pdu p_fc]; lia|].
  split; [exact Hbytes|]. clear Hb Hbytes.
  unfold valid_op in V. cbn [spec_pdu p_payload].
  destruct o as [di a q|w a q rt|raw a q rt|a v|a vs|a v|w a vs|raw a bs];
    cbn [op_wf op_regtype_ok op_count op_limit op_addr spec_payload] in *;
    rewrite ?lenN_app, ?lenN_be16.
  - cbn; lia.
  - cbn; lia.
  - cbn; lia.
  - destruct v; cbn; lia.
  - rewrite coil_bytes_lenN. change (lenN [(lenN vs + 7) / 8]) with 1. lia.
  - unfold lenN. rewrite spec_bytes_len. lia.
  - rewrite spec_regs_len. change (lenN [2 * (w * lenN vs)]) with 1. lia.
  - rewrite <- image_spec, image_len. change (lenN [2 * ((lenN bs + 1) / 2)]) with 1. lia.
Qed.

Lemma mem_handler_wf fail : rf_fail_wf fail -> handler_wf (e2e_mem_handler fail).
Proof.
  intros Hf m r. unfold e2e_mem_handler.
  destruct (e2e_failure (fail r)) as [e|] eqn:Ef.
  - cbn [snd r_regs r_err]. split; [constructor|]. intros code ->.
    apply (Hf r code). destruct (fail r) as [[]|]; cbn [e2e_failure] in Ef; congruence.
  - assert (Hu : forall l, Forall (fun v => v < 65536) (map u16 l)).
    { intros l. apply Forall_forall. intros x Hx. apply in_map_iff in Hx.
      destruct Hx as (y & <- & _). unfold u16. lia. }
    destruct (h_kind r); cbn [snd r_regs r_err]; (split; [first [constructor|apply Hu]|discriminate]).
Qed.

Lemma e2e_serve_frame fail m t p : t < 65536 -> lenN (p_payload p) <= 252 ->
  e2e_serve fail m (spec_mbap t p) =
  let '(m', calls, act) := server_process (e2e_mem_handler fail) m p in
  match act with
  | Respond res => (m', calls, assemble_mbap t res, Stall)
  | CloseLink => (m', calls, [], Closed)
  end.
Proof.
  intros Ht Hl. unfold e2e_serve.
  pose proof (read_spec_mbap Stall t p [] Ht Hl) as Hr. rewrite app_nil_r in Hr.
  rewrite Hr. reflexivity.
Qed.

Lemma e2e_serve_decoded fail m t p r : t < 65536 -> pdu_wf p -> rf_fail_wf fail ->
  spec_decode p = Some r -> in_range r = true ->
  e2e_serve fail m (spec_mbap t p) =
  (fst (e2e_mem_handler fail m r), [r],
   assemble_mbap t (spec_response p r (snd (e2e_mem_handler fail m r))), Stall).
Proof.
  intros Ht Hp Hf Hd Hr. rewrite e2e_serve_frame; [|exact Ht|apply Hp].
  pose proof (server_process_spec (e2e_mem_handler fail) m p Hp (mem_handler_wf fail Hf)) as HS.
  unfold process_ok in HS. destruct (server_process (e2e_mem_handler fail) m p) as [[m' calls] act].
  rewrite Hd, Hr in HS. destruct HS as (-> & _ & -> & ->). reflexivity.
Qed.

Lemma cr_txn_ok c txn o e s req : client_request c o = Ok req ->
  cr_txn (client_call FMbap c txn o e s) = u16 (txn + 1).
Proof.
  intros H. unfold client_call, transport_exchange. rewrite H.
  destruct (mbap_read_response (S (length s)) e (u16 (txn + 1)) s) as [r rest].
  destruct r as [res|x| |]; try reflexivity. destruct (unit_check req res); reflexivity.
Qed.

Lemma be2_be16 x : x < 65536 -> be2 (x / 256 mod 256) (x mod 256) = x.
Proof. unfold be2. lia. Qed.

Lemma lenN_be_regs l : lenN (be_regs l) = 2 * lenN l.
Proof. unfold lenN, be_regs. rewrite (flat_map_length_const _ 2) by reflexivity. lia. Qed.

Lemma rf_request_addr c o : h_addr (rf_request c o) = op_addr o.
Proof. destruct o; reflexivity. Qed.

Lemma rf_request_qty c o : h_qty (rf_request c o) = op_count o.
Proof. destruct o; reflexivity. Qed.

Lemma rf_request_range c o : valid_op o = true -> in_range (rf_request c o) = true.
Proof.
  intros V. unfold in_range. rewrite rf_request_addr, rf_request_qty. unfold valid_op in V. lia.
Qed.

Lemma decode_request c o : op_wf o -> valid_op o = true ->
  spec_decode (spec_pdu c o) = Some (rf_request c o).
Proof.
  intros Hwf V. unfold valid_op in V. unfold spec_pdu.
  destruct o as [di a q|w a q rt|raw a q rt|a v|a vs|a v|w a vs|raw a bs];
    cbn [op_wf op_regtype_ok op_count op_limit op_addr spec_fc spec_payload rf_request] in *.
  - destruct di; cbn [spec_decode p_unit p_fc p_payload be16 app]; rewrite !be2_be16 by lia;
      (replace ((1 <=? q) && (q <=? 2000)) with true by lia); reflexivity.
  - destruct rt; try discriminate V; cbn [spec_decode p_unit p_fc p_payload be16 app rf_kind];
      rewrite !be2_be16 by lia; (replace ((1 <=? q * w) && (q * w <=? 125)) with true by lia); reflexivity.
  - destruct rt; try discriminate V; cbn [spec_decode p_unit p_fc p_payload be16 app rf_kind];
      rewrite !be2_be16 by lia;
      (replace ((1 <=? (q + 1) / 2) && ((q + 1) / 2 <=? 125)) with true by lia); reflexivity.
  - destruct v; cbn [spec_decode p_unit p_fc p_payload be16 app]; rewrite !be2_be16 by lia; reflexivity.
  - cbn [spec_decode p_unit p_fc p_payload be16 app].
    rewrite !be2_be16 by lia. rewrite coil_bytes_lenN, !N.eqb_refl.
    replace ((1 <=? lenN vs) && (lenN vs <=? 1968)) with true by lia. cbn [andb].
    rewrite coil_bytes_decode. reflexivity.
  - (* one register: two data bytes *)
    change 1%nat with (N.to_nat 1). rewrite spec_bytes_regs.
    pose proof (rf_value_regs_length c 1 v) as Hl. pose proof (rf_value_regs_lt c 1 v) as Hlt.
    destruct (rf_value_regs c 1 v) as [|x [|y t]]; try discriminate Hl. inversion Hlt; subst.
    cbn [spec_decode p_unit p_fc p_payload be16 app be_regs flat_map].
    rewrite be2_be16 by lia. unfold be2. replace (x / 256 * 256 + x mod 256) with x by lia. reflexivity.
  - rewrite spec_bytes_regs_list. cbn [spec_decode p_unit p_fc p_payload be16 app].
    rewrite !be2_be16 by lia. rewrite lenN_be_regs, rf_values_regs_lenN, !N.eqb_refl.
    replace ((1 <=? w * lenN vs) && (w * lenN vs <=? 123)) with true by lia. cbn [andb].
    rewrite dec_be_regs by apply rf_values_regs_lt. reflexivity.
  - rewrite byte_image_regs by apply Hwf. cbn [spec_decode p_unit p_fc p_payload be16 app].
    rewrite !be2_be16 by lia. rewrite lenN_be_regs, rf_bytes_regs_lenN, !N.eqb_refl.
    replace ((1 <=? (lenN bs + 1) / 2) && ((lenN bs + 1) / 2 <=? 123)) with true by lia. cbn [andb].
    rewrite dec_be_regs by (apply rf_bytes_regs_lt; apply Hwf). reflexivity.
Qed.

Lemma handler_nofail f : rf_failure f = None -> e2e_failure f = None.
Proof. destruct f as [[]|]; cbn; congruence. Qed.

Lemma handler_fail f code : (forall c, f = Some (HModbus c) -> documented_exception c = true) ->
  rf_failure f = Some code ->
  documented_exception code = true /\
  exists e, e2e_failure f = Some e /\
    forall p r, spec_response p r (mkhres [] [] e) = spec_exception p code.
Proof.
  intros Hdoc. destruct f as [[|c| |]|]; cbn [rf_failure e2e_failure]; intros H; try discriminate H;
    injection H as <-; (split; [first [reflexivity|apply Hdoc; reflexivity]|]);
    eexists; (split; [reflexivity|]); intros p r; reflexivity.
Qed.

Lemma read_values c (tbl : N -> N) w : (forall k, tbl k < 65536) ->
  forall n a,
  let xs := map (fun i => rf_regs_value c (cells_load tbl (a + N.of_nat i * w) w)) (seq 0 n) in
  be_regs (cells_load tbl a (N.of_nat n * w)) =
    flat_map (spec_bytes (N.to_nat w) (c_endian c) (c_word c)) xs /\
  Forall (fun v => v < 2 ^ (16 * w)) xs.
Proof.
  intros Ht n. induction n as [|n IH]; intros a xs; subst xs.
  - cbn [seq map flat_map]. change (N.of_nat 0 * w) with (0 * w). rewrite N.mul_0_l.
    split; [reflexivity|constructor].
  - replace (N.of_nat (S n) * w) with (w + N.of_nat n * w) by lia.
    rewrite cells_load_app, be_regs_app. cbn [seq map flat_map].
    rewrite <- seq_shift, map_map.
    destruct (IH (a + w)) as [IH1 IH2]. cbv zeta in IH1, IH2.
    assert (Hext : map (fun i => rf_regs_value c (cells_load tbl (a + N.of_nat (S i) * w) w)) (seq 0 n) =
                   map (fun i => rf_regs_value c (cells_load tbl (a + w + N.of_nat i * w) w)) (seq 0 n)).
    { apply map_ext. intros i. f_equal. f_equal. lia. }
    rewrite Hext, IH1.
    replace (a + N.of_nat 0 * w) with a by lia.
    destruct (regs_value_bytes c w (cells_load tbl a w) (cells_load_length tbl a w)
                (cells_load_Forall _ tbl a w Ht)) as [Hb Hlt].
    rewrite Hb. split; [reflexivity|]. constructor; [exact Hlt|exact IH2].
Qed.

Lemma bools_read fail m p (di : bool) u a n :
  let r := mkhreq (if di then HDiscrete else HCoils) u a n false [] [] in
  e2e_failure (fail r) = None ->
  let l := cells_load (if di then rf_discrete m else rf_coils m) a n in
  fst (e2e_mem_handler fail m r) = m /\
  spec_response p r (snd (e2e_mem_handler fail m r)) = mkpdu (p_unit p) (p_fc p) ((n + 7) / 8 :: spec_coil_bytes l).
Proof.
  intros r E l. unfold e2e_mem_handler. rewrite E. unfold spec_response. subst r l.
  destruct di; cbn [h_kind h_write h_addr h_qty fst snd r_err r_bools]; rewrite cells_load_lenN, N.eqb_refl;
    split; reflexivity.
Qed.

(* n <= 127 keeps the byte count 2 * n a byte *)
Lemma regs_read fail m p rt u a n :
  let r := mkhreq (rf_kind rt) u a n false [] [] in
  e2e_failure (fail r) = None -> rfmem_wf m -> n <= 127 ->
  let regs := cells_load (rf_table m rt) a n in
  fst (e2e_mem_handler fail m r) = m /\
  spec_response p r (snd (e2e_mem_handler fail m r)) = mkpdu (p_unit p) (p_fc p) (2 * n :: be_regs regs) /\
  bytesb (2 * n :: be_regs regs) = true.
Proof.
  intros r E Hm Hn regs.
  assert (Hregs : Forall (fun v => v < 65536) regs).
  { apply cells_load_Forall. intros k. destruct rt; apply Hm. }
  assert (Hh : e2e_mem_handler fail m r = (m, mkhres [] regs HNone)).
  { unfold e2e_mem_handler. rewrite E. subst regs.
    destruct rt; cbn [r h_kind rf_kind h_write h_addr h_qty rf_table] in *; rewrite map_u16_id by exact Hregs;
      reflexivity. }
  rewrite Hh. split; [reflexivity|]. split; [|apply bytesb_cons_intro; [lia|apply be_regs_bytes, Hregs]].
  unfold spec_response. cbn [snd r_err r_regs r h_write h_qty]. subst regs.
  rewrite cells_load_lenN, N.eqb_refl. destruct rt; reflexivity.
Qed.

Lemma handler_answers fail c m o : op_wf o -> cfg_wf c -> valid_op o = true -> rfmem_wf m ->
  rf_failure (fail (rf_request c o)) = None ->
  let hr := e2e_mem_handler fail m (rf_request c o) in
  let res := spec_response (spec_pdu c o) (rf_request c o) (snd hr) in
  fst hr = rf_commit c m o /\ answers c o res (rf_read c m o) /\ bytesb (p_payload res) = true.
Proof.
  intros Hwf Hc V Hm Hnf hr res. subst res hr. apply handler_nofail in Hnf.
  destruct (is_write o) eqn:W.
  - (* the writes: the response echoes the first four bytes of the request *)
    pose proof (spec_pdu_wf c o Hwf Hc V) as (_ & _ & Hpb & _).
    assert (Hh : fst (e2e_mem_handler fail m (rf_request c o)) = rf_commit c m o /\
                 r_err (snd (e2e_mem_handler fail m (rf_request c o))) = HNone /\
                 h_write (rf_request c o) = true /\ rf_read c m o = VUnit).
    { unfold e2e_mem_handler. rewrite Hnf. destruct o; try discriminate W; repeat split; reflexivity. }
    destruct Hh as (Hfst & He & Hw & ->). rewrite (spec_response_write _ _ _ He Hw).
    split; [exact Hfst|]. split; [|apply bytesb_firstn, Hpb].
    apply answers_write; [exact W|]. repeat split; reflexivity.
  - unfold valid_op in V.
    destruct o as [di a q|w a q rt|raw a q rt| | | | |]; try discriminate W;
      cbn [op_wf op_regtype_ok op_count op_limit op_addr rf_request rf_commit rf_read] in *.
    + destruct (bools_read fail m (spec_pdu c (OpReadBools di a q)) di (c_unit c) a q Hnf) as (-> & ->).
      split; [reflexivity|]. split; [|apply bytesb_cons_intro; [lia|apply coil_bytes_bytes]].
      split; [reflexivity|]. split; [reflexivity|]. cbn [p_payload].
      eexists _, _. split; [|split; [|split; [reflexivity|split; [apply cells_load_lenN|]]]].
      * rewrite coil_bytes_lenN, cells_load_lenN. reflexivity.
      * rewrite coil_bytes_lenN, cells_load_lenN. reflexivity.
      * intros i Hi. apply coil_bytes_at. exact Hi.
    + (* typed register reads: the registers carry the values of the register file *)
      destruct Hwf as (Hw & Ha & Hq).
      destruct (regs_read fail m (spec_pdu c (OpReadRegs w a q rt)) rt (c_unit c) a (q * w) Hnf Hm)
        as (-> & -> & Hbytes); [lia|].
      split; [reflexivity|]. split; [|exact Hbytes]. split; [reflexivity|]. split; [reflexivity|].
      destruct (read_values c (rf_table m rt) w) with (n := N.to_nat q) (a := a) as [Hb Hlt];
        [intros k; destruct rt; apply Hm|].
      cbv zeta in Hb, Hlt. rewrite N2Nat.id in Hb.
      eexists. cbn [p_payload]. split; [rewrite Hb; reflexivity|].
      split; [unfold lenN; rewrite map_length, seq_length; lia|]. split; [exact Hlt|reflexivity].
    + destruct (regs_read fail m (spec_pdu c (OpReadBytes raw a q rt)) rt (c_unit c) a ((q + 1) / 2) Hnf Hm)
        as (-> & -> & Hbytes); [lia|].
      split; [reflexivity|]. split; [|exact Hbytes]. split; [reflexivity|]. split; [reflexivity|].
      eexists. cbn [p_payload op_count]. split; [reflexivity|].
      split; [rewrite lenN_be_regs, cells_load_lenN; reflexivity|].
      unfold rf_swapped. destruct raw, (c_endian c); rewrite ?reg_bytes_swapped; reflexivity.
Qed.

Lemma e2e_call_served fail s o : e2e_wf s -> op_wf o -> rf_fail_wf fail -> valid_op o = true ->
  let r := rf_request (e2e_cfg s) o in
  let hr := e2e_mem_handler fail (e2e_mem s) r in
  let res := spec_response (spec_pdu (e2e_cfg s) o) r (snd hr) in
  let cl := client_call FMbap (e2e_cfg s) (e2e_txn s) o Stall
              (spec_frame FMbap (u16 (e2e_txn s + 1)) res) in
  e2e_call fail s o = (mke2e (e2e_cfg s) (fst hr) (u16 (e2e_txn s + 1)) (cr_rest cl), (cr_res cl, [r])).
Proof.
  intros (Hc & Hm & Ht & Hleft) Hwf Hf V r hr res cl. unfold e2e_call.
  destruct (client_transmit FMbap (e2e_cfg s) (e2e_txn s) o Stall (e2e_left s) Hwf Hc Ht) as [Hw _].
  cbv zeta in Hw. rewrite (Hw V). cbn [concat]. rewrite app_nil_r.
  pose proof (e2e_serve_decoded fail (e2e_mem s) (u16 (e2e_txn s + 1)) (spec_pdu (e2e_cfg s) o) r) as Hsrv.
  change (spec_mbap ?t ?p) with (spec_frame FMbap t p) in Hsrv.
  rewrite Hsrv, assemble_mbap_is_spec, Hleft;
    [|unfold u16; lia|apply spec_pdu_wf; assumption|exact Hf|apply decode_request; assumption
     |apply rf_request_range, V].
  pose proof (client_request_exact (e2e_cfg s) o Hwf) as Hreq. rewrite V in Hreq.
  cbn [app]. rewrite (cr_txn_ok _ _ _ _ _ _ Hreq). reflexivity.
Qed.

Lemma rf_commit_wf c m o : op_wf o -> rfmem_wf m -> rfmem_wf (rf_commit c m o).
Proof.
  intros Hwf Hm k. destruct (Hm k) as [H1 H2].
  assert (Hh : forall j, rf_holding m j < 65536) by (intros j; apply Hm).
  destruct o as [di a q|w a q rt|raw a q rt|a v|a vs|a v|w a vs|raw a bs];
    cbn [rf_commit rf_holding rf_input]; (split; [|exact H2]); try exact H1.
  - apply cells_store_bound; [exact Hh|apply rf_value_regs_lt].
  - apply cells_store_bound; [exact Hh|apply rf_values_regs_lt].
  - apply cells_store_bound; [exact Hh|apply rf_bytes_regs_lt, Hwf].
Qed.

Lemma e2e_call_refines fail s o : e2e_wf s -> op_wf o -> rf_fail_wf fail ->
  fst (e2e_call fail s o) =
    mke2e (fst (fst (rf_step fail (e2e_view s) (RfCall o)))) (snd (fst (rf_step fail (e2e_view s) (RfCall o))))
          (if valid_op o then u16 (e2e_txn s + 1) else e2e_txn s) [] /\
  snd (e2e_call fail s o) = snd (rf_step fail (e2e_view s) (RfCall o)) /\
  e2e_wf (fst (e2e_call fail s o)).
Proof.
  intros Hs Hwf Hf. pose proof Hs as (Hc & Hm & Ht & Hleft).
  unfold e2e_view. cbn [rf_step].
  destruct (valid_op o) eqn:V.
  - rewrite (e2e_call_served fail s o Hs Hwf Hf V). cbv zeta. cbn [fst snd].
    assert (Htx : u16 (e2e_txn s + 1) < 65536) by (unfold u16; lia).
    destruct (rf_failure (fail (rf_request (e2e_cfg s) o))) as [code|] eqn:Ef.
    + (* the handler fails: the client sees the exception reply *)
      destruct (handler_fail _ code (Hf _) Ef) as (Hdoc & e & He & Hresp).
      replace (e2e_mem_handler fail (e2e_mem s) (rf_request (e2e_cfg s) o)) with (e2e_mem s, mkhres [] [] e)
        by (unfold e2e_mem_handler; rewrite He; reflexivity).
      cbn [fst snd]. rewrite Hresp.
      assert (Hcode : code < 256).
      { unfold documented_exception, mem in Hdoc. cbn [existsb] in Hdoc. lia. }
      destruct (client_exception_gen FMbap (e2e_cfg s) (e2e_txn s) o Stall
                  (spec_exception (spec_pdu (e2e_cfg s) o) code) code [] [] Hwf Hc V Hcode) as [H1 H2];
        [split; [left; reflexivity|split; [apply err_fc_small, spec_fc_byte|reflexivity]]
        |split; [exact Ht|constructor]|].
      cbn [concat app] in H1, H2. rewrite app_nil_r in H1, H2. rewrite H1, H2, Hdoc.
      split; [reflexivity|]. split; [reflexivity|]. apply e2e_wf_mk; assumption.
    + (* the handler answers: the client accepts the reply *)
      destruct (handler_answers fail (e2e_cfg s) (e2e_mem s) o Hwf Hc V Hm Ef) as (Hfst & Hans & Hb).
      destruct (client_complete_mbap (e2e_cfg s) (e2e_txn s) o Stall _ _ [] [] Hwf Hc Ht V Hb Hans
                  (Forall_nil _)) as [H1 H2].
      cbn [concat app] in H1, H2. rewrite app_nil_r in H1, H2. rewrite H1, H2, Hfst.
      split; [reflexivity|]. split; [reflexivity|].
      apply e2e_wf_mk; [exact Hc|apply rf_commit_wf; assumption|exact Htx].
  - (* rejected locally: nothing is sent, nothing happens *)
    pose proof (client_request_exact (e2e_cfg s) o Hwf) as Hreq. rewrite V in Hreq.
    unfold e2e_call. rewrite (client_call_rejected FMbap _ _ _ _ _ _ Hreq).
    cbn [cr_writes concat e2e_serve]. rewrite app_nil_r, (client_call_rejected FMbap _ _ _ _ _ _ Hreq).
    cbn [cr_res cr_rest cr_txn fst snd]. rewrite Hleft.
    split; [reflexivity|]. split; [reflexivity|]. apply e2e_wf_mk; assumption.
Qed.

Lemma set_encoding_spec c e w :
  e2e_set_encoding c e w =
  match rf_endian e, rf_wordorder w with
  | Some e', Some w' => Ok (mkcfg (c_unit c) e' w')
  | _, _ => Err EParams
  end.
Proof.
  unfold e2e_set_encoding, rf_endian, rf_wordorder.
  destruct (e =? 1); [|destruct (e =? 2)]; cbn [negb andb]; try reflexivity;
    (destruct (w =? 1); [|destruct (w =? 2)]); reflexivity.
Qed.

(* T1: one step of the composition is one step of the register file *)
Lemma e2e_step_refines : forall fail s x, e2e_wf s -> rf_op_wf x -> rf_fail_wf fail ->
  (e2e_view (fst (e2e_step fail s x)), snd (e2e_step fail s x)) = rf_step fail (e2e_view s) x /\
  e2e_wf (fst (e2e_step fail s x)).
Proof.
  intros fail s x Hs Hx Hf. destruct x as [o|u|e w]; cbn [e2e_step rf_op_wf] in *.
  - destruct (e2e_call_refines fail s o Hs Hx Hf) as (H1 & H2 & H3).
    split; [|exact H3]. rewrite H1, H2. unfold e2e_view at 1. cbn [e2e_cfg e2e_mem].
    destruct (rf_step fail (e2e_view s) (RfCall o)) as [[c' m'] out]. reflexivity.
  - destruct Hs as (Hc & Hm & Ht & Hl). cbn [fst snd]. split; [reflexivity|].
    unfold e2e_wf, cfg_wf. cbn [e2e_cfg e2e_mem e2e_txn e2e_left c_unit]. auto.
  - rewrite set_encoding_spec. unfold e2e_view. cbn [rf_step].
    destruct Hs as (Hc & Hm & Ht & Hl).
    destruct (rf_endian e) as [e'|]; [destruct (rf_wordorder w) as [w'|]|]; cbn [fst snd e2e_cfg e2e_mem];
      (split; [reflexivity|]); unfold e2e_wf, cfg_wf in *; cbn [e2e_cfg e2e_mem e2e_txn e2e_left c_unit]; auto.
Qed.

(* T2: histories *)
Lemma e2e_run_refines : forall h s, e2e_wf s -> rf_history_wf h ->
  (e2e_view (fst (e2e_run s h)), snd (e2e_run s h)) = rf_run (e2e_view s) h /\
  e2e_wf (fst (e2e_run s h)).
Proof.
  induction h as [|[fail x] t IH]; intros s Hs Hh.
  - cbn [e2e_run rf_run fst snd]. split; [reflexivity|exact Hs].
  - inversion Hh as [|? ? [Hf Hx] Ht]; subst. cbn [fst snd] in Hf, Hx.
    cbn [e2e_run rf_run].
    destruct (e2e_step_refines fail s x Hs Hx Hf) as [H1 H2].
    destruct (e2e_step fail s x) as [s1 out] eqn:E1. cbn [fst snd] in H1, H2.
    rewrite <- H1.
    destruct (IH s1 H2 Ht) as [H3 H4].
    destruct (e2e_run s1 t) as [s2 outs] eqn:E2. cbn [fst snd] in H3, H4.
    rewrite <- H3. cbn [fst snd]. split; [reflexivity|exact H4].
Qed.

Lemma rf_nofail_wf : rf_fail_wf rf_nofail.
Proof. intros r code H. discriminate H. Qed.

Lemma e2e_two_calls s o1 o2 : e2e_wf s -> op_wf o1 -> op_wf o2 ->
  valid_op o1 = true -> valid_op o2 = true ->
  fst (snd (e2e_step rf_nofail (fst (e2e_step rf_nofail s (RfCall o1))) (RfCall o2))) =
  Ok (rf_read (e2e_cfg s) (rf_commit (e2e_cfg s) (e2e_mem s) o1) o2).
Proof.
  intros Hs H1 H2 V1 V2.
  destruct (e2e_step_refines rf_nofail s (RfCall o1) Hs H1 rf_nofail_wf) as [E1 Hs1].
  set (s1 := fst (e2e_step rf_nofail s (RfCall o1))) in *.
  destruct (e2e_step_refines rf_nofail s1 (RfCall o2) Hs1 H2 rf_nofail_wf) as [E2 _].
  unfold e2e_view at 2 in E1. cbn [rf_step] in E1. rewrite V1 in E1. cbn [rf_nofail rf_failure] in E1.
  apply (f_equal fst) in E1. cbn [fst] in E1. rewrite E1 in E2. cbn [rf_step] in E2. rewrite V2 in E2.
  cbn [rf_nofail rf_failure] in E2. apply (f_equal (fun p => fst (snd p))) in E2. cbn [fst snd] in E2.
  exact E2.
Qed.

Lemma read_after_write_values c (tbl : N -> N) w a vs : Forall (fun v => v < 2 ^ (16 * w)) vs ->
  map (fun i => rf_regs_value c
                  (cells_load (cells_store tbl a (flat_map (rf_value_regs c w) vs)) (a + N.of_nat i * w) w))
      (seq 0 (length vs)) = vs.
Proof.
  intros Hvs. transitivity (firstn (length vs) vs); [|apply firstn_all].
  rewrite <- (map_nth_seq vs 0 (length vs)) by lia.
  apply map_ext_in. intros i Hi. apply in_seq in Hi.
  rewrite cells_load_store_sub.
  - replace (N.to_nat (N.of_nat i * w)) with (i * N.to_nat w)%nat by lia.
    rewrite (flat_chunk (rf_value_regs c w) (N.to_nat w) 0) by (try apply rf_value_regs_length; lia).
    apply regs_value_roundtrip.
    rewrite Forall_forall in Hvs. apply Hvs. apply nth_In. lia.
  - rewrite rf_values_regs_lenN. unfold lenN. nia.
Qed.

(* T3: what was written is read back bit for bit *)
Lemma e2e_write_read s o o' vs : readback o = Some (o', vs) -> e2e_wf s -> op_wf o -> valid_op o = true ->
  fst (snd (e2e_step rf_nofail (fst (e2e_step rf_nofail s (RfCall o))) (RfCall o'))) = Ok vs.
Proof.
  intros Hrb Hs Hwf V.
  assert (H2 : op_wf o' /\ valid_op o' = true).
  { unfold valid_op in *.
    destruct o as [| | |a v|a l|a v|w a l|raw a bs]; try discriminate Hrb; injection Hrb as <- <-;
      cbn [op_wf op_regtype_ok op_count op_limit op_addr] in *; lia. }
  rewrite (e2e_two_calls s o o' Hs Hwf (proj1 H2) V (proj2 H2)). f_equal. clear H2.
  destruct o as [| | |a v|a l|a v|w a l|raw a bs]; try discriminate Hrb; injection Hrb as <- <-;
    cbn [rf_read rf_commit rf_table rf_coils rf_holding].
  - exact (f_equal VBools (cells_load_store (rf_coils (e2e_mem s)) a [v])).
  - rewrite cells_load_store. reflexivity.
  - pose proof (read_after_write_values (e2e_cfg s) (rf_holding (e2e_mem s)) 1 a [v]) as H.
    cbn [flat_map length] in H. rewrite app_nil_r in H. change (N.to_nat 1) with 1%nat.
    rewrite H; [reflexivity|constructor; [pow_consts; cbn [op_wf] in Hwf; lia|constructor]].
  - destruct Hwf as (_ & _ & Hl). unfold lenN at 1. rewrite Nat2N.id, read_after_write_values by exact Hl.
    reflexivity.
  - rewrite <- (rf_bytes_regs_lenN (rf_swapped (e2e_cfg s) raw) bs), cells_load_store.
    unfold lenN at 1. rewrite Nat2N.id, rf_reg_bytes_roundtrip by apply Hwf. reflexivity.
Qed.
