(* Proofs about Model/TimingLine.v: delays derived from the real length of a
   character shorter than eleven bits would be strictly too short below
   19200 bps. *)
From Modbus Require Import Base.Bytes Model.Timing Model.TimingLine Spec.TimingSpec Proofs.TimingP.
Local Open Scope Z_scope.

(* delays computed from the real length of a character on the line: what the
   specification does NOT ask for *)
Definition framed_char_time (c : line_cfg) : Z := Z.quot (line_char_bits c * second_ns) (lc_speed c).
Definition framed_t35 (c : line_cfg) : Z := Z.quot (framed_char_time c * 35) 10.

Lemma framed_short : forall c, 1 <= lc_speed c -> lc_speed c < 19200 ->
  0 <= line_char_bits c -> line_char_bits c < 11 ->
  framed_char_time c < open_t1 c /\ framed_t35 c < open_t35 c /\
  silence_okb c (framed_t35 c) = false.
Proof.
  intros c H1 H2 Hb0 Hb.
  assert (Hct : framed_char_time c < open_t1 c).
  { unfold framed_char_time, open_t1, second_ns.
    rewrite char_time_div by lia.
    rewrite Z.quot_div_nonneg by lia.
    remember (lc_speed c) as r. remember (line_char_bits c) as b.
    pose proof (Z.mul_div_le (b * 1000000000) r ltac:(lia)) as Hlo.
    pose proof (Z.mul_succ_div_gt (11 * 1000000000) r ltac:(lia)) as Hhi.
    assert (Hpos : 0 <= b * 1000000000 / r) by (apply Z.div_pos; lia).
    (* b <= 10: the numerators differ by at least 10^9 > r, so the floors differ *)
    nia. }
  assert (H0 : 0 <= framed_char_time c).
  { unfold framed_char_time, second_ns. rewrite Z.quot_div_nonneg by lia. apply Z.div_pos; lia. }
  assert (Ht : framed_t35 c < open_t35 c).
  { unfold framed_t35, open_t35. rewrite t35_low_div by lia.
    rewrite Z.quot_div_nonneg by lia. unfold open_t1 in Hct. lia. }
  repeat split; try assumption.
  unfold silence_okb. apply Z.leb_gt. exact Ht.
Qed.
