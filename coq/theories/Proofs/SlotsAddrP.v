(* The slot accounting of Model/Slots.v is by connection identity: for every
   labelling of the connections (source address or anything else they may
   share), enrolling a connection takes one more slot even when a member of the
   list carries its label, and the removal of a connection gives back its own
   slot and leaves every other member - same label or not - where it was. *)
From Coq Require Import List Arith Bool Lia Permutation.
Import ListNotations.
From Modbus Require Import Model.Slots Proofs.SlotsP Model.SlotsVisit Proofs.SlotsVisitP Model.SlotsAddr.

Lemma filter_perm_length {A} (p : A -> bool) l l' : Permutation l l' ->
  length (filter p l) = length (filter p l').
Proof.
  induction 1 as [|x l l' _ IH|x y l|l l' l'' _ IH1 _ IH2]; cbn [filter].
  - reflexivity.
  - destruct (p x); cbn [length]; rewrite IH; reflexivity.
  - destruct (p x), (p y); reflexivity.
  - rewrite IH1. exact IH2.
Qed.

(* what shared_label (Model/SlotsAddr.v) decides *)
Lemma has_dup_map (f : conn -> alabel) l : NoDup l ->
  (has_dup (map f l) = true <->
   exists c d, c <> d /\ In c l /\ In d l /\ f c = f d).
Proof.
  induction l as [|x t IH]; intros Hnd; cbn [map has_dup].
  - split; [discriminate|]. intros (c & d & _ & [] & _).
  - inversion Hnd as [|? ? Hx Ht]; subst. rewrite orb_true_iff, (IH Ht), existsb_exists. split.
    + intros [(y & Hy & E)|(c & d & Hne & Hc & Hd & E)].
      * apply Nat.eqb_eq in E. apply in_map_iff in Hy as (d & Ed & Hd).
        exists x, d. repeat split; [intros ->; contradiction|left; reflexivity|right; exact Hd|congruence].
      * exists c, d. repeat split; [exact Hne|right; exact Hc|right; exact Hd|exact E].
    + intros (c & d & Hne & [->|Hc] & [->|Hd] & E).
      * contradiction.
      * left. exists (f d). split; [apply in_map, Hd|apply Nat.eqb_eq, E].
      * left. exists (f c). split; [apply in_map, Hc|apply Nat.eqb_eq; symmetry; exact E].
      * right. exists c, d. repeat split; assumption.
Qed.

Lemma label_enrol (f : conn -> alabel) s c d : Inv s -> In c (clients s) ->
  stat s d = Taken -> started s = true -> length (clients s) < maxc s -> f d = f c ->
  let s1 := step s (Enrol d) in
  stat s1 d = Serving /\ In d (clients s1) /\ In c (clients s1) /\ stat s1 c = stat s c /\
  length (clients s1) = S (length (clients s)) /\
  length (at_label f (f c) s1) = S (length (at_label f (f c) s)).
Proof.
  intros I Hc Ht Hst Hlt Hf. cbn zeta.
  assert (Hne : c <> d) by (intros ->; apply (not_client s d I) in Hc; [exact Hc|rewrite Ht; reflexivity]).
  rewrite (step_enrol s d Ht). rewrite Hst. apply Nat.ltb_lt in Hlt. rewrite Hlt.
  cbn [andb stat clients]. unfold at_label. cbn [clients].
  rewrite upd_same, upd_other by exact Hne. repeat split.
  - apply in_elt.
  - apply in_or_app. left. exact Hc.
  - rewrite app_length. cbn [length]. lia.
  - rewrite filter_app, app_length. cbn [filter]. rewrite Hf, Nat.eqb_refl. cbn [length]. lia.
Qed.

Lemma label_remove (f : conn -> alabel) s c : Inv s -> stat s c = Ended ->
  let s1 := step s (Remove c) in
  (forall d, d <> c -> In d (clients s) ->
     In d (clients s1) /\ stat s1 d = stat s d /\ closed s1 d = closed s d) /\
  ~ In c (clients s1) /\
  S (length (clients s1)) = length (clients s) /\
  S (length (at_label f (f c) s1)) = length (at_label f (f c) s) /\
  (forall a, a <> f c -> length (at_label f a s1) = length (at_label f a s)).
Proof.
  intros I He. cbn zeta.
  assert (Hin : In c (clients s)) by (apply (inv_members s I); right; exact He).
  pose proof (inv_nodup s I) as Hnd.
  rewrite (step_remove s c He). unfold at_label. cbn [clients stat closed].
  pose proof (remove_swap_perm c _ Hin) as P.
  repeat split.
  - apply remove_swap_in; [exact Hnd|exact Hin|]. split; assumption.
  - apply upd_other. assumption.
  - apply upd_other. assumption.
  - apply (remove_swap_nodup c _ Hnd Hin).
  - apply remove_swap_length. exact Hin.
  - rewrite (filter_perm_length _ _ _ P). cbn [filter]. rewrite Nat.eqb_refl. reflexivity.
  - intros a Ha. rewrite (filter_perm_length _ _ _ P). cbn [filter].
    destruct (Nat.eqb (f c) a) eqn:E; [apply Nat.eqb_eq in E; congruence|reflexivity].
Qed.

Lemma label_comeback (f : conn -> alabel) s c d w : Inv s -> started s = true -> 0 < acceptors s ->
  stat s c = Serving -> stat s d = Fresh -> w <> ClosedByStop ->
  length (clients s) < maxc s -> f d = f c ->
  let s1 := run s (comeback c d w) in
  Inv s1 /\ stat s1 d = Serving /\ In d (clients s1) /\ stat s1 c = Removed /\ ~ In c (clients s1) /\
  length (clients s1) = length (clients s) /\
  length (at_label f (f c) s1) = length (at_label f (f c) s) /\
  (forall x, x <> c -> x <> d -> stat s1 x = stat s x).
Proof.
  intros I Hst Ha Hs Hfr Hw Hlt Hf. cbn zeta. unfold comeback. rewrite slots_run_app.
  assert (Hne : c <> d) by (intros ->; congruence).
  destruct (arrival_eff s d I Hst Ha Hfr) as (A1 & A2 & A3 & A4 & A5 & A6 & _).
  destruct (A6 Hlt) as (A7 & A8).
  set (sa := run s (arrival d)) in *.
  assert (Ia : Inv sa) by (apply inv_run; exact I).
  assert (Hsa : stat sa c = Serving) by (rewrite A5 by exact Hne; exact Hs).
  destruct (departure_frees sa c w Ia Hsa Hw) as (P & D2 & D3 & D4 & D5 & D6 & D7 & D8).
  set (s1 := run sa (departure c w)) in *.
  assert (I1 : Inv s1) by (apply inv_run; exact Ia).
  assert (Hd1 : stat s1 d = Serving) by (rewrite D8 by congruence; exact A8).
  split; [exact I1|]. repeat split.
  - exact Hd1.
  - apply (inv_members s1 I1). left. exact Hd1.
  - exact D2.
  - apply not_client; [exact I1|rewrite D2; reflexivity].
  - apply Permutation_length in P. rewrite A7, app_length in P. cbn [length] in P. lia.
  - pose proof (filter_perm_length (fun x => Nat.eqb (f x) (f c)) _ _ P) as E.
    unfold at_label. rewrite A7, filter_app, app_length in E. cbn [filter] in E.
    rewrite Hf, !Nat.eqb_refl in E. cbn [length] in E. lia.
  - intros x Hxc Hxd. rewrite D8 by exact Hxc. apply A5. exact Hxd.
Qed.
