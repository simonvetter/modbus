(* Proofs about Model/Chunks.v: io.ReadFull over any connection whose single
   Reads deliver the stream in order agrees with read_full over the flat
   stream, and so does every reader written over such a full reader. The
   agreement is proved once, for the loop of Model/TailErr.v whose Reads may
   report the end together with bytes (rde_ok); Model/Chunks.v is its instance. *)
From Modbus Require Import Base.Bytes Model.Crc Model.Encoding Model.Wire Model.Client Model.Server
  Model.Chunks Model.TailErr Spec.ModbusSpec Spec.ServerSpec Spec.ServerSessionSpec Spec.SegmentSpec
  Proofs.ServerP.

Definition rdf_ok {T : Type} (rdf : nat -> T -> grf T) (flat : T -> list N) : Prop :=
  forall n s,
    match rdf n s with
    | GFull g r => read_full n (flat s) = RFull g (flat r)
    | GShort g r => read_full n (flat s) = RShort g /\ flat r = []
    end.

Section ReadFullE.
  Context {T : Type} (rd : nat -> T -> rde_res T) (flat : T -> list N) (measure : T -> nat).

  (* one Read delivers a prefix of the stream, no more than asked for; a Read
     of 0 bytes without error uses up some finite resource; once a Read has
     reported the end nothing is left *)
  Definition rde_ok : Prop := forall n s, (0 < n)%nat ->
    match rd n s with
    | RdE got fin s' =>
        flat s = got ++ flat s' /\ (length got <= n)%nat /\
        if fin then flat s' = []
        else (measure s' <= measure s)%nat /\ (got = [] -> (measure s' < measure s)%nat)
    end.

  Lemma io_read_full_e_ok : rde_ok -> forall fuel n acc s, (n + measure s <= fuel)%nat ->
    match io_read_full_e rd fuel n acc s with
    | GFull g r => (n <= length (flat s))%nat /\ g = acc ++ firstn n (flat s) /\ flat r = skipn n (flat s)
    | GShort g r => (length (flat s) < n)%nat /\ g = acc ++ flat s /\ flat r = []
    end.
  Proof.
    intros Hok. induction fuel as [|f IH]; intros n acc s Hf.
    - destruct n as [|k]; [|lia]. cbn [io_read_full_e firstn skipn].
      rewrite app_nil_r. repeat split. lia.
    - destruct n as [|k].
      + cbn [io_read_full_e firstn skipn]. rewrite app_nil_r. repeat split. lia.
      + cbn [io_read_full_e]. pose proof (Hok (S k) s ltac:(lia)) as H1.
        destruct (rd (S k) s) as [got fin s']. destruct H1 as (Hfl & Hlen & Hfin).
        destruct fin.
        * (* the Read carries the end condition: its bytes count first *)
          rewrite Hfl, Hfin, app_nil_r.
          destruct (Nat.leb (S k) (length got)) eqn:El.
          -- apply Nat.leb_le in El. rewrite Hfin.
             rewrite firstn_all2 by lia. rewrite skipn_all2 by lia. repeat split. lia.
          -- apply Nat.leb_gt in El. rewrite Hfin. repeat split. lia.
        * destruct Hfin as (Hm & Hm0).
          assert (Hfuel : (S k - length got + measure s' <= f)%nat).
          { destruct got as [|x got]; [specialize (Hm0 eq_refl); cbn [length]; lia|cbn [length] in *; lia]. }
          specialize (IH (S k - length got)%nat (acc ++ got) s' Hfuel).
          destruct (io_read_full_e rd f (S k - length got) (acc ++ got) s') as [g r|g r].
          -- destruct IH as (Hn & Hg & Hr). rewrite Hfl. rewrite app_length.
             rewrite firstn_app, skipn_app.
             rewrite (firstn_all2 got) by lia. rewrite (skipn_all2 got) by lia.
             cbn [app]. rewrite <- app_assoc in Hg. repeat split; [lia|exact Hg|exact Hr].
          -- destruct IH as (Hn & Hg & Hr). rewrite Hfl. rewrite app_length.
             rewrite <- app_assoc in Hg. repeat split; [lia|exact Hg|exact Hr].
  Qed.
End ReadFullE.

Lemma rdf_ok_of_rde {T : Type} (rd : nat -> T -> rde_res T) flat measure :
  rde_ok rd flat measure ->
  rdf_ok (fun n s => io_read_full_e rd (n + measure s) n [] s) flat.
Proof.
  intros Hok n s. pose proof (io_read_full_e_ok rd flat measure Hok (n + measure s) n [] s (le_n _)) as H.
  destruct (io_read_full_e rd (n + measure s) n [] s) as [g r|g r]; destruct H as (Hn & Hg & Hr);
    cbn [app] in Hg; unfold read_full.
  - replace (Nat.leb n (length (flat s))) with true by (symmetry; apply Nat.leb_le; lia).
    rewrite Hg, Hr. reflexivity.
  - replace (Nat.leb n (length (flat s))) with false by (symmetry; apply Nat.leb_gt; lia).
    rewrite Hg. split; [reflexivity|exact Hr].
Qed.

(* a Read that reports the end in a call of its own (Model/Chunks.v) is a Read
   that never reports it together with bytes *)
Definition rd1_as_rde {T : Type} (rd1 : nat -> T -> rd1_res T) (n : nat) (s : T) : rde_res T :=
  match rd1 n s with
  | Rd1 got s' => RdE got false s'
  | Rd1None => RdE [] true s
  end.

Lemma io_read_full_as_e {T : Type} (rd1 : nat -> T -> rd1_res T) : forall fuel n acc s,
  io_read_full rd1 fuel n acc s = io_read_full_e (rd1_as_rde rd1) fuel n acc s.
Proof.
  induction fuel as [|f IH]; intros [|k] acc s; try reflexivity.
  cbn [io_read_full io_read_full_e]. unfold rd1_as_rde.
  destruct (rd1 (S k) s) as [got s'|]; [apply IH|]. cbn. rewrite app_nil_r. reflexivity.
Qed.

Lemma io_read_full_inv {T : Type} (rd1 : nat -> T -> rd1_res T) (P : T -> Prop) :
  (forall n s got s', P s -> rd1 n s = Rd1 got s' -> P s') ->
  forall fuel n acc s, P s ->
    match io_read_full rd1 fuel n acc s with GFull _ r => P r | GShort _ r => P r end.
Proof.
  intros Hstep. induction fuel as [|f IH]; intros n acc s Hs.
  - destruct n; exact Hs.
  - destruct n as [|k]; [exact Hs|]. cbn [io_read_full].
    destruct (rd1 (S k) s) as [got s'|] eqn:Er; [|exact Hs].
    apply IH. exact (Hstep _ _ _ _ Hs Er).
Qed.

(* rde_ok for a Read that reports the end only with an empty result *)
Definition rd1_ok {T : Type} (rd1 : nat -> T -> rd1_res T) (flat : T -> list N) (measure : T -> nat) : Prop :=
  forall n s, (0 < n)%nat ->
    match rd1 n s with
    | Rd1 got s' => flat s = got ++ flat s' /\ (length got <= n)%nat /\
                    (measure s' <= measure s)%nat /\ (got = [] -> (measure s' < measure s)%nat)
    | Rd1None => flat s = []
    end.

Lemma rdf_ok_of_rd1 {T : Type} (rd1 : nat -> T -> rd1_res T) flat measure :
  rd1_ok rd1 flat measure ->
  rdf_ok (fun n s => io_read_full rd1 (n + measure s) n [] s) flat.
Proof.
  intros Hok n s. rewrite io_read_full_as_e.
  apply (rdf_ok_of_rde (rd1_as_rde rd1) flat measure). clear n s.
  intros n s Hn. specialize (Hok n s Hn). unfold rd1_as_rde.
  destruct (rd1 n s) as [got s'|]; [exact Hok|].
  rewrite Hok. repeat split. cbn [length]. lia.
Qed.

Lemma chunk_read_ok : rd1_ok chunk_read (@concat N) (@length (list N)).
Proof.
  intros n cs Hn. unfold chunk_read. destruct cs as [|c cs']; [reflexivity|].
  destruct (Nat.leb (length c) n) eqn:El.
  - apply Nat.leb_le in El. cbn [concat length]. repeat split; try lia.
  - apply Nat.leb_gt in El. cbn [concat length]. rewrite app_assoc, firstn_skipn.
    repeat split; try lia.
    + rewrite firstn_length. lia.
    + intros H0. apply (f_equal (@length N)) in H0. rewrite firstn_length in H0. cbn [length] in H0. lia.
Qed.

Lemma read_full_chunks_ok : rdf_ok read_full_chunks (@concat N).
Proof. exact (rdf_ok_of_rd1 chunk_read (@concat N) (@length (list N)) chunk_read_ok). Qed.

Section Readers.
  Context {T : Type} (rdf : nat -> T -> grf T) (sz : T -> nat) (flat : T -> list N).
  Context (Hrdf : rdf_ok rdf flat) (Hsz : forall s, sz s = length (flat s)).

  Lemma g_read_mbap_flat e s :
    read_mbap e (flat s) = (fst (g_read_mbap rdf e s), flat (snd (g_read_mbap rdf e s))).
  Proof.
    unfold g_read_mbap, read_mbap.
    pose proof (Hrdf 7%nat s) as H7. destruct (rdf 7%nat s) as [hdr r|g r].
    - rewrite H7.
      destruct hdr as [|t1 [|t0 [|p1 [|p0 [|l1 [|l0 [|u [|x hdr]]]]]]]]; try reflexivity.
      destruct (260 <? _); [reflexivity|]. destruct (_ <=? 1); [reflexivity|].
      match goal with |- context [rdf ?n r] =>
        pose proof (Hrdf n r) as Hb; destruct (rdf n r) as [body r'|g r'] end.
      + rewrite Hb. destruct (negb _); [reflexivity|]. destruct body; reflexivity.
      + destruct Hb as [Hb He]. rewrite Hb. cbn [fst snd]. rewrite He. reflexivity.
    - destruct H7 as [H7 He]. rewrite H7. cbn [fst snd]. rewrite He. reflexivity.
  Qed.

  Lemma g_mbap_read_response_flat fuel : forall e txn s,
    mbap_read_response fuel e txn (flat s) =
    (fst (g_mbap_read_response rdf fuel e txn s), flat (snd (g_mbap_read_response rdf fuel e txn s))).
  Proof.
    induction fuel as [|f IH]; intros e txn s; [reflexivity|].
    cbn [mbap_read_response g_mbap_read_response]. rewrite g_read_mbap_flat.
    destruct (g_read_mbap rdf e s) as [[p t|x] s']; cbn [fst snd].
    - destruct (t =? txn); [reflexivity|apply IH].
    - destruct x; try reflexivity. apply IH.
  Qed.

  Lemma g_read_rtu_flat e s :
    read_rtu e (flat s) = (fst (g_read_rtu rdf e s), flat (snd (g_read_rtu rdf e s))).
  Proof.
    unfold g_read_rtu, read_rtu.
    pose proof (Hrdf 3%nat s) as H3. destruct (rdf 3%nat s) as [hdr r|g r].
    - rewrite H3. destruct hdr as [|u [|fc [|b2 [|x hdr]]]]; try reflexivity.
      destruct (expected_len fc b2) as [n|]; [|reflexivity].
      destruct (256 <? _); [reflexivity|].
      match goal with |- context [rdf ?k r] =>
        pose proof (Hrdf k r) as Hb; destruct (rdf k r) as [body r'|g r'] end.
      + rewrite Hb. destruct (skipn (N.to_nat n) body) as [|lo [|hi [|y tl]]]; try reflexivity.
        destruct (crc_is_equal _ lo hi); reflexivity.
      + destruct Hb as [Hb He]. rewrite Hb. destruct e, g; cbn [fst snd]; rewrite He; reflexivity.
    - destruct H3 as [H3 He]. rewrite H3. destruct g; cbn [fst snd]; rewrite He; reflexivity.
  Qed.

  (* for any n, so that the buffer size of discard is never unfolded *)
  Lemma rdf_skip n s :
    skipn n (flat s) = flat (match rdf n s with GFull _ r => r | GShort _ r => r end).
  Proof.
    clear Hsz sz. pose proof (Hrdf n s) as H. unfold read_full in H.
    destruct (rdf n s) as [g r|g r].
    - destruct (Nat.leb n (length (flat s))); [|discriminate]. congruence.
    - destruct H as [H He]. rewrite He.
      destruct (Nat.leb n (length (flat s))) eqn:El; [discriminate|].
      apply Nat.leb_gt in El. apply skipn_all2. lia.
  Qed.

  Lemma g_discard_flat s : skipn 1024 (flat s) = flat (g_discard rdf s).
  Proof. apply rdf_skip. Qed.

  Lemma g_rtu_read_response_flat e s :
    rtu_read_response e (flat s) =
    (fst (g_rtu_read_response rdf e s), flat (snd (g_rtu_read_response rdf e s))).
  Proof.
    unfold rtu_read_response, g_rtu_read_response. rewrite g_read_rtu_flat.
    destruct (g_read_rtu rdf e s) as [[p|x| |] s']; cbn [fst snd]; try reflexivity.
    destruct x; cbn [fst snd]; try reflexivity; rewrite g_discard_flat; reflexivity.
  Qed.

  Lemma g_client_call_flat fr cfg txn o e s :
    client_call fr cfg txn o e (flat s) =
    let r := g_client_call rdf sz fr cfg txn o e s in
    mkcall (gcr_res r) (gcr_writes r) (flat (gcr_rest r)) (gcr_txn r).
  Proof.
    unfold client_call, g_client_call.
    destruct (client_request cfg o) as [req|x| |]; try reflexivity.
    unfold transport_exchange, g_transport_exchange. destruct fr.
    - rewrite Hsz. rewrite g_mbap_read_response_flat.
      destruct (g_mbap_read_response rdf (S (length (flat s))) e (u16 (txn + 1)) s) as [r rest].
      cbn [fst snd]. destruct r as [res|x| |]; try reflexivity.
      destruct (unit_check req res); reflexivity.
    - rewrite g_rtu_read_response_flat.
      destruct (g_rtu_read_response rdf e s) as [r rest].
      cbn [fst snd]. destruct r as [res|x| |]; try reflexivity.
      destruct (unit_check req res); reflexivity.
  Qed.

  Section Srv.
    Context {St : Type} (h : handler St).

    Lemma g_server_session_flat fuel : forall st e s,
      server_session h fuel st e (flat s) = g_server_session rdf h fuel st e s.
    Proof.
      induction fuel as [|f IH]; intros st e s; [reflexivity|].
      cbn [server_session g_server_session]. rewrite g_read_mbap_flat.
      destruct (g_read_mbap rdf e s) as [[p t|x] s']; cbn [fst snd]; [|reflexivity].
      destruct (server_process h st p) as [[st' calls] act]. f_equal.
      destruct act as [res|]; [|reflexivity]. f_equal. apply IH.
    Qed.

    Lemma g_server_run_flat st e s :
      server_run h st e (flat s) = g_server_run rdf sz h st e s.
    Proof. unfold server_run, g_server_run. rewrite Hsz. apply g_server_session_flat. Qed.
  End Srv.
End Readers.

Lemma chunks_size_ok cs : chunks_size cs = length (concat cs).
Proof. reflexivity. Qed.

Lemma client_call_chunks fr cfg txn o e cs :
  client_call fr cfg txn o e (concat cs) =
  let r := client_call_c fr cfg txn o e cs in
  mkcall (gcr_res r) (gcr_writes r) (concat (gcr_rest r)) (gcr_txn r).
Proof.
  exact (g_client_call_flat read_full_chunks chunks_size (@concat N) read_full_chunks_ok
           chunks_size_ok fr cfg txn o e cs).
Qed.

Lemma server_run_chunks {St : Type} (h : handler St) st e cs :
  server_run_c h st e cs = server_run h st e (concat cs).
Proof.
  symmetry.
  exact (g_server_run_flat read_full_chunks chunks_size (@concat N) read_full_chunks_ok
           chunks_size_ok h st e cs).
Qed.

Lemma client_call_segmentation fr cfg txn o e cs1 cs2 : same_stream cs1 cs2 ->
  call_same (client_call_c fr cfg txn o e cs1) (client_call_c fr cfg txn o e cs2).
Proof.
  intros Hs. pose proof (client_call_chunks fr cfg txn o e cs1) as H1.
  pose proof (client_call_chunks fr cfg txn o e cs2) as H2.
  unfold same_stream in Hs. rewrite Hs in H1. rewrite H1 in H2. cbv zeta in H2.
  injection H2 as Ha Hb Hc Hd. unfold call_same. auto.
Qed.

Lemma server_run_segmentation {St : Type} (h : handler St) st e cs1 cs2 : same_stream cs1 cs2 ->
  server_run_c h st e cs1 = server_run_c h st e cs2.
Proof. intros Hs. rewrite !server_run_chunks. unfold same_stream in Hs. rewrite Hs. reflexivity. Qed.

Lemma seg_bytewise_same s : concat (seg_bytewise s) = s.
Proof. induction s as [|b s IH]; [reflexivity|]. cbn [seg_bytewise map concat app] in *. f_equal. exact IH. Qed.

Lemma seg_split_same k s : concat (seg_split k s) = s.
Proof. unfold seg_split. cbn [concat]. rewrite app_nil_r. apply firstn_skipn. Qed.

Lemma seg_split2_same j k s : concat (seg_split2 j k s) = s.
Proof.
  unfold seg_split2. cbn [concat]. rewrite app_nil_r, firstn_skipn. apply firstn_skipn.
Qed.

Lemma seg_coalesced_same frames : concat (seg_coalesced frames) = concat frames.
Proof. unfold seg_coalesced. cbn [concat]. apply app_nil_r. Qed.

Lemma named_segmentations frames j k :
  same_stream (seg_bytewise (concat frames)) frames /\
  same_stream (seg_split k (concat frames)) frames /\
  same_stream (seg_split2 j k (concat frames)) frames /\
  same_stream (seg_coalesced frames) frames.
Proof.
  exact (conj (seg_bytewise_same _) (conj (seg_split_same k _)
          (conj (seg_split2_same j k _) (seg_coalesced_same frames)))).
Qed.

Lemma server_pipelined_chunks {St : Type} (h : handler St) frames tail st e cs :
  Forall (fun f => fst f < 65536 /\ pdu_wf (snd f)) frames ->
  concat cs = concat (map (fun f => spec_mbap (fst f) (snd f)) frames) ++ tail ->
  server_run_c h st e cs =
  spec_session h st frames (fun st' => server_run h st' e tail).
Proof.
  intros HF Hc. rewrite server_run_chunks, Hc. apply server_pipelined. exact HF.
Qed.
