(* Slots held by connections that never have a request dispatched (peers of a
   tcp+tls server whose handshake fails): the slot is given back, after any
   number of them a later connection is served. *)
From Coq Require Import List Arith Bool Lia Permutation.
Import ListNotations.
From Modbus Require Import Model.Slots Proofs.SlotsP Model.SlotsVisit.

Lemma arrival_eff s c : Inv s -> started s = true -> 0 < acceptors s -> stat s c = Fresh ->
  let s1 := run s (arrival c) in
  started s1 = true /\ listening s1 = listening s /\ acceptors s1 = acceptors s /\ maxc s1 = maxc s /\
  (forall x, x <> c -> stat s1 x = stat s x) /\
  (length (clients s) < maxc s -> clients s1 = clients s ++ [c] /\ stat s1 c = Serving) /\
  (maxc s <= length (clients s) -> clients s1 = clients s /\ stat s1 c = Rejected /\ closed s1 c = true).
Proof.
  intros I Hst Ha Hf.
  assert (Hl : listening s = true) by (rewrite (inv_listen s I); exact Hst).
  unfold arrival, run. cbn [fold_left].
  rewrite (step_arrive s c Hl Hf).
  rewrite step_take by first [apply upd_same|exact Ha].
  rewrite step_enrol by apply upd_same. unfold set_stat.
  cbn [started listening acceptors zombies maxc clients stat closed]. rewrite Hst. cbn [andb].
  assert (F : forall v x, x <> c -> upd (upd (upd (stat s) c Queued) c Taken) c v x = stat s x)
    by (intros v x Hx; rewrite !upd_other by exact Hx; reflexivity).
  destruct (Nat.ltb_spec (length (clients s)) (maxc s)) as [E|E];
    cbn [started listening acceptors zombies maxc clients stat closed]; rewrite !upd_same.
  (* the case that does not apply is left with contradictory bounds *)
  all: repeat split; try apply F; lia.
Qed.

Lemma departure_frees s c w : Inv s -> stat s c = Serving -> w <> ClosedByStop ->
  let s1 := run s (departure c w) in
  Permutation (clients s) (c :: clients s1) /\ stat s1 c = Removed /\ closed s1 c = true /\
  started s1 = started s /\ listening s1 = listening s /\ acceptors s1 = acceptors s /\ maxc s1 = maxc s /\
  (forall x, x <> c -> stat s1 x = stat s x).
Proof.
  intros I Hs Hw.
  assert (Hin : In c (clients s)) by (apply (inv_members s I); left; exact Hs).
  unfold departure, run. cbn [fold_left].
  rewrite (step_end s c w Hs) by (intros E; contradiction).
  rewrite step_remove by apply upd_same. unfold set_stat.
  cbn [started listening acceptors zombies maxc clients stat closed].
  repeat split.
  - apply remove_swap_perm. exact Hin.
  - apply upd_same.
  - apply upd_same.
  - intros x Hx. rewrite !upd_other by exact Hx. reflexivity.
Qed.

Lemma departure_noop s c w : stat s c <> Serving -> stat s c <> Ended -> run s (departure c w) = s.
Proof.
  intros H1 H2. unfold departure, run. cbn [fold_left]. rewrite (step_off s (End c w)).
  - apply step_off. cbn [enabled]. apply stat_eqb_neq, H2.
  - destruct w; cbn [enabled]; rewrite (stat_eqb_neq _ _ H1); reflexivity.
Qed.

Lemma visit_neutral s c w : Inv s -> started s = true -> 0 < acceptors s ->
  stat s c = Fresh -> w <> ClosedByStop ->
  let s1 := run s (visit c w) in
  Permutation (clients s) (clients s1) /\ closed s1 c = true /\
  (stat s1 c = Removed \/ stat s1 c = Rejected) /\
  started s1 = true /\ acceptors s1 = acceptors s /\ maxc s1 = maxc s /\
  (forall x, x <> c -> stat s1 x = stat s x).
Proof.
  intros I Hst Ha Hf Hw. cbn zeta. unfold visit. rewrite slots_run_app.
  pose proof (inv_run (arrival c) s I) as I1.
  destruct (arrival_eff s c I Hst Ha Hf) as (A1 & A2 & A3 & A4 & A5 & A6 & A7).
  cbn zeta in *. set (s1 := run s (arrival c)) in *.
  destruct (Nat.lt_ge_cases (length (clients s)) (maxc s)) as [Hlt|Hge].
  - destruct (A6 Hlt) as [Ec Es].
    destruct (departure_frees s1 c w I1 Es Hw) as (D1 & D2 & D3 & D4 & D5 & D6 & D7 & D8).
    cbn zeta in *. repeat split.
    + rewrite Ec in D1. apply Permutation_cons_inv with (a := c).
      eapply Permutation_trans; [|exact D1]. apply Permutation_cons_append.
    + exact D3.
    + left. exact D2.
    + rewrite D4. exact A1.
    + rewrite D6. exact A3.
    + rewrite D7. exact A4.
    + intros x Hx. rewrite D8 by exact Hx. apply A5. exact Hx.
  - destruct (A7 Hge) as (Ec & Es & Ecl).
    rewrite departure_noop by congruence. repeat split; try assumption.
    + rewrite Ec. apply Permutation_refl.
    + right. exact Es.
Qed.

Lemma visits_frame : forall l s, Inv s -> started s = true -> 0 < acceptors s ->
  NoDup (map fst l) ->
  (forall c w, In (c, w) l -> stat s c = Fresh /\ w <> ClosedByStop) ->
  let s1 := run s (visits l) in
  Inv s1 /\ Permutation (clients s) (clients s1) /\ started s1 = true /\
  acceptors s1 = acceptors s /\ maxc s1 = maxc s /\
  (forall x, ~ In x (map fst l) -> stat s1 x = stat s x).
Proof.
  induction l as [|[c w] t IH]; intros s I Hst Ha Hnd Hall; cbn zeta.
  - split; [exact I|]. repeat split; try assumption. apply Permutation_refl.
  - cbn [visits]. rewrite slots_run_app. cbn [map fst] in Hnd. inversion Hnd as [|? ? Hnotin Hnd']; subst.
    destruct (Hall c w (or_introl eq_refl)) as [Hf Hw].
    destruct (visit_neutral s c w I Hst Ha Hf Hw) as (V1 & _ & _ & V4 & V5 & V6 & V7).
    cbn zeta in *. pose proof (inv_run (visit c w) s I) as I1.
    set (s1 := run s (visit c w)) in *.
    (* the visitors still to come are still new to the server *)
    assert (Hall1 : forall c0 w0, In (c0, w0) t -> stat s1 c0 = Fresh /\ w0 <> ClosedByStop).
    { intros c0 w0 Hin. destruct (Hall c0 w0 (or_intror Hin)) as [H1 H2]. split; [|exact H2].
      rewrite V7; [exact H1|]. intros ->. apply Hnotin. apply (in_map fst _ _ Hin). }
    assert (Ha1 : 0 < acceptors s1) by (rewrite V5; exact Ha).
    destruct (IH s1 I1 V4 Ha1 Hnd' Hall1) as (J1 & J2 & J3 & J4 & J5 & J6).
    cbn zeta in *. split; [exact J1|]. repeat split.
    + eapply Permutation_trans; [exact V1|exact J2].
    + exact J3.
    + rewrite J4. exact V5.
    + rewrite J5. exact V6.
    + intros x Hx. cbn [map fst In] in Hx.
      rewrite J6 by (intros H; apply Hx; right; exact H).
      apply V7. intros ->. apply Hx. left. reflexivity.
Qed.

Lemma visits_then_served l s d : Inv s -> started s = true -> 0 < acceptors s ->
  NoDup (map fst l) ->
  (forall c w, In (c, w) l -> stat s c = Fresh /\ w <> ClosedByStop) ->
  stat s d = Fresh -> ~ In d (map fst l) -> length (clients s) < maxc s ->
  let s1 := run s (visits l ++ arrival d) in
  stat s1 d = Serving /\ In d (clients s1) /\ length (clients s1) = S (length (clients s)).
Proof.
  intros I Hst Ha Hnd Hall Hd Hnotin Hroom. cbn zeta. rewrite slots_run_app.
  destruct (visits_frame l s I Hst Ha Hnd Hall) as (J1 & J2 & J3 & J4 & J5 & J6).
  cbn zeta in *. set (s1 := run s (visits l)) in *.
  assert (Ha1 : 0 < acceptors s1) by (rewrite J4; exact Ha).
  assert (Hd1 : stat s1 d = Fresh) by (rewrite J6 by exact Hnotin; exact Hd).
  destruct (arrival_eff s1 d J1 J3 Ha1 Hd1) as (_ & _ & _ & _ & _ & A6 & _).
  cbn zeta in *.
  assert (Hlen : length (clients s1) = length (clients s)) by (symmetry; apply Permutation_length; exact J2).
  destruct A6 as [Ec Es]; [rewrite Hlen, J5; exact Hroom|].
  rewrite Ec, app_length, Hlen. repeat split; [exact Es|apply in_elt|apply Nat.add_1_r].
Qed.
