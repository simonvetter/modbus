(* encoding.go as translated from the Go source (Gen/SrcPure.v) computes the
   model of Model/Encoding.v, for every input: the 32- and 64-bit scalar
   codecs (straight-line code, symbolic evaluation). The 16-bit ones are in
   SrcCrcP.v, the list codecs in SrcEncoding2P.v / SrcBoolsP.v. *)
From Coq Require Import List NArith String Lia Bool.
Import ListNotations.
From Modbus Require Import Base.Bytes Model.GoLite Gen.SrcPure Model.Crc Model.Encoding.
From Modbus Require Import Proofs.GoLiteP Proofs.SrcCrcP.
Open Scope N_scope.

Lemma run_uint32ToBytes fe fuel e w v :
  run_fn ge fe fuel src_fn_uint32ToBytes [VN (endian_sel e); VN (word_sel w); VN v] =
  Ok [vbytes (u32_to_bytes e w v)].
Proof. destruct e, w; gl_eval; reflexivity. Qed.

Lemma run_uint64ToBytes fe fuel e w v :
  run_fn ge fe fuel src_fn_uint64ToBytes [VN (endian_sel e); VN (word_sel w); VN v] =
  Ok [vbytes (u64_to_bytes e w v)].
Proof. destruct e, w; gl_eval; reflexivity. Qed.

(* float32ToBytes, float64ToBytes: [return g(endianness, wordOrder, bits)].
   The tree is written by hand because two generated functions are instances
   of it, as are [words_fn] and [copy_fn] of SrcEncoding2P.v. That a generated
   function is the instance is checked where the run lemma is applied to it:
   the [apply (run_pass_fn ..)] of SrcLinkP.v unifies [src_fn_float32ToBytes]
   with [pass_fn "uint32ToBytes"], and fails if the Go source has changed. *)
Definition pass_fn (callee : string) : fn := {|
  f_nparams := 3;
  f_zeros := [VL []];
  f_outs := [];
  f_results := [3%nat];
  f_body :=
    SSeq (SSet (LVar 3) (ECall callee (ECons (EVar 0) (ECons (EVar 1) (ECons (EVar 2) ENil)))))
    (SReturn ENil)
|}.

Lemma run_pass_fn fe fuel callee a0 a1 a2 r :
  fe callee [a0; a1; a2] = Ok [r] -> run_fn ge fe fuel (pass_fn callee) [a0; a1; a2] = Ok [r].
Proof. intros Hc. unfold run_fn, pass_fn. gl_step. rewrite Hc. reflexivity. Qed.
