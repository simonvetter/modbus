(* Proofs for C05 across Close() + Open(): a reopen is a new transport on a new,
   empty stream; what is addressed to an older socket has no influence. *)
From Modbus Require Import Base.Bytes Model.Crc Model.Encoding Model.Wire Model.Client
  Model.TxnHistory Model.TxnReopen Spec.ModbusSpec Spec.ClientSpec Spec.TxnSpec Spec.TxnReopenSpec
  Proofs.TxnP.

Lemma nth_map_some {A} (l : list A) : forall n r d,
  nth n (map Some l) None = Some r -> nth n l d = r.
Proof.
  induction l as [|a t IH]; intros [|n] r d H; cbn in H; try discriminate H.
  - injection H as H. exact H.
  - cbn [nth]. apply IH. exact H.
Qed.

Lemma tr_run_length fr cfg xs : forall st, length (tr_run fr cfg st xs) = length xs.
Proof.
  induction xs as [|x t IH]; intros st; [reflexivity|].
  cbn [tr_run]. destruct (tr_step_run fr cfg st x) as [st' r]. cbn [length]. rewrite IH. reflexivity.
Qed.

Lemma tr_run_app fr cfg a b : forall st,
  tr_run fr cfg st (a ++ b) = tr_run fr cfg st a ++ tr_run fr cfg (tr_final fr cfg st a) b.
Proof.
  induction a as [|x t IH]; intros st; [reflexivity|].
  cbn [app tr_run tr_final]. destruct (tr_step_run fr cfg st x) as [st' r]. cbn [fst app].
  rewrite IH. reflexivity.
Qed.

Lemma tr_final_app fr cfg a b : forall st,
  tr_final fr cfg st (a ++ b) = tr_final fr cfg (tr_final fr cfg st a) b.
Proof.
  induction a as [|x t IH]; intros st; [reflexivity|].
  cbn [app tr_final]. apply IH.
Qed.

Lemma tr_sock_step fr cfg st s :
  tr_sock (fst (tr_step_run fr cfg st s)) = tr_sock st + (if tr_is_reopen s then 1 else 0).
Proof.
  destruct s as [c|ds|]; cbn [tr_step_run tr_is_reopen].
  - destruct (hist_step fr cfg (tr_th st) (tr_concrete (tr_sock st) c)) as [th' r].
    cbn [fst tr_sock]. lia.
  - cbn [fst tr_sock]. lia.
  - cbn [fst tr_sock]. lia.
Qed.

Lemma tr_final_sock : forall fr cfg xs st,
  tr_sock (tr_final fr cfg st xs) = tr_sock st + tr_reopens xs.
Proof.
  intros fr cfg xs.
  induction xs as [|x t IH]; intros st.
  - unfold tr_reopens, lenN. cbn. lia.
  - cbn [tr_final]. rewrite IH, tr_sock_step. unfold tr_reopens. cbn [filter].
    destruct (tr_is_reopen x); unfold lenN; cbn [length]; lia.
Qed.

Lemma tr_reopen_restarts fr cfg st pre post :
  tr_run fr cfg st (pre ++ TrReopen :: post) =
  tr_run fr cfg st pre ++
  None :: tr_run fr cfg (mktr (tr_sock (tr_final fr cfg st pre) + 1) th_init) post.
Proof. rewrite tr_run_app. reflexivity. Qed.

Lemma tr_deliver_keep m k ds : m <= k -> tr_deliver k (tr_keep m ds) = tr_deliver k ds.
Proof.
  intros Hm. unfold tr_deliver, tr_keep. f_equal. f_equal.
  induction ds as [|d t IH]; [reflexivity|].
  cbn [filter].
  destruct (m <=? tg_sock d) eqn:E1; destruct (tg_sock d =? k) eqn:E2; cbn [filter]; rewrite ?E2, ?IH;
    try reflexivity.
  apply N.eqb_eq in E2. apply N.leb_gt in E1. lia.
Qed.

Lemma tr_step_forget fr cfg m st s : m <= tr_sock st ->
  tr_step_run fr cfg st (tr_forget m s) = tr_step_run fr cfg st s.
Proof.
  intros Hm. destruct s as [c|ds|]; cbn [tr_forget tr_step_run]; [| |reflexivity].
  - unfold tr_concrete. cbn [trc_op trc_in trc_end]. rewrite tr_deliver_keep by exact Hm. reflexivity.
  - rewrite tr_deliver_keep by exact Hm. reflexivity.
Qed.

Lemma tr_run_forget fr cfg m xs : forall st, m <= tr_sock st ->
  tr_run fr cfg st (map (tr_forget m) xs) = tr_run fr cfg st xs.
Proof.
  induction xs as [|x t IH]; intros st Hm; [reflexivity|].
  cbn [map tr_run]. rewrite tr_step_forget by exact Hm.
  pose proof (tr_sock_step fr cfg st x) as Hs.
  destruct (tr_step_run fr cfg st x) as [st' r]. cbn [fst] in Hs.
  rewrite IH; [reflexivity|]. rewrite Hs. destruct (tr_is_reopen x); lia.
Qed.

Lemma tr_run_calls fr cfg k calls : forall th,
  tr_run fr cfg (mktr k th) (map TrCall calls) =
  map Some (hist_run fr cfg th (map (tr_concrete k) calls)).
Proof.
  induction calls as [|c t IH]; intros th; [reflexivity|].
  cbn [map tr_run tr_step_run hist_run tr_sock tr_th].
  destruct (hist_step fr cfg th (tr_concrete k c)) as [th' r]. rewrite IH. reflexivity.
Qed.

Lemma tr_segment_fresh fr cfg st pre calls :
  tr_run fr cfg st (pre ++ TrReopen :: map TrCall calls) =
  tr_run fr cfg st pre ++
  None :: map Some (hist_run fr cfg th_init
                      (map (tr_concrete (tr_sock (tr_final fr cfg st pre) + 1)) calls)).
Proof. rewrite tr_reopen_restarts, tr_run_calls. reflexivity. Qed.

Lemma tr_segment_nth fr cfg st pre calls n r d :
  nth (length pre + 1 + n) (tr_run fr cfg st (pre ++ TrReopen :: map TrCall calls)) None = Some r ->
  nth n (hist_run fr cfg th_init
           (map (tr_concrete (tr_sock (tr_final fr cfg st pre) + 1)) calls)) d = r.
Proof.
  intros Hn. rewrite tr_segment_fresh in Hn.
  rewrite app_nth2 in Hn by (rewrite tr_run_length; lia). rewrite tr_run_length in Hn.
  replace (length pre + 1 + n - length pre)%nat with (S n) in Hn by lia.
  cbn [nth] in Hn. apply nth_map_some. exact Hn.
Qed.

Lemma tr_deliver_visible k fs :
  tr_deliver k (map tr_dgram_of fs) = th_stream 0 (tr_visible k fs).
Proof.
  unfold tr_deliver, th_stream, tr_visible. f_equal.
  induction fs as [|p t IH]; [reflexivity|].
  cbn [map filter]. unfold tr_dgram_of at 1. cbn [tg_sock].
  destruct (fst p =? k); cbn [map]; rewrite IH; reflexivity.
Qed.

Lemma tr_concrete_sstep k c :
  tr_concrete k (tr_scall_concrete c) = th_concrete 0 (tr_sstep k c).
Proof.
  unfold tr_concrete, tr_scall_concrete, th_concrete, tr_sstep.
  cbn [trc_op trc_in trc_end ss_op ss_frames ss_end]. rewrite tr_deliver_visible. reflexivity.
Qed.

Lemma tr_visible_wf k fs : Forall (fun p => th_frame_wf (snd p)) fs -> Forall th_frame_wf (tr_visible k fs).
Proof.
  intros H. unfold tr_visible. induction H as [|p t Hp Ht IH]; [constructor|].
  cbn [filter]. destruct (fst p =? k); cbn [map]; [constructor; assumption|assumption].
Qed.

Lemma tr_visible_in k fs f : In f (tr_visible k fs) -> In (k, f) fs.
Proof.
  unfold tr_visible. intros H. apply in_map_iff in H as (p & Hp & Hin).
  apply filter_In in Hin as [Hin Hk]. apply N.eqb_eq in Hk.
  destruct p as [s g]. cbn [fst snd] in *. subst. exact Hin.
Qed.

Lemma tr_sstep_ok k c : tr_scall_ok c -> th_sstep_ok (tr_sstep k c).
Proof.
  intros (H1 & H2 & H3). unfold th_sstep_ok, tr_sstep. cbn [ss_op ss_frames].
  split; [exact H1|]. split; [exact H2|]. apply tr_visible_wf. exact H3.
Qed.

Lemma tr_visible_concat k cs f :
  In f (concat (map ss_frames (map (tr_sstep k) cs))) -> In (k, f) (concat (map tsc_frames cs)).
Proof.
  induction cs as [|c t IH]; [intros []|].
  cbn [map concat]. intros H. apply in_app_or in H as [H|H]; apply in_or_app.
  - left. unfold tr_sstep in H. cbn [ss_frames] in H. apply tr_visible_in. exact H.
  - right. apply IH. exact H.
Qed.

(* a call made after a reopen that succeeds consumed a frame ADDRESSED TO THE
   NEW SOCKET, delivered after the reopen, built for a request of the new
   transport with the same number modulo 2^16 *)
Lemma tr_no_stale_reply : forall cfg st pre seg x post r vs,
  Forall tr_scall_ok (seg ++ x :: post) ->
  let k := tr_sock (tr_final FMbap cfg st pre) + 1 in
  let j := lenN seg in
  nth (length pre + 1 + length seg)
      (tr_run FMbap cfg st
         (pre ++ TrReopen :: map (fun c => TrCall (tr_scall_concrete c)) (seg ++ x :: post)))
      None = Some r ->
  cr_res r = Ok vs ->
  exists i res,
    In (k, ThReply i res) (concat (map tsc_frames (seg ++ [x]))) /\
    i mod 65536 = j mod 65536 /\
    cr_res (client_call FMbap cfg (j mod 65536) (tsc_op x)
              (th_end_after (th_end_run Stall (map (tr_sstep k) seg)) (tsc_end x))
              (spec_frame FMbap (th_id 0 j) res)) = Ok vs.
Proof.
  intros cfg st pre seg x post r vs HF k j Hn Hr.
  set (d := call_dflt).
  rewrite <- (map_map tr_scall_concrete TrCall) in Hn.
  apply (tr_segment_nth _ _ _ _ _ _ _ d) in Hn. fold k in Hn.
  rewrite map_map in Hn.
  rewrite (map_ext _ (fun c => th_concrete 0 (tr_sstep k c)) (tr_concrete_sstep k)) in Hn.
  rewrite <- (map_map (tr_sstep k) (th_concrete 0)) in Hn.
  assert (HF' : Forall th_sstep_ok (map (tr_sstep k) (seg ++ x :: post))).
  { apply Forall_map. eapply Forall_impl; [|exact HF]. intros c. apply tr_sstep_ok. }
  rewrite map_app in Hn, HF'. cbn [map] in Hn, HF'.
  rewrite <- (map_length (tr_sstep k) seg) in Hn at 1.
  pose proof (hist_no_misattribution cfg 0 [] Stall (map (tr_sstep k) seg) (tr_sstep k x)
                (map (tr_sstep k) post) d vs ltac:(lia) (Forall_nil _) HF') as HM.
  cbv zeta in HM. change (mkth 0 (th_stream 0 []) Stall) with th_init in HM.
  rewrite Hn in HM. specialize (HM Hr).
  destruct HM as (sk & i & res & rest & Hall & Hi & _ & _ & Hcall & _).
  assert (HlenN : lenN (map (tr_sstep k) seg) = j).
  { unfold j, lenN. rewrite map_length. reflexivity. }
  rewrite HlenN in *.
  exists i, res. split; [|split].
  - assert (Hin : In (ThReply i res) (th_pending 0 [] (map (tr_sstep k) seg) ++ ss_frames (tr_sstep k x))).
    { rewrite Hall. apply in_or_app. right. left. reflexivity. }
    rewrite map_app, concat_app. cbn [map concat]. rewrite app_nil_r.
    apply in_app_or in Hin as [Hin|Hin]; apply in_or_app.
    + left. apply th_pending_incl in Hin as [[]|Hin]. apply tr_visible_concat. exact Hin.
    + right. unfold tr_sstep in Hin. cbn [ss_frames] in Hin. apply tr_visible_in. exact Hin.
  - exact Hi.
  - replace (j mod 65536) with ((0 + j) mod 65536) by (f_equal; lia). exact Hcall.
Qed.

(* the requests made after a reopen are numbered from 0 again: request number
   j of the new transport carries id th_id 0 j - the id request number j of
   every earlier transport carried *)
Lemma tr_request_id_after_reopen : forall cfg st pre seg c post r,
  cfg_wf cfg -> Forall (fun c => op_wf (trc_op c) /\ valid_op (trc_op c) = true) (seg ++ c :: post) ->
  nth (length pre + 1 + length seg)
      (tr_run FMbap cfg st (pre ++ TrReopen :: map TrCall (seg ++ c :: post))) None = Some r ->
  cr_writes r = [spec_frame FMbap (th_id 0 (lenN seg)) (spec_pdu cfg (trc_op c))].
Proof.
  intros cfg st pre seg c post r Hcfg HF Hn.
  set (d := call_dflt). apply (tr_segment_nth _ _ _ _ _ _ _ d) in Hn.
  set (k := tr_sock (tr_final FMbap cfg st pre) + 1) in *.
  assert (HF' : Forall (fun x => op_wf (ths_op x)) (map (tr_concrete k) (seg ++ c :: post))).
  { apply Forall_map. eapply Forall_impl; [|exact HF]. intros a [Ha _]. exact Ha. }
  rewrite map_app in Hn, HF'. cbn [map] in Hn, HF'.
  rewrite <- (map_length (tr_concrete k) seg) in Hn.
  pose proof (hist_request_id cfg th_init (map (tr_concrete k) seg) (tr_concrete k c)
                (map (tr_concrete k) post) d Hcfg ltac:(cbn; lia) HF') as [H1 _].
  rewrite Hn in H1.
  apply Forall_app in HF as [Hseg Hc]. inversion Hc as [|? ? [_ V] _]; subst.
  rewrite (H1 V). cbn [th_init th_txn].
  (* every call of the segment reaches the wire *)
  rewrite th_sent_all_valid.
  - unfold lenN. rewrite map_length. reflexivity.
  - apply Forall_map. eapply Forall_impl; [|exact Hseg]. intros a [_ Ha]. exact Ha.
Qed.
