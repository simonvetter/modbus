(* C20 tied to C04: the CLI's reference device (Model/Cli.v: cli_dev_serve)
   agrees with the server model driving the memory-backed handler of Model/E2E.v
   on every request the server dispatches; hence cli_run is a run of the C04
   composition and, by C04's refinement, of the register file (Spec/RegFile.v)
   on the documented operations. First the vocabulary of Properties/C20b.v. *)
From Modbus Require Import Base.Bytes Base.Cells Model.Crc Model.Encoding Model.Wire Model.Client
  Model.Server Model.Strconv Model.Cli Model.E2E
  Spec.ModbusSpec Spec.ClientSpec Spec.ServerSpec Spec.ServerSessionSpec Spec.RegFile
  Spec.StrconvSpec Spec.CliSpec
  Proofs.EncodingP Proofs.BoolsP Proofs.FramingP Proofs.ClientReqP Proofs.ClientRespP
  Proofs.MbapServerP Proofs.ServerP Proofs.StrconvP Proofs.CliP Proofs.CliDevP Proofs.E2EP.

(* cell by cell: the two models update their tables with different but
   pointwise equal functions *)
Definition cli_dev_sim (d : cli_dev) (m : rfmem) : Prop :=
  forall k, dv_coil d k = rf_coils m k /\ dv_disc d k = rf_discrete m k /\
            dv_hold d k = rf_holding m k /\ dv_inp d k = rf_input m k.

Definition cli_dev_mem (d : cli_dev) : rfmem :=
  mkrfmem (dv_coil d) (dv_disc d) (dv_hold d) (dv_inp d).

Definition cli_dev_wf (d : cli_dev) : Prop := forall k, dv_hold d k < 65536 /\ dv_inp d k < 65536.

(* The history a command list stands for: sid:n is SetUnitId, every other
   command is ONE typed client call. f names the call: cli_doc_op (the help
   text's operation, Spec/CliSpec.v) or cli_to_op (the code's, with its 16-bit
   quantity + 1). The inner None branch is dead (rf_op_by_cases). *)
Definition cli_rf_op_by (f : cli_operation -> option op) (c : cli_operation) : rf_op :=
  match c with
  | CoSetUnit u => RfSetUnit u
  | _ => match f c with Some o => RfCall o | None => RfSetEnc 0 0 end
  end.

Definition cli_rf_op : cli_operation -> rf_op := cli_rf_op_by cli_doc_op.
Definition cli_rf_op_code : cli_operation -> rf_op := cli_rf_op_by cli_to_op.

(* the device never fails on its own: every step runs under rf_nofail *)
Definition cli_history_by (f : cli_operation -> rf_op) (cs : list cli_operation)
  : list ((hreq -> option herr) * rf_op) := map (fun c => (rf_nofail, f c)) cs.

Definition cli_history : list cli_operation -> list ((hreq -> option herr) * rf_op) :=
  cli_history_by cli_rf_op.
Definition cli_history_code : list cli_operation -> list ((hreq -> option herr) * rf_op) :=
  cli_history_by cli_rf_op_code.

Fixpoint cli_printed_of (cs : list cli_operation) (outs : list rf_result) : list cli_line :=
  match cs, outs with
  | c :: cs', out :: outs' => cli_print c (fst out) ++ cli_printed_of cs' outs'
  | _, _ => []
  end.

Definition cli_e2e_sim (st : cli_state) (s : e2e_state) : Prop :=
  cs_cfg st = e2e_cfg s /\ cs_txn st = e2e_txn s /\ cli_dev_sim (cs_dev st) (e2e_mem s) /\ e2e_wf s.

Definition cli_e2e_of (st : cli_state) : e2e_state :=
  mke2e (cs_cfg st) (cli_dev_mem (cs_dev st)) (cs_txn st) [].

Lemma dev_mem_sim d : cli_dev_sim d (cli_dev_mem d).
Proof. intros k. repeat split. Qed.

Lemma sim_tables d m : cli_dev_sim d m <->
  (forall k, dv_coil d k = rf_coils m k) /\ (forall k, dv_disc d k = rf_discrete m k) /\
  (forall k, dv_hold d k = rf_holding m k) /\ (forall k, dv_inp d k = rf_input m k).
Proof.
  unfold cli_dev_sim. split; [intros H; repeat split; intros k; apply H|intros (H1 & H2 & H3 & H4) k; auto].
Qed.

Lemma dev_mem_wf d : cli_dev_wf d -> rfmem_wf (cli_dev_mem d).
Proof. intros H k. exact (H k). Qed.

Lemma dev_init_wf : cli_dev_wf cli_dev_init.
Proof.
  intros k. unfold cli_dev_init, cli_pat_hold, cli_pat_inp. cbn [dv_hold dv_inp]. lia.
Qed.

Lemma sim_range {A} (f g : N -> A) a n : (forall k, f k = g k) -> cli_range f a n = cells_load g a n.
Proof.
  intros H. unfold cli_range, cells_load, cells_addrs. rewrite map_map. apply map_ext. intros i. apply H.
Qed.

Lemma sim_upd {A} (f g : N -> A) a l d : (forall k, f k = g k) ->
  forall k, cli_upd f a l d k = cells_store g a l k.
Proof.
  intros H k. unfold cli_upd, cells_store.
  destruct ((a <=? k) && (k <? a + lenN l)) eqn:E; [|apply H].
  apply nth_indep. unfold lenN in E. lia.
Qed.

Definition dev_agrees (d : cli_dev) (m : rfmem) (p : pdu) (r : hreq) : Prop :=
  let hr := e2e_mem_handler rf_nofail m r in
  fst (cli_dev_serve d p) = spec_response p r (snd hr) /\
  cli_dev_sim (snd (cli_dev_serve d p)) (fst hr).

Lemma dev_agrees_server : forall d m p r, cli_dev_sim d m -> rfmem_wf m ->
  spec_decode p = Some r -> in_range r = true -> dev_agrees d m p r.
Proof.
  intros d m [u fc pl] r Hs Hm Hd Hr. apply spec_decode_inv in Hd.
  destruct (proj1 (sim_tables d m) Hs) as (Hc & Hi & Hh & Hn).
  assert (Hhw : forall k, rf_holding m k < 65536) by (intros k; apply Hm).
  assert (Hnw : forall k, rf_input m k < 65536) by (intros k; apply Hm).
  destruct Hd as [a1 a0 q1 q0 Hq|a1 a0 q1 q0 Hq|a1 a0 q1 q0 Hq|a1 a0 q1 q0 Hq|a1 a0 v1 Hv|a1 a0 v1 v0
                 |a1 a0 q1 q0 data args Hq Hl Ed|a1 a0 q1 q0 data args Hq Hl Ed];
    unfold in_range in Hr; cbn [h_addr h_qty] in Hr; unfold be2 in *;
    unfold dev_agrees, cli_dev_serve, e2e_mem_handler, rf_nofail;
    cbn [p_unit p_fc p_payload e2e_failure h_kind h_write h_addr h_qty h_bools h_regs fst snd N.eqb Pos.eqb orb].
  (* reads: the device is unchanged *)
  1-4: set (a := a1 * 256 + a0) in *; set (q := q1 * 256 + q0) in *.
  1,2: replace ((q =? 0) || (2000 <? q)) with false by lia.
  3,4: replace ((q =? 0) || (125 <? q)) with false by lia.
  1-4: replace (65536 <? a + q) with false by lia; cbn [fst snd]; (split; [|exact Hs]);
    unfold spec_response; cbn [r_err r_bools r_regs h_kind h_write h_qty p_unit p_fc p_payload].
  1,2: rewrite cells_load_lenN, N.eqb_refl, encode_bools_spec, coil_bytes_lenN.
  3,4: rewrite map_u16_id, cells_load_lenN, N.eqb_refl by (apply cells_load_Forall; assumption).
  - rewrite (sim_range _ _ a q Hc), cells_load_lenN. reflexivity.
  - rewrite (sim_range _ _ a q Hi), cells_load_lenN. reflexivity.
  - rewrite (sim_range _ _ a q Hh), be_regs_be16 by (apply cells_load_Forall; assumption). reflexivity.
  - rewrite (sim_range _ _ a q Hn), be_regs_be16 by (apply cells_load_Forall; assumption). reflexivity.
  (* writes: the response echoes the request, the table is updated alike *)
  - replace ((v1 * 256 + 0 =? 65280) || (v1 * 256 + 0 =? 0)) with true by lia.
    replace (v1 * 256 + 0 =? 65280) with (v1 =? 255) by lia.
    split; [reflexivity|]. apply sim_tables; cbn; repeat split; try assumption. apply sim_upd, Hc.
  - split; [reflexivity|]. apply sim_tables; cbn; repeat split; try assumption. apply sim_upd, Hh.
  - set (q := q1 * 256 + q0) in *.
    replace ((q =? 0) || (1968 <? q) || negb ((q + 7) / 8 =? (q + 7) / 8) || negb (lenN data =? (q + 7) / 8))
      with false by lia.
    replace (65536 <? a1 * 256 + a0 + q) with false by lia. rewrite Ed.
    split; [reflexivity|]. apply sim_tables; cbn; repeat split; try assumption. apply sim_upd, Hc.
  - set (q := q1 * 256 + q0) in *.
    replace ((q =? 0) || (123 <? q) || negb (2 * q =? 2 * q) || negb (lenN data =? 2 * q)) with false by lia.
    replace (65536 <? a1 * 256 + a0 + q) with false by lia. rewrite Ed.
    split; [reflexivity|]. apply sim_tables; cbn; repeat split; try assumption. apply sim_upd, Hh.
Qed.

Lemma dev_serves_op : forall cfg o d m t, op_wf o -> valid_op o = true -> cfg_wf cfg -> t < 65536 ->
  cli_dev_sim d m -> rfmem_wf m ->
  let req := spec_pdu cfg o in
  client_request cfg o = Ok req /\
  e2e_serve rf_nofail m (spec_frame FMbap t req) =
    (rf_commit cfg m o, [rf_request cfg o], assemble_mbap t (fst (cli_dev_serve d req)), Stall) /\
  cli_dev_sim (snd (cli_dev_serve d req)) (rf_commit cfg m o).
Proof.
  intros cfg o d m t Hwf V Hc Ht Hs Hm req.
  pose proof (client_request_exact cfg o Hwf) as Hreq. rewrite V in Hreq. split; [exact Hreq|].
  pose proof (decode_request cfg o Hwf V) as Hd. pose proof (rf_request_range cfg o V) as Hr.
  destruct (dev_agrees_server d m req _ Hs Hm Hd Hr) as [H1 H2]. cbv zeta in H1, H2.
  destruct (handler_answers rf_nofail cfg m o Hwf Hc V Hm eq_refl) as (Hfst & _). rewrite Hfst in H2.
  split; [|exact H2]. rewrite H1, <- Hfst.
  exact (e2e_serve_decoded rf_nofail m t req _ Ht (spec_pdu_wf cfg o Hwf Hc V) rf_nofail_wf Hd Hr).
Qed.

Lemma to_op_doc c o : cli_op_wf c -> cli_to_op c = Some o ->
  op_wf o /\ exists o', cli_doc_op c = Some o' /\ valid_op o = valid_op o' /\ (valid_op o' = true -> o = o').
Proof.
  intros Hwf Ho. destruct (cli_doc_op c) as [o'|] eqn:Hd.
  - destruct (op_agree c o' Hwf Hd) as (o1 & Ho1 & Hwf1 & Hv & Heq). rewrite Ho in Ho1. injection Ho1 as <-.
    split; [exact Hwf1|]. exists o'. auto.
  - destruct (doc_op_none c Hd) as [u ->]. discriminate Ho.
Qed.

Lemma rf_op_by_cases c : cli_op_wf c ->
  (exists u, c = CoSetUnit u /\ cli_rf_op c = RfSetUnit u /\ cli_rf_op_code c = RfSetUnit u) \/
  (exists o o', cli_doc_op c = Some o /\ cli_to_op c = Some o' /\ op_wf o' /\
                valid_op o' = valid_op o /\ (valid_op o = true -> o' = o) /\
                cli_rf_op c = RfCall o /\ cli_rf_op_code c = RfCall o').
Proof.
  intros Hwf. destruct (cli_doc_op c) as [o|] eqn:Hd.
  - right. destruct (op_agree c o Hwf Hd) as (o' & Ho' & Hwf' & Hv & Heq).
    exists o, o'. split; [reflexivity|]. do 4 (split; [assumption|]).
    unfold cli_rf_op, cli_rf_op_code, cli_rf_op_by. rewrite Hd, Ho'.
    destruct c; try (split; reflexivity). cbn in Hd. discriminate Hd.
  - left. destruct (doc_op_none c Hd) as [u ->]. exists u. repeat split.
Qed.

Lemma rf_step_agree fail s o o' : valid_op o' = valid_op o -> (valid_op o = true -> o' = o) ->
  rf_step fail s (RfCall o') = rf_step fail s (RfCall o).
Proof.
  intros Hv Heq. destruct (valid_op o) eqn:V; [rewrite (Heq eq_refl); reflexivity|].
  destruct s as [c m]. cbn [rf_step]. rewrite Hv, V. reflexivity.
Qed.

Lemma rf_step_code fail s c : cli_op_wf c ->
  rf_step fail s (cli_rf_op_code c) = rf_step fail s (cli_rf_op c).
Proof.
  intros Hwf. destruct (rf_op_by_cases c Hwf) as [(u & _ & -> & ->)|(o & o' & _ & _ & _ & Hv & Heq & -> & ->)];
    [reflexivity|]. apply rf_step_agree; assumption.
Qed.

Lemma rf_run_code cs : Forall cli_op_wf cs -> forall s,
  rf_run s (cli_history_code cs) = rf_run s (cli_history cs).
Proof.
  induction 1 as [|c t Hc _ IH]; intros s; [reflexivity|].
  unfold cli_history_code, cli_history, cli_history_by in *. cbn [map rf_run].
  rewrite (rf_step_code rf_nofail s c Hc).
  destruct (rf_step rf_nofail s (cli_rf_op c)) as [s1 out]. rewrite IH. reflexivity.
Qed.

Lemma e2e_sim_mk st m : cfg_wf (cs_cfg st) -> cs_txn st < 65536 -> cli_dev_sim (cs_dev st) m -> rfmem_wf m ->
  cli_e2e_sim st (mke2e (cs_cfg st) m (cs_txn st) []).
Proof.
  intros Hc Ht Hs Hm. unfold cli_e2e_sim. cbn [e2e_cfg e2e_txn e2e_mem].
  split; [reflexivity|]. split; [reflexivity|]. split; [exact Hs|apply e2e_wf_mk; assumption].
Qed.

Lemma e2e_of_sim st : cfg_wf (cs_cfg st) -> cs_txn st < 65536 -> cli_dev_wf (cs_dev st) ->
  cli_e2e_sim st (cli_e2e_of st).
Proof. intros Hc Ht Hd. apply e2e_sim_mk; [exact Hc|exact Ht|apply dev_mem_sim|apply dev_mem_wf, Hd]. Qed.

Lemma cli_exec_e2e st s c : cli_op_wf c -> cli_e2e_sim st s ->
  let r := e2e_step rf_nofail s (cli_rf_op_code c) in
  cli_e2e_sim (cli_exec st c) (fst r) /\
  cs_out (cli_exec st c) = cs_out st ++ cli_print c (fst (snd r)).
Proof.
  intros Hwf (Hcfg & Htxn & Hsim & Hs) r. subst r.
  pose proof Hs as (Hc & Hm & Ht & Hleft).
  destruct (rf_op_by_cases c Hwf) as [(u & -> & _ & ->)|(o' & o & Hd & Ho & Hwfo & Hv & Heq & _ & ->)].
  - destruct (e2e_step_refines rf_nofail s (RfSetUnit u) Hs Hwf rf_nofail_wf) as [_ Hs'].
    cbn [e2e_step fst snd] in *. rewrite exec_set_unit. cbn [cs_out cli_print].
    split; [|rewrite app_nil_r; reflexivity].
    unfold cli_e2e_sim. cbn [cs_cfg cs_txn cs_dev e2e_cfg e2e_txn e2e_mem]. rewrite Hcfg.
    split; [reflexivity|]. split; [exact Htxn|]. split; [exact Hsim|exact Hs'].
  - cbn [e2e_step]. destruct (e2e_call_refines rf_nofail s o Hs Hwfo rf_nofail_wf) as (H1 & H2 & Hs').
    destruct (valid_op o) eqn:V.
    + (* within limits: one exchange, the device in place of the server *)
      rewrite (e2e_call_served rf_nofail s o Hs Hwfo rf_nofail_wf V) in Hs' |- *. cbv zeta in Hs' |- *.
      rewrite <- Hcfg, <- Htxn in *.
      destruct (dev_agrees_server (cs_dev st) (e2e_mem s) (spec_pdu (cs_cfg st) o) _ Hsim Hm
                  (decode_request _ o Hwfo V) (rf_request_range _ o V)) as [Hres Hsim'].
      cbv zeta in Hres, Hsim'. rewrite <- Hres, <- assemble_mbap_is_spec in Hs' |- *.
      pose proof (client_request_exact (cs_cfg st) o Hwfo) as Hreq. rewrite V in Hreq.
      unfold cli_exec. rewrite Ho, Hreq.
      destruct (cli_dev_serve (cs_dev st) (spec_pdu (cs_cfg st) o)) as [res d'].
      cbn [fst snd cs_out] in *. split; [|reflexivity].
      unfold cli_e2e_sim. cbn [cs_cfg cs_txn cs_dev e2e_cfg e2e_txn e2e_mem].
      split; [reflexivity|]. split; [exact (cr_txn_ok _ _ _ _ _ _ Hreq)|]. split; [exact Hsim'|exact Hs'].
    + (* beyond the limits: rejected locally on both sides *)
      symmetry in Hv.
      rewrite (exec_invalid st c o' Hwf Hd Hv). cbn [cs_out].
      unfold e2e_view in H1, H2. cbn [rf_step] in H1, H2. rewrite V in H1, H2.
      cbn [fst snd] in H1, H2. rewrite H2. cbn [fst cli_print]. split; [|reflexivity].
      rewrite H1 in Hs' |- *.
      unfold cli_e2e_sim. cbn [cs_cfg cs_txn cs_dev e2e_cfg e2e_txn e2e_mem].
      split; [exact Hcfg|]. split; [exact Htxn|]. split; [exact Hsim|exact Hs'].
Qed.

Lemma cli_run_e2e : forall cs st s, Forall cli_op_wf cs -> cli_e2e_sim st s ->
  let r := e2e_run s (cli_history_code cs) in
  cli_e2e_sim (cli_run st cs) (fst r) /\
  cs_out (cli_run st cs) = cs_out st ++ cli_printed_of cs (snd r).
Proof.
  induction cs as [|c t IH]; intros st s Hall Hsim.
  - cbn. rewrite app_nil_r. split; [exact Hsim|reflexivity].
  - inversion Hall as [|? ? Hc Ht]; subst.
    destruct (cli_exec_e2e st s c Hc Hsim) as [H1 H2]. cbv zeta in H1, H2.
    unfold cli_history_code, cli_history_by in *. cbn [map e2e_run cli_run fold_left].
    destruct (e2e_step rf_nofail s (cli_rf_op_code c)) as [s1 out]. cbn [fst snd] in H1, H2.
    destruct (IH (cli_exec st c) s1 Ht H1) as [H3 H4]. cbv zeta in H3, H4.
    destruct (e2e_run s1 (map (fun c0 => (rf_nofail, cli_rf_op_code c0)) t)) as [s2 outs].
    cbn [fst snd] in *. unfold cli_run in H3, H4. split; [exact H3|].
    rewrite H4, H2, <- app_assoc. reflexivity.
Qed.

Lemma rf_op_code_wf c : cli_op_wf c -> rf_op_wf (cli_rf_op_code c).
Proof.
  intros Hc. destruct (rf_op_by_cases c Hc) as [(u & -> & _ & ->)|(o & o' & _ & _ & Hwf & _ & _ & _ & ->)];
    cbn [rf_op_wf]; assumption.
Qed.

Lemma history_code_wf cs : Forall cli_op_wf cs -> rf_history_wf (cli_history_code cs).
Proof.
  intros H. unfold rf_history_wf, cli_history_code, cli_history_by. apply Forall_map.
  eapply Forall_impl; [|exact H]. intros c Hc. exact (conj rf_nofail_wf (rf_op_code_wf c Hc)).
Qed.

Lemma sim_dev_wf d m : cli_dev_sim d m -> rfmem_wf m -> cli_dev_wf d.
Proof.
  intros Hs Hm k. destruct (Hs k) as (_ & _ & H1 & H2). rewrite H1, H2. apply Hm.
Qed.

Lemma cli_exec_refines_rf : forall st m c,
  cli_op_wf c -> cfg_wf (cs_cfg st) -> cs_txn st < 65536 -> cli_dev_sim (cs_dev st) m -> rfmem_wf m ->
  let r := rf_step rf_nofail (cs_cfg st, m) (cli_rf_op c) in
  cs_cfg (cli_exec st c) = fst (fst r) /\
  cli_dev_sim (cs_dev (cli_exec st c)) (snd (fst r)) /\ rfmem_wf (snd (fst r)) /\
  cs_txn (cli_exec st c) < 65536 /\
  cs_out (cli_exec st c) = cs_out st ++ cli_print c (fst (snd r)).
Proof.
  intros st m c Hwf Hc Ht Hsim Hm r. subst r.
  pose proof (e2e_sim_mk st m Hc Ht Hsim Hm) as Hss. pose proof Hss as (_ & _ & _ & Hs).
  set (s := mke2e (cs_cfg st) m (cs_txn st) []) in *.
  destruct (cli_exec_e2e st s c Hwf Hss) as [(E1 & E2 & E3 & E4) E5]. cbv zeta in *.
  destruct (e2e_step_refines rf_nofail s (cli_rf_op_code c) Hs (rf_op_code_wf c Hwf) rf_nofail_wf) as [R _].
  rewrite (rf_step_code rf_nofail (e2e_view s) c Hwf) in R.
  change (e2e_view s) with (cs_cfg st, m) in R. rewrite <- R. cbn [fst snd]. unfold e2e_view. cbn [fst snd].
  destruct E4 as (_ & Hm' & Ht' & _).
  split; [exact E1|]. split; [exact E3|]. split; [exact Hm'|]. split; [rewrite E2; exact Ht'|exact E5].
Qed.

(* cli_run_e2e: the loop is the C04 composition; e2e_run_refines: the
   composition refines the register file; rf_run_code: the code's 16-bit
   quantity + 1 does not matter. *)
Lemma cli_run_refines_rf : forall cs st m,
  Forall cli_op_wf cs -> cfg_wf (cs_cfg st) -> cs_txn st < 65536 -> cli_dev_sim (cs_dev st) m -> rfmem_wf m ->
  let r := rf_run (cs_cfg st, m) (cli_history cs) in
  cs_cfg (cli_run st cs) = fst (fst r) /\
  cli_dev_sim (cs_dev (cli_run st cs)) (snd (fst r)) /\ rfmem_wf (snd (fst r)) /\
  cs_out (cli_run st cs) = cs_out st ++ cli_printed_of cs (snd r).
Proof.
  intros cs st m Hall Hc Ht Hsim Hm r. subst r.
  pose proof (e2e_sim_mk st m Hc Ht Hsim Hm) as Hss. pose proof Hss as (_ & _ & _ & Hs).
  set (s := mke2e (cs_cfg st) m (cs_txn st) []) in *.
  destruct (cli_run_e2e cs st s Hall Hss) as [(E1 & E2 & E3 & E4) E5]. cbv zeta in *.
  destruct (e2e_run_refines (cli_history_code cs) s Hs (history_code_wf cs Hall)) as [R _].
  rewrite (rf_run_code cs Hall) in R. change (e2e_view s) with (cs_cfg st, m) in R.
  rewrite <- R. cbn [fst snd]. unfold e2e_view. cbn [fst snd].
  destruct E4 as (_ & Hm' & _ & _).
  split; [exact E1|]. split; [exact E3|]. split; [exact Hm'|exact E5].
Qed.

Lemma exec_valid_rf st m c o : cli_op_wf c -> cli_rf_op c = RfCall o -> valid_op o = true ->
  cfg_wf (cs_cfg st) -> cs_txn st < 65536 -> cli_dev_sim (cs_dev st) m -> rfmem_wf m ->
  cs_out (cli_exec st c) = cs_out st ++ cli_print c (Ok (rf_read (cs_cfg st) m o)) /\
  cli_dev_sim (cs_dev (cli_exec st c)) (rf_commit (cs_cfg st) m o).
Proof.
  intros Hwf Hop Hv Hc Htx Hsim Hm.
  destruct (cli_exec_refines_rf st m c Hwf Hc Htx Hsim Hm) as (_ & E2 & _ & _ & E5). cbv zeta in E2, E5.
  rewrite Hop in E2, E5. cbn [rf_step] in E2, E5. rewrite Hv in E2, E5.
  cbn [rf_nofail rf_failure fst snd] in E2, E5. split; [exact E5|exact E2].
Qed.
