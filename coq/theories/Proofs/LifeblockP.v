(* Proofs about Model/Lifeblock.v: the lifecycle system with a Start whose listen
   step fails while a foreign listener occupies the address. *)
From Coq Require Import List Arith Bool Lia.
Import ListNotations.
From Modbus Require Import Base.Trace Model.Slots Model.Lifeblock Proofs.SlotsP.

Record LInv (b : lb_state) : Prop := {
  linv_srv : Inv (lb_srv b);
  linv_excl : lb_blocked b = true -> listening (lb_srv b) = false
}.

Lemma linv_init m : LInv (lb_init m).
Proof. constructor; [apply inv_init|cbn; discriminate]. Qed.

Lemma lb_eta b : mk_lb (lb_srv b) (lb_blocked b) = b.
Proof. destruct b. reflexivity. Qed.

Lemma start_fails_spec b :
  lb_start_fails b = true <-> started (lb_srv b) = false /\ lb_blocked b = true.
Proof. unfold lb_start_fails. rewrite andb_true_iff, negb_true_iff. tauto. Qed.

Lemma failed_start_unchanged b : lb_start_fails b = true -> lb_step b (LSrv Start) = b.
Proof. intros H. unfold lb_step. rewrite H. reflexivity. Qed.

Lemma failed_starts_unchanged b n : lb_start_fails b = true ->
  lb_run b (repeat (LSrv Start) n) = b.
Proof.
  intros H. induction n as [|n IH]; [reflexivity|].
  cbn [repeat]. unfold lb_run in *. cbn [fold_left]. rewrite (failed_start_unchanged b H). exact IH.
Qed.

Lemma free_start_is_start b : lb_blocked b = false ->
  lb_start_fails b = false /\ lb_step b (LSrv Start) = mk_lb (step (lb_srv b) Start) false.
Proof.
  intros H. assert (F : lb_start_fails b = false) by (unfold lb_start_fails; rewrite H; apply andb_false_r).
  split; [exact F|]. unfold lb_step. rewrite F, H. reflexivity.
Qed.

Lemma linv_step b l : LInv b -> LInv (lb_step b l).
Proof.
  intros [I X]. destruct l as [x| |].
  - assert (G : forall y, y <> Start -> LInv (mk_lb (step (lb_srv b) y) (lb_blocked b))).
    { intros y Hy. constructor; cbn [lb_srv lb_blocked].
      - apply inv_step, I.
      - intros Hb. apply listening_step; [exact Hy|apply X, Hb]. }
    destruct x; try (apply G; discriminate).
    unfold lb_step. destruct (lb_start_fails b) eqn:F; [constructor; assumption|].
    constructor; cbn [lb_srv lb_blocked]; [apply inv_step, I|].
    intros Hb. unfold lb_start_fails in F. rewrite Hb, andb_true_r in F. apply negb_false_iff in F.
    rewrite (step_start_started _ F). apply X, Hb.
  - unfold lb_step. destruct (lb_block_ok b) eqn:K; [|constructor; assumption].
    constructor; cbn [lb_srv lb_blocked]; [exact I|]. intros _.
    unfold lb_block_ok in K. apply andb_true_iff in K as [K _]. apply negb_true_iff in K. exact K.
  - constructor; cbn [lb_srv lb_blocked lb_step]; [exact I|discriminate].
Qed.

Lemma lb_reachable_inv m tr : LInv (lb_run (lb_init m) tr).
Proof. apply (run_keeps lb_step LInv); [intros b l; apply linv_step|apply linv_init]. Qed.

(* the system extends Slots.v in the sense of SlotsP.v, section Extension *)
Lemma lb_step_srv b l :
  lb_srv (lb_step b l) = lb_srv b \/
  exists x, l = LSrv x /\ lb_srv (lb_step b l) = step (lb_srv b) x.
Proof.
  destruct l as [x| |].
  - destruct x; try (right; eexists; split; reflexivity).
    unfold lb_step. destruct (lb_start_fails b); [left; reflexivity|right; eexists; split; reflexivity].
  - left. unfold lb_step. destruct (lb_block_ok b); reflexivity.
  - left. reflexivity.
Qed.

(* failed Starts and the environment steps are invisible to the server
   component, so every theorem of C09.v / C10.v about reachable states carries
   over *)
Lemma lb_reach_proj m tr : exists tr', lb_srv (lb_run (lb_init m) tr) = run (init m) tr'.
Proof. exact (ext_reach_proj lb_step lb_srv LSrv lb_step_srv (lb_init m) tr). Qed.
