(* Proofs about Model/RoleResume.v (property C15, TLS clients that keep a
   session cache: later connections may resume an earlier session).  The
   handshake oracle (with resumption), the verification oracle and the clock
   are section variables; what crypto/tls documents (tls_resume_documented) is
   an explicit premise of the lemmas that need it. *)
From Modbus Require Import Base.Bytes Model.Utf8 Model.Der Model.Role Model.TlsPolicy Model.RoleSeq
  Model.RoleResume Spec.RoleSpec Proofs.RoleP Proofs.TlsPolicyP Proofs.RoleSeqP.

Section RoleResumeProofs.
  Variable hsr : tls_policy -> tls_peer -> option tls_session -> option tls_rsession.
  Variable verifies : option (list tls_cert) -> tls_usage -> N -> list N -> list tls_cert -> Prop.
  Variable now : N.

  Lemma start_tls_r_some c peer offer b role :
    tls_start_tls_r hsr c peer offer = Some (b, role) ->
    exists rs leaf more,
      hsr (tls_policy_of_server c) peer offer = Some rs /\ trs_resumed rs = b /\
      tss_peer_certs (trs_state rs) = leaf :: more /\ role = extract_role (tlc_exts leaf).
  Proof.
    unfold tls_start_tls_r, tls_role_of_state.
    destruct (hsr (tls_policy_of_server c) peer offer) as [rs|]; [|discriminate].
    destruct (tss_peer_certs (trs_state rs)) as [|leaf more] eqn:Ec; [discriminate|].
    intros [= <- <-]. exists rs, leaf, more. auto.
  Qed.

  Lemma handshake_r_chain c peer offer rs :
    tls_resume_documented hsr verifies now ->
    (forall t, offer = Some t -> tss_peer_certs t = tpe_chain peer) ->
    hsr (tls_policy_of_server c) peer offer = Some rs ->
    tss_peer_certs (trs_state rs) = tpe_chain peer.
  Proof.
    intros Hdoc Hoff Hh.
    destruct (Hdoc _ _ _ _ Hh) as (_ & _ & _ & Hfull & Hres).
    destruct (trs_resumed rs) eqn:Er.
    - destruct (Hres eq_refl) as (t & Ht & _ & Hc). rewrite Hc. apply Hoff, Ht.
    - destruct (Hfull eq_refl eq_refl) as (Hc & _). exact Hc.
  Qed.

  Lemma start_tls_r_leaf c peer offer b role :
    tls_resume_documented hsr verifies now ->
    (forall t, offer = Some t -> tss_peer_certs t = tpe_chain peer) ->
    tls_start_tls_r hsr c peer offer = Some (b, role) ->
    exists leaf more, tpe_chain peer = leaf :: more /\ role = extract_role (tlc_exts leaf).
  Proof.
    intros Hdoc Hoff Hs. apply start_tls_r_some in Hs.
    destruct Hs as (rs & leaf & more & Hh & _ & Hc & ->).
    exists leaf, more. split; [|reflexivity].
    rewrite <- (handshake_r_chain c peer offer rs Hdoc Hoff Hh). exact Hc.
  Qed.

  (* ident k is the chain the client with cache k presents *)
  Definition caches_of (ident : N -> list tls_cert) (cs : tls_caches) : Prop :=
    forall k s, tls_cache_get k cs = Some s -> tss_peer_certs s = ident k.

  Definition per_identity (ident : N -> list tls_cert) (conns : list tls_rconn) : Prop :=
    forall x k, In x conns -> trc_cache x = Some k -> tpe_chain (trc_peer x) = ident k.

  Lemma caches_of_nil ident : caches_of ident [].
  Proof. intros k s. cbn. discriminate. Qed.

  Lemma caches_of_offer ident cs x :
    caches_of ident cs ->
    (forall k, trc_cache x = Some k -> tpe_chain (trc_peer x) = ident k) ->
    forall t, tls_cache_offer (trc_cache x) cs = Some t -> tss_peer_certs t = tpe_chain (trc_peer x).
  Proof.
    intros Hcs Hx t. unfold tls_cache_offer. destruct (trc_cache x) as [k|]; [|discriminate].
    intros Hg. rewrite (Hx k eq_refl). apply Hcs, Hg.
  Qed.

  Lemma caches_of_put ident c cs x :
    tls_resume_documented hsr verifies now ->
    caches_of ident cs ->
    (forall k, trc_cache x = Some k -> tpe_chain (trc_peer x) = ident k) ->
    caches_of ident
      (tls_cache_put (trc_cache x)
         (hsr (tls_policy_of_server c) (trc_peer x) (tls_cache_offer (trc_cache x) cs)) cs).
  Proof.
    intros Hdoc Hcs Hx. pose proof (caches_of_offer ident cs x Hcs Hx) as Hoff.
    unfold tls_cache_put.
    destruct (hsr (tls_policy_of_server c) (trc_peer x) (tls_cache_offer (trc_cache x) cs)) as [rs|] eqn:Eh.
    - pose proof (handshake_r_chain c (trc_peer x) _ rs Hdoc Hoff Eh) as Hc.
      destruct (trc_cache x) as [id|]; [|exact Hcs].
      intros k s. cbn [tls_cache_get]. destruct (id =? k) eqn:Eid; [|apply Hcs].
      intros [= <-]. apply N.eqb_eq in Eid. subst k. rewrite <- (Hx id eq_refl). exact Hc.
    - destruct (trc_cache x); exact Hcs.
  Qed.

  Lemma serve_cached_length c cs conns : length (tls_serve_cached hsr c cs conns) = length conns.
  Proof.
    revert cs. induction conns as [|x l IH]; intros cs; cbn [tls_serve_cached length]; [reflexivity|].
    rewrite IH. reflexivity.
  Qed.

  Lemma serve_cached_leaf ident c cs conns i b role :
    tls_resume_documented hsr verifies now ->
    per_identity ident conns -> caches_of ident cs ->
    nth_error (tls_serve_cached hsr c cs conns) i = Some (Some (b, role)) ->
    exists x leaf more,
      nth_error conns i = Some x /\ tpe_chain (trc_peer x) = leaf :: more /\
      role = extract_role (tlc_exts leaf).
  Proof.
    intros Hdoc. revert cs i. induction conns as [|x l IH]; intros cs i Hid Hcs.
    - destruct i; discriminate.
    - assert (Hx : forall k, trc_cache x = Some k -> tpe_chain (trc_peer x) = ident k).
      { intros k. apply Hid. left. reflexivity. }
      cbn [tls_serve_cached]. destruct i as [|i]; cbn [nth_error].
      + intros [= Hs].
        destruct (start_tls_r_leaf c (trc_peer x) _ b role Hdoc (caches_of_offer ident cs x Hcs Hx) Hs)
          as (leaf & more & Hc & Hr).
        exists x, leaf, more. auto.
      + apply IH.
        * intros y k Hy. apply Hid. right. exact Hy.
        * apply caches_of_put; assumption.
  Qed.
End RoleResumeProofs.
