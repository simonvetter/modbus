(* Proofs about Model/TlsHistory.v (property C14): a server object and the
   history of the connection attempts it takes. Every attempt of a history is
   decided as the same attempt on a fresh server built from the same
   configuration is (Proofs/TlsPolicyP.v), whatever the other attempts of the
   history are: what they presented, whether they were served. *)
From Modbus Require Import Base.Bytes Model.Wire Model.Server Model.TlsPolicy Model.TlsHistory.

Section TlsHistoryProofs.
  Variable hs : tls_policy -> tls_peer -> option tls_session.
  Context {St : Type} (h : list N -> handler St).

  Lemma tls_obj_accept_object o e a : fst (tls_obj_accept hs h o e a) = o.
  Proof. reflexivity. Qed.

  Lemma tls_obj_history_eq o e l :
    tls_obj_history hs h o e l = (o, map (tls_attempt_alone hs h (tso_conf o) e) l).
  Proof.
    induction l as [|a rest IH]; [reflexivity|].
    cbn [tls_obj_history map]. unfold tls_obj_accept. rewrite IH. reflexivity.
  Qed.

  Lemma tls_server_history_pointwise c e l :
    tls_server_history hs h c e l = map (tls_attempt_alone hs h c e) l.
  Proof. unfold tls_server_history. rewrite tls_obj_history_eq. reflexivity. Qed.

  Lemma tls_server_history_length c e l : length (tls_server_history hs h c e l) = length l.
  Proof. rewrite tls_server_history_pointwise. apply map_length. Qed.

  Lemma tls_server_history_nth c e l k :
    nth_error (tls_server_history hs h c e l) k =
    option_map (tls_attempt_alone hs h c e) (nth_error l k).
  Proof. rewrite tls_server_history_pointwise. apply nth_error_map. Qed.
End TlsHistoryProofs.
