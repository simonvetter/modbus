(* Proofs about Model/TlsPolicy.v (property C14). The two handshake oracles,
   the verification oracle and the clock are section variables; what Go's
   crypto/tls documents about them (tls_srv_documented, tls_cli_documented)
   is an explicit premise of every lemma that needs it. *)
From Modbus Require Import Base.Bytes Model.Encoding Model.Wire Model.Client Model.Server
  Model.Role Model.Config Model.TlsPolicy
  Spec.ModbusSpec Spec.ServerSpec Spec.ServerSessionSpec Spec.ConfigSpec Spec.TlsSpec
  Proofs.ConfigP Proofs.ServerP.

Lemma tls_geb_12 v : tls_version_geb v TLS12 = true -> tls12_or_later v.
Proof. unfold tls12_or_later. destruct v; cbv; intros H; try discriminate H; auto. Qed.

Lemma tls_cut_last_colon_app host port :
  ~ In 58 port -> tls_cut_last_colon (host ++ 58 :: port) = Some host.
Proof.
  intros Hp.
  assert (Hn : tls_cut_last_colon port = None).
  { induction port as [|c t IH]; [reflexivity|]. cbn [tls_cut_last_colon].
    rewrite IH by (intros H; apply Hp; right; exact H).
    destruct (c =? 58) eqn:E; [|reflexivity].
    apply N.eqb_eq in E. subst c. exfalso. apply Hp. left. reflexivity. }
  induction host as [|c t IH]; cbn [app tls_cut_last_colon].
  - rewrite Hn. reflexivity.
  - rewrite IH. reflexivity.
Qed.

(* T3: the constructor refuses a tcp+tls configuration exactly when the
   certificate or the pool is missing *)
Lemma tls_new_server_refuses_iff c rest :
  url_scheme (tsv_url c) STcpTls rest -> rest <> [] ->
  (tls_new_server c = CfgErr EConfig <-> tsv_cert c = None \/ tsv_cas c = None).
Proof.
  intros Hu Hr. unfold tls_new_server, new_server, tsv_base.
  cbn [sc_url sc_has_cert sc_has_cas sc_timeout sc_max_clients].
  rewrite (url_parts_scheme _ _ _ Hu), kind_of_scheme.
  destruct rest as [|r0 rest]; [destruct (Hr eq_refl)|].
  cbn [scheme_transport].
  destruct (tsv_cert c), (tsv_cas c); cbn [tls_is_some negb]; split; intros H.
  all: try discriminate H; try reflexivity; try (left; reflexivity); try (right; reflexivity).
  all: destruct H as [H|H]; discriminate H.
Qed.

Lemma tls_new_client_refuses_iff c rest :
  url_scheme (tcl_url c) STcpTls rest ->
  (tls_new_client c = CfgErr EConfig <-> tcl_cert c = None \/ tcl_roots c = None).
Proof.
  intros Hu. unfold tls_new_client, new_client, tcl_base.
  cbn [cc_url cc_has_cert cc_has_cas cc_timeout cc_speed cc_data_bits cc_stop_bits cc_parity].
  rewrite (url_parts_scheme _ _ _ Hu), kind_of_scheme.
  cbn [scheme_transport].
  destruct (tcl_cert c), (tcl_roots c); cbn [tls_is_some negb]; split; intros H.
  all: try discriminate H; try reflexivity; try (left; reflexivity); try (right; reflexivity).
  all: destruct H as [H|H]; discriminate H.
Qed.

Lemma tls_new_server_accepts c rest cert cas :
  url_scheme (tsv_url c) STcpTls rest -> rest <> [] ->
  tsv_cert c = Some cert -> tsv_cas c = Some cas ->
  exists eff, tls_new_server c = CfgOk eff /\ se_transport eff = TTcpOverTls.
Proof.
  intros Hu Hr Hc Ha. exists (spec_server_eff STcpTls rest (tsv_base c)). split; [|reflexivity].
  apply new_server_ok; [exact Hu | reflexivity | exact Hr |].
  intros _. cbn [tsv_base sc_has_cert sc_has_cas]. rewrite Hc, Ha. split; reflexivity.
Qed.

Lemma tls_new_client_accepts c rest cert roots :
  url_scheme (tcl_url c) STcpTls rest ->
  tcl_cert c = Some cert -> tcl_roots c = Some roots ->
  exists eff, tls_new_client c = CfgOk eff /\ ce_transport eff = TTcpOverTls.
Proof.
  intros Hu Hc Ha. exists (spec_client_eff STcpTls rest (tcl_base c)). split; [|reflexivity].
  apply new_client_ok; [exact Hu|].
  intros _. cbn [tcl_base cc_has_cert cc_has_cas]. rewrite Hc, Ha. split; reflexivity.
Qed.

Lemma tls_new_server_tls c rest eff :
  url_scheme (tsv_url c) STcpTls rest -> tls_new_server c = CfgOk eff ->
  se_transport eff = TTcpOverTls /\
  exists cert cas, tsv_cert c = Some cert /\ tsv_cas c = Some cas.
Proof.
  intros Hu H. unfold tls_new_server in H.
  assert (Hu' : url_scheme (sc_url (tsv_base c)) STcpTls rest) by exact Hu.
  pose proof (new_server_eff _ _ _ _ H Hu') as He. split; [rewrite He; reflexivity|].
  destruct (new_server_inv _ _ H) as (s & r & Hu2 & _ & _ & Hc).
  destruct (url_scheme_unique _ _ _ _ _ Hu' Hu2) as [<- _].
  destruct (Hc eq_refl) as [H1 H2]. cbn [tsv_base sc_has_cert sc_has_cas] in H1, H2.
  destruct (tsv_cert c) as [cert|]; [|discriminate H1].
  destruct (tsv_cas c) as [cas|]; [|discriminate H2]. eauto.
Qed.

Lemma tls_new_client_tls c rest eff :
  url_scheme (tcl_url c) STcpTls rest -> tls_new_client c = CfgOk eff ->
  ce_transport eff = TTcpOverTls /\
  exists cert roots, tcl_cert c = Some cert /\ tcl_roots c = Some roots.
Proof.
  intros Hu H. unfold tls_new_client in H.
  assert (Hu' : url_scheme (cc_url (tcl_base c)) STcpTls rest) by exact Hu.
  pose proof (new_client_eff _ _ _ _ H Hu') as He. split; [rewrite He; reflexivity|].
  destruct (new_client_inv _ _ H) as (s & r & Hu2 & Hc).
  destruct (url_scheme_unique _ _ _ _ _ Hu' Hu2) as [<- _].
  destruct (Hc eq_refl) as [H1 H2]. cbn [tcl_base cc_has_cert cc_has_cas] in H1, H2.
  destruct (tcl_cert c) as [cert|]; [|discriminate H1].
  destruct (tcl_roots c) as [roots|]; [|discriminate H2]. eauto.
Qed.

Section TlsProofs.
  Variable hs hc : tls_policy -> tls_peer -> option tls_session.
  Variable verifies : option (list tls_cert) -> tls_usage -> N -> list N -> list tls_cert -> Prop.
  Variable now : N.

  Lemma tls_start_tls_some c peer role :
    tls_start_tls hs c peer = Some role ->
    exists sess leaf more,
      hs (tls_policy_of_server c) peer = Some sess /\
      tss_peer_certs sess = leaf :: more /\ role = extract_role (tlc_exts leaf).
  Proof.
    unfold tls_start_tls. destruct (hs (tls_policy_of_server c) peer) as [sess|]; [|discriminate].
    destruct (tss_peer_certs sess) as [|leaf more] eqn:Ec; [discriminate|].
    intros [= <-]. exists sess, leaf, more. auto.
  Qed.

  Section WithRoleHandler.
    Context {St : Type} (h : list N -> handler St).

    (* handleTCPClient: no server object holding both credentials and no
       successful startTLS, no handleTransport *)
    Lemma tls_server_call_inv c rest peer st e s r :
      url_scheme (tsv_url c) STcpTls rest ->
      In (EvCall r) (tls_server_conn hs h c peer st e s) ->
      exists cas sess, tsv_cas c = Some cas /\ hs (tls_policy_of_server c) peer = Some sess.
    Proof.
      intros Hu. unfold tls_server_conn.
      destruct (tls_new_server c) as [eff|x] eqn:En; [|intros []].
      destruct (tls_new_server_tls c rest eff Hu En) as (-> & cert & cas & _ & Hc).
      destruct (tls_start_tls hs c peer) as [role|] eqn:Es.
      - apply tls_start_tls_some in Es. destruct Es as (sess & _ & _ & Hs & _). eauto.
      - intros [H|[]]. discriminate H.
    Qed.

    Lemma tls_server_handshake_failed c eff peer st e s :
      tls_new_server c = CfgOk eff -> se_transport eff = TTcpOverTls ->
      hs (tls_policy_of_server c) peer = None ->
      tls_server_conn hs h c peer st e s = [EvClosed].
    Proof.
      intros En Ht Hs. unfold tls_server_conn, tls_start_tls. rewrite En, Ht, Hs. reflexivity.
    Qed.

    (* T1: a handler call on a tcp+tls server means that the handshake gave a
       session, hence that the peer verified against the pool *)
    Lemma tls_server_call_authenticated c rest peer st e s r :
      tls_srv_documented hs verifies now ->
      url_scheme (tsv_url c) STcpTls rest ->
      In (EvCall r) (tls_server_conn hs h c peer st e s) ->
      exists cas sess,
        tsv_cas c = Some cas /\
        hs (tls_policy_of_server c) peer = Some sess /\
        spec_client_authenticated verifies now cas peer sess.
    Proof.
      intros Hdoc Hu Hin.
      destruct (tls_server_call_inv c rest peer st e s r Hu Hin) as (cas & sess & Hcas & Hs).
      exists cas, sess. split; [exact Hcas|]. split; [exact Hs|].
      destruct (Hdoc _ _ _ Hs) as (Htls & Hoff & Hge & Hrv).
      destruct (Hrv eq_refl) as (Hcerts & Hne & Hver).
      cbn [tls_policy_of_server tpo_pool tpo_min_version] in Hver, Hge.
      rewrite Hcas in Hver.
      destruct (tpe_chain peer) as [|leaf more] eqn:Ech; [destruct (Hne eq_refl)|].
      unfold spec_client_authenticated. split; [exact Htls|].
      split; [apply tls_geb_12; exact Hge|]. split; [exact Hoff|].
      exists leaf, more. rewrite Ech. auto.
    Qed.

    Lemma tls_server_unauthenticated c rest peer st e s :
      tls_srv_documented hs verifies now ->
      url_scheme (tsv_url c) STcpTls rest ->
      (forall cas sess, tsv_cas c = Some cas -> ~ spec_client_authenticated verifies now cas peer sess) ->
      forall r, ~ In (EvCall r) (tls_server_conn hs h c peer st e s).
    Proof.
      intros Hdoc Hu Hno r Hin.
      destruct (tls_server_call_authenticated c rest peer st e s r Hdoc Hu Hin) as (cas & sess & Hc & _ & Ha).
      exact (Hno cas sess Hc Ha).
    Qed.

    Lemma tls_server_unverified c rest peer st e s :
      tls_srv_documented hs verifies now ->
      url_scheme (tsv_url c) STcpTls rest ->
      (forall cas, tsv_cas c = Some cas ->
                   ~ verifies (Some cas) TlsUsageClientAuth now [] (tpe_chain peer)) ->
      forall r, ~ In (EvCall r) (tls_server_conn hs h c peer st e s).
    Proof.
      intros Hdoc Hu Hp. apply (tls_server_unauthenticated c rest); [exact Hdoc | exact Hu|].
      intros cas sess Hc (_ & _ & _ & leaf & more & Hch & _ & Hv).
      apply (Hp cas Hc). rewrite Hch. exact Hv.
    Qed.

    (* T4: an authenticated peer is served, with the role of its leaf *)
    Lemma tls_server_serves c rest peer sess st e t p r tail :
      tls_srv_documented hs verifies now ->
      (forall role, handler_wf (h role)) ->
      url_scheme (tsv_url c) STcpTls rest -> rest <> [] ->
      tsv_cert c <> None -> tsv_cas c <> None ->
      hs (tls_policy_of_server c) peer = Some sess ->
      t < 65536 -> pdu_wf p -> spec_decode p = Some r -> in_range r = true ->
      exists leaf more,
        tpe_chain peer = leaf :: more /\
        let role := extract_role (tlc_exts leaf) in
        tls_server_conn hs h c peer st e (spec_mbap t p ++ tail) =
        EvCall r :: EvResp (spec_mbap t (spec_response p r (snd (h role st r)))) ::
        server_run (h role) (fst (h role st r)) e tail.
    Proof.
      intros Hdoc Hwf Hu Hr Hcert Hcas Hs Ht Hp Hdec Hrange.
      destruct (tsv_cert c) as [cert|] eqn:Ec; [|destruct (Hcert eq_refl)].
      destruct (tsv_cas c) as [cas|] eqn:Ea; [|destruct (Hcas eq_refl)].
      destruct (tls_new_server_accepts c rest cert cas Hu Hr Ec Ea) as (eff & En & Htr).
      destruct (Hdoc _ _ _ Hs) as (_ & _ & _ & Hrv).
      destruct (Hrv eq_refl) as (Hcerts & Hne & _).
      destruct (tpe_chain peer) as [|leaf more] eqn:Ech; [destruct (Hne eq_refl)|].
      exists leaf, more. split; [reflexivity|]. cbv zeta.
      unfold tls_server_conn, tls_start_tls. rewrite En, Htr, Hs, Hcerts.
      set (role := extract_role (tlc_exts leaf)).
      pose proof (server_pipelined (h role) [(t, p)] tail st e) as HP.
      cbn [map concat fst snd] in HP. rewrite app_nil_r in HP.
      rewrite HP by (constructor; [split; assumption | constructor]).
      cbn [spec_session].
      pose proof (server_process_spec (h role) st p Hp (Hwf role)) as HS.
      unfold process_ok in HS.
      destruct (server_process (h role) st p) as [[st' calls] act].
      rewrite Hdec, Hrange in HS. destruct HS as (-> & _ & -> & ->).
      reflexivity.
    Qed.
  End WithRoleHandler.

  (* Open: no client object holding both credentials and no successful
     handshake, nothing written *)
  Lemma tls_client_tx_inv c rest server cfg txn o e s :
    url_scheme (tcl_url c) STcpTls rest ->
    tls_client_tx hc c server cfg txn o e s <> [] ->
    exists roots sess, tcl_roots c = Some roots /\ hc (tls_policy_of_client c) server = Some sess.
  Proof.
    intros Hu. unfold tls_client_tx.
    destruct (tls_new_client c) as [eff|x] eqn:En; [|intros H; destruct (H eq_refl)].
    destruct (tls_new_client_tls c rest eff Hu En) as (Htr & cert & roots & _ & Hr).
    unfold tls_client_open. rewrite Htr.
    destruct (hc (tls_policy_of_client c) server) as [sess|]; [eauto|].
    intros H; destruct (H eq_refl).
  Qed.

  (* T2: the client transmits nothing unless its handshake gave a session *)
  Lemma tls_client_tx_authenticated c rest server cfg txn o e s :
    tls_cli_documented hc verifies now ->
    url_scheme (tcl_url c) STcpTls rest ->
    tls_client_tx hc c server cfg txn o e s <> [] ->
    exists roots sess,
      tcl_roots c = Some roots /\
      hc (tls_policy_of_client c) server = Some sess /\
      spec_server_authenticated verifies now roots (tls_dial_host rest) server sess.
  Proof.
    intros Hdoc Hu Hne.
    destruct (tls_client_tx_inv c rest server cfg txn o e s Hu Hne) as (roots & sess & Hroots & Hs).
    exists roots, sess.
    split; [exact Hroots|]. split; [exact Hs|].
    destruct (Hdoc _ _ _ Hs) as (Htls & Hoff & Hge & Hrv).
    destruct (Hrv eq_refl) as (Hcerts & Hnc & Hver).
    cbn [tls_policy_of_client tpo_pool tpo_min_version tpo_server_name] in Hver, Hge.
    rewrite Hroots, (url_parts_scheme _ _ _ Hu) in Hver. cbn [snd] in Hver.
    destruct (tpe_chain server) as [|leaf more] eqn:Ech; [destruct (Hnc eq_refl)|].
    unfold spec_server_authenticated. split; [exact Htls|].
    split; [apply tls_geb_12; exact Hge|]. split; [exact Hoff|].
    exists leaf, more. rewrite Ech. auto.
  Qed.

  Lemma tls_client_unauthenticated c rest server cfg txn o e s :
    tls_cli_documented hc verifies now ->
    url_scheme (tcl_url c) STcpTls rest ->
    (forall roots sess, tcl_roots c = Some roots ->
       ~ spec_server_authenticated verifies now roots (tls_dial_host rest) server sess) ->
    tls_client_tx hc c server cfg txn o e s = [].
  Proof.
    intros Hdoc Hu Hno.
    destruct (tls_client_tx hc c server cfg txn o e s) as [|w ws] eqn:E; [reflexivity|].
    destruct (tls_client_tx_authenticated c rest server cfg txn o e s Hdoc Hu) as (roots & sess & Hr & _ & Ha);
      [rewrite E; discriminate|].
    destruct (Hno roots sess Hr Ha).
  Qed.

  Lemma tls_client_sends c rest server sess cfg txn o e s req :
    url_scheme (tcl_url c) STcpTls rest ->
    tcl_cert c <> None -> tcl_roots c <> None ->
    hc (tls_policy_of_client c) server = Some sess ->
    client_request cfg o = Ok req ->
    tls_client_tx hc c server cfg txn o e s = [assemble_mbap (u16 (txn + 1)) req].
  Proof.
    intros Hu Hcert Hroots Hs Hreq.
    destruct (tcl_cert c) as [cert|] eqn:Ec; [|destruct (Hcert eq_refl)].
    destruct (tcl_roots c) as [roots|] eqn:Ea; [|destruct (Hroots eq_refl)].
    destruct (tls_new_client_accepts c rest cert roots Hu Ec Ea) as (eff & En & Htr).
    unfold tls_client_tx, tls_client_open. rewrite En, Htr, Hs.
    cbn [tls_framing_of wiring snd]. unfold client_call. rewrite Hreq.
    cbn [transport_exchange].
    destruct (mbap_read_response (S (length s)) e (u16 (txn + 1)) s) as [r rest'].
    destruct r as [res| | |]; try reflexivity.
    destruct (unit_check req res); reflexivity.
  Qed.
End TlsProofs.
