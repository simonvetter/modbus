(* Proofs for C18b beyond the single call (Proofs/HeapP.v): histories of
   calls with left-over arrays (Model/HeapJunk.v) in which the caller's own
   code stores into arrays between the calls (Spec/AliasValuesSpec.v), and
   what C02 proves of the values of client_call, read off the slices. *)
From Coq Require Import Arith Lia List.
From Modbus Require Import Base.Bytes Base.Trace Model.Crc Model.Encoding Model.Wire Model.Client Model.Heap
  Model.HeapJunk Spec.ModbusSpec Spec.ClientSpec Spec.AliasSpec Spec.AliasValuesSpec
  Proofs.ClientRespP Proofs.HeapP.
Local Open Scope nat_scope.

Lemma call_values gr fr cfg txn o e s h : args_are_caller_slices o h ->
  spec_result_values (snd (hp_call gr fr cfg txn o e s h))
                     (hr_res (fst (hp_call gr fr cfg txn o e s h))) =
  cr_res (client_call fr cfg txn (hp_value_op o h) e s).
Proof.
  intros Ho. rewrite <- (call_eq gr fr cfg txn o e s h (proj1 (args_caller_wf _ _) Ho)). reflexivity.
Qed.

Lemma hxp_store_length id p xs h : length (hx_store id p xs h) = length h.
Proof.
  unfold hx_store. destruct (p + length xs <=? length (hp_arr h id)); [apply hp_upd_length|reflexivity].
Qed.

Lemma hxp_upd_firstn n h id a : id < n -> n <= length h ->
  firstn n (hp_upd h id a) = hp_upd (firstn n h) id a.
Proof.
  intros Hid Hn. unfold hp_upd. rewrite firstn_length.
  replace (id <? length h) with true by (symmetry; apply Nat.ltb_lt; lia).
  replace (id <? Nat.min n (length h)) with true by (symmetry; apply Nat.ltb_lt; lia).
  rewrite firstn_app, firstn_length. rewrite (firstn_all2 (firstn id h)) by (rewrite firstn_length; lia).
  rewrite firstn_firstn. replace (Nat.min id n) with id by lia.
  replace (n - Nat.min id (length h)) with (S (n - S id)) by lia. cbn [firstn].
  rewrite skipn_firstn_comm. reflexivity.
Qed.

Lemma hxp_store_firstn n id p xs h : n <= length h ->
  firstn n (hx_store id p xs h) = hx_store id p xs (firstn n h).
Proof.
  intros Hn. unfold hx_store. destruct (Nat.lt_ge_cases id n) as [Hid|Hid].
  - assert (Ea : hp_arr (firstn n h) id = hp_arr h id) by (apply nth_firstn_lt; exact Hid).
    rewrite Ea. destruct (p + length xs <=? length (hp_arr h id)); [|reflexivity].
    apply hxp_upd_firstn; assumption.
  - (* array id is outside the restriction: both sides are firstn n h, fit or not *)
    assert (Eu : forall a, hp_upd (firstn n h) id a = firstn n h).
    { intros a. unfold hp_upd. rewrite firstn_length.
      replace (id <? Nat.min n (length h)) with false by (symmetry; apply Nat.ltb_ge; lia).
      reflexivity. }
    rewrite Eu. destruct (_ <=? _), (_ <=? _); rewrite ?hp_upd_firstn by exact Hid; reflexivity.
Qed.

(* a store commutes with the restriction to the first n arrays, an allocation
   and a call keep what there was *)
Lemma hxp_run_prefix gr fr n evs c : n <= length (hc_heap c) ->
  firstn n (hc_heap (hx_run gr fr c evs)) = hx_caller_only evs (firstn n (hc_heap c)) /\
  n <= length (hc_heap (hx_run gr fr c evs)).
Proof.
  intros Hn.
  apply (run_sim (fun c d => firstn n (hc_heap c) = d /\ n <= length (hc_heap c)));
    [|split; [reflexivity|exact Hn]].
  clear c Hn. intros c d ev [<- Hn].
  destruct ev as [id p xs|xs|cfg o e chunk j1 j2]; cbn [hx_step].
  - cbn [hc_heap]. rewrite hxp_store_length. split; [apply hxp_store_firstn; exact Hn|exact Hn].
  - cbn [hc_heap]. split; [apply firstn_app_le; exact Hn|rewrite app_length; lia].
  - pose proof (hjp_call_frame gr fr cfg (hc_txn c) o e (hc_left c ++ chunk) j1 j2 (hc_heap c)) as [K _].
    destruct (hj_call gr fr cfg (hc_txn c) o e (hc_left c ++ chunk) j1 j2 (hc_heap c)) as [r h'].
    cbn [hc_heap snd] in *. split; [exact (proj1 (keeps_weaken _ n _ _ Hn K))|destruct K; lia].
Qed.

Lemma hxp_caller_only gr fr c evs :
  firstn (length (hc_heap c)) (hc_heap (hx_run gr fr c evs)) = hx_caller_only evs (hc_heap c).
Proof.
  destruct (hxp_run_prefix gr fr (length (hc_heap c)) evs c (le_n _)) as [E _].
  rewrite firstn_all in E. exact E.
Qed.

Lemma hxp_run_inv gr fr evs c : hc_inv c -> hc_inv (hx_run gr fr c evs).
Proof.
  apply run_keeps. clear c. intros c ev Hc. unfold hc_inv in *.
  destruct ev as [id p xs|xs|cfg o e chunk j1 j2]; cbn [hx_step].
  - cbn [hc_heap hc_results]. rewrite hxp_store_length. exact Hc.
  - exact (results_grow 0 _ _ [] _ (keeps_app _ (hc_heap c) [xs] (le_n _)) (Forall_nil _) Hc).
  - pose proof (hjp_call_frame gr fr cfg (hc_txn c) o e (hc_left c ++ chunk) j1 j2 (hc_heap c)) as [K Q].
    destruct (hj_call gr fr cfg (hc_txn c) o e (hc_left c ++ chunk) j1 j2 (hc_heap c)) as [r h'].
    cbn [hc_heap hc_results fst snd] in *. exact (results_grow _ _ _ _ _ K Q Hc).
Qed.

(* C02 soundness (client_sound), read off the returned slice *)
Lemma call_sound gr fr cfg txn o e s h vs :
  args_are_caller_slices o h ->
  op_wf (hp_value_op o h) -> cfg_wf cfg -> (txn < 65536)%N -> bytesb s = true ->
  spec_result_values (snd (hp_call gr fr cfg txn o e s h))
                     (hr_res (fst (hp_call gr fr cfg txn o e s h))) = Ok vs ->
  valid_op (hp_value_op o h) = true /\
  exists res pre post,
    answers cfg (hp_value_op o h) res vs /\
    s = pre ++ spec_frame fr (u16 (txn + 1)) res ++ post /\
    hr_rest (fst (hp_call gr fr cfg txn o e s h)) = post /\
    match fr with
    | FMbap => exists frames, pre = concat frames /\ Forall (skippable (u16 (txn + 1))) frames
    | FRtu => pre = []
    end.
Proof.
  intros Ho Hwf Hcfg Ht Hb H. rewrite (call_values gr fr cfg txn o e s h Ho) in H.
  replace (hr_rest (fst (hp_call gr fr cfg txn o e s h)))
    with (cr_rest (client_call fr cfg txn (hp_value_op o h) e s))
    by (rewrite <- (call_eq gr fr cfg txn o e s h (proj1 (args_caller_wf _ _) Ho)); reflexivity).
  apply client_sound; assumption.
Qed.

(* C02 no-panic, at the level of memory: no reply stream drives a call into
   an out-of-range index or slice expression *)
Lemma call_no_panic gr fr cfg txn o e s h :
  args_are_caller_slices o h -> op_wf (hp_value_op o h) ->
  hr_res (fst (hp_call gr fr cfg txn o e s h)) <> Panic /\
  hr_res (fst (hp_call gr fr cfg txn o e s h)) <> OutOfFuel.
Proof.
  intros Ho Hwf. pose proof (call_values gr fr cfg txn o e s h Ho) as E.
  destruct (client_no_panic fr cfg txn (hp_value_op o h) e s Hwf) as [Np Nf].
  split; intros Hr; rewrite Hr in E; cbn [spec_result_values] in E; congruence.
Qed.

(* the result lives in arrays of the call (call_frame), which the later events
   keep (run_frame) *)
Lemma result_values_stable : forall gr fr c cfg o e chunk evs,
  args_are_caller_slices o (hc_heap c) ->
  let c1 := hp_step gr fr c (HeCall cfg o e chunk) in
  let c2 := hp_run gr fr c1 evs in
  let v := client_call fr cfg (hc_txn c) (hp_value_op o (hc_heap c)) e (hc_left c ++ chunk) in
  spec_result_values (hc_heap c2)
    (hr_res (fst (hp_call gr fr cfg (hc_txn c) o e (hc_left c ++ chunk) (hc_heap c)))) = cr_res v /\
  hc_txn c1 = cr_txn v /\ hc_left c1 = cr_rest v.
Proof.
  intros gr fr c cfg o e chunk evs Ho c1 c2 v.
  pose proof (call_eq gr fr cfg (hc_txn c) o e (hc_left c ++ chunk) (hc_heap c)
                (proj1 (args_caller_wf _ _) Ho)) as E.
  pose proof (call_frame gr fr cfg (hc_txn c) o e (hc_left c ++ chunk) (hc_heap c)) as [_ Q].
  pose proof (run_frame gr fr evs c1) as [K _]. fold c2 in K.
  subst c1 c2 v. cbn [hp_step] in *.
  destruct (hp_call gr fr cfg (hc_txn c) o e (hc_left c ++ chunk) (hc_heap c)) as [r h1].
  cbn [fst snd hc_heap hc_txn hc_left] in *. rewrite <- E. cbn [spec_call_view cr_res cr_txn cr_rest].
  split; [|split; reflexivity]. exact (values_prefix _ _ _ _ _ Q K).
Qed.

(* with caller stores: the later events change the arrays of the result as the
   caller's own stores do (hxp_caller_only) *)
Lemma history_values : forall gr fr c cfg o e chunk j1 j2 evs,
  args_are_caller_slices o (hc_heap c) ->
  let c1 := hx_step gr fr c (HxCall cfg o e chunk j1 j2) in
  let c2 := hx_run gr fr c1 evs in
  let res := hr_res (fst (hj_call gr fr cfg (hc_txn c) o e (hc_left c ++ chunk) j1 j2 (hc_heap c))) in
  let v := client_call fr cfg (hc_txn c) (hp_value_op o (hc_heap c)) e (hc_left c ++ chunk) in
  spec_result_values (hc_heap c1) res = cr_res v /\
  hc_txn c1 = cr_txn v /\ hc_left c1 = cr_rest v /\
  spec_result_values (hc_heap c2) res = spec_result_values (hx_caller_only evs (hc_heap c1)) res.
Proof.
  intros gr fr c cfg o e chunk j1 j2 evs Ho c1 c2 res v.
  pose proof (hjp_call_eq gr fr cfg (hc_txn c) o e (hc_left c ++ chunk) j1 j2 (hc_heap c)
                (proj1 (args_caller_wf _ _) Ho)) as E.
  pose proof (hjp_call_frame gr fr cfg (hc_txn c) o e (hc_left c ++ chunk) j1 j2 (hc_heap c))
    as [_ Q].
  pose proof (hxp_caller_only gr fr c1 evs) as P. fold c2 in P.
  subst c1 c2 res v. cbn [hx_step] in *.
  destruct (hj_call gr fr cfg (hc_txn c) o e (hc_left c ++ chunk) j1 j2 (hc_heap c)) as [r h1].
  cbn [fst snd hc_heap hc_txn hc_left] in *. rewrite <- E, <- P.
  cbn [spec_call_view cr_res cr_txn cr_rest].
  split; [reflexivity|]. split; [reflexivity|]. split; [reflexivity|]. symmetry.
  apply (values_prefix _ _ _ _ _ Q). rewrite firstn_firstn, PeanoNat.Nat.min_id. reflexivity.
Qed.

Lemma histories_generalised : forall gr fr evs c,
  hx_run gr fr c (map hx_of_event evs) = hp_run gr fr c evs /\
  hx_caller_only (map hx_of_event evs) (hc_heap c) = hc_heap c.
Proof.
  intros gr fr. unfold hx_run, hp_run, hx_caller_only.
  induction evs as [|ev t IH]; intros c; cbn [map fold_left]; [split; reflexivity|].
  assert (Es : hx_step gr fr c (hx_of_event ev) = hp_step gr fr c ev).
  { destruct ev as [xs|cfg o e chunk]; cbn [hx_of_event hx_step hp_step]; [reflexivity|].
    rewrite hjp_call_nil. reflexivity. }
  rewrite Es. split; [apply IH|].
  replace (match hx_of_event ev with HxStore id p xs => hx_store id p xs (hc_heap c) | _ => hc_heap c end)
    with (hc_heap c) by (destruct ev; reflexivity).
  apply IH.
Qed.
