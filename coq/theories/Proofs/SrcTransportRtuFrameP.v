(* rtu_transport.go readRTUFrame as translated from the Go source
   (Gen/SrcPure.v) computes the model's t_read_rtu (Model/Transport.v), for
   every world that behaves as io.ReadFull guarantees. *)
From Coq Require Import List NArith String Lia Bool.
Import ListNotations.
From Modbus Require Import Base.Bytes Model.GoLite Gen.SrcPure Model.Crc Model.Encoding.
From Modbus Require Import Model.Wire Model.Transport Replay.SrcReplayLib.
From Modbus Require Import Proofs.GoLiteP Proofs.GoLiteLinkP Proofs.SrcCrcP Proofs.SrcLinkP Proofs.SrcMiscP Proofs.SrcClientP.
From Modbus Require Import Proofs.SrcTransportP.
Open Scope string_scope.
Open Scope N_scope.

Lemma expected_len_le fc b2 m : b2 < 256 -> expected_len fc b2 = Some m -> m <= 255.
Proof.
  unfold expected_len. intros Hb H.
  destruct (mem fc [3; 4; 1; 2]); [inversion H; subst; lia|].
  destruct (mem fc [6; 16; 5; 15]); [inversion H; subst; lia|].
  destruct (fc =? 22); [inversion H; subst; lia|].
  destruct (mem fc [131; 132; 129; 130; 134; 144; 133; 143; 150]); [inversion H; subst; lia|].
  discriminate H.
Qed.

(* One statement of the Go function at a time. After the two guards on the
   first read the header has its three bytes; after those on the second the
   body has bytesNeeded bytes, and what the function reads from rxbuf is then
   said once for the buffer header ++ body ++ rest. *)
Lemma run_readRTUFrame fe fuel T tmo la t35 t1 w :
  tworld_hyp fe T "link" -> tworld_wf T src_codes -> erl_hyp fe -> crc_hyp fe ->
  run_fn ge fe fuel src_fn_rtuTransport_readRTUFrame [VN tmo; VN la; VN t35; VN t1; w] = out_read_rtu T tmo la t35 t1 w.
Proof.
  intros (_ & _ & _ & _ & Hrf & _) [_ Hrd] Herl (Hci & Hca & Hce). cbn [append] in Hrf.
  run_body. unfold out_read_rtu, t_read_rtu, lenN. change (c_ueof src_codes) with 21 in *.
  do 5 gl_stmt. rewrite vbytes_zeros.
  (* byteCount, err = io.ReadFull(rt.link, rxbuf[0:3]) *)
  pose proof (Hrd w 3) as H1. pose proof (Hrf w 3) as Hc1.
  destruct (t_readfull T w 3) as [[w1 h] e1]. destruct H1 as (Hb1 & Hl1 & He1 & Hu1). unfold lenN in *.
  rewrite seq_assoc.
  erewrite seq_normal by (gl_arith; rewrite Hc1; gl_close).
  rewrite seq_assoc.
  erewrite seq_normal by (eapply exec_splice; [reflexivity|reflexivity|unfold lenN; rewrite repeat_length; lia..|reflexivity]).
  cbn [N.to_nat firstn app Nat.add].
  gl_stmt. rewrite map_length.
  (* if (byteCount > 0 || err == nil) && byteCount != 3 *)
  gl_return. guard_cases E7; [reflexivity|].
  (* if err != nil && err != io.ErrUnexpectedEOF *)
  gl_return. guard_cases E8; [reflexivity|].
  assert (Hn : List.length h = 3%nat) by lia.
  destruct h as [|a [|b [|c [|? ?]]]]; try discriminate Hn. clear Hl1 He1 Hu1 E7 E8 Hn Hc1.
  apply bytesb_cons in Hb1 as [Ha Hb1]. apply bytesb_cons in Hb1 as [Hb Hb1]. apply bytesb_cons in Hb1 as [Hc _].
  cbn [List.length nth].
  assert (Hzs : List.length (skipn 3 (repeat 0 256)) = 253%nat) by (rewrite skipn_length, repeat_length; reflexivity).
  set (zs := skipn 3 (repeat 0 256)) in *. clearbody zs.
  (* bytesNeeded, err = expectedResponseLenth(uint8(rxbuf[1]), uint8(rxbuf[2])) *)
  pose proof (Herl b c Hb Hc) as Hex. unfold erl_expected in Hex.
  destruct (expected_len b c) as [m|] eqn:Em.
  all: erewrite seq_normal by
    (eapply exec_scall; [repeat eapply evals_cons; [eapply eval_u8_index; first [reflexivity|assumption]..|reflexivity]|exact Hex|reflexivity]).
  2:{ gl_return. reflexivity. }
  gl_return.
  pose proof (expected_len_le b c m Hc Em) as Hm. clear Hex Em.
  (* bytesNeeded += 2; if byteCount + bytesNeeded > 256 *)
  gl_stmt.
  gl_return. guard_cases E256; [reflexivity|].
  (* byteCount, err = io.ReadFull(rt.link, rxbuf[3:3+bytesNeeded]) *)
  pose proof (Hrd w1 (m + 2)) as H2. pose proof (Hrf w1 (m + 2)) as Hc2.
  destruct (t_readfull T w1 (m + 2)) as [[w2 body] e2]. destruct H2 as (Hb2 & Hl2 & He2 & Hu2). unfold lenN in *.
  rewrite seq_assoc.
  erewrite seq_normal by (gl_arith; replace (3 + (m + 2) - 3) with (m + 2) by lia; rewrite Hc2; gl_close).
  rewrite seq_assoc.
  erewrite seq_normal
    by (eapply exec_splice; [reflexivity|reflexivity|unfold lenN; cbn [List.length]; lia..|reflexivity]).
  gl_stmt. rewrite map_length.
  (* if err != nil && err != io.ErrUnexpectedEOF; if byteCount != bytesNeeded *)
  gl_return. guard_cases E14; [reflexivity|].
  gl_return. guard_cases E15; [reflexivity|].
  (* the frame is complete: rxbuf = header, body, rest *)
  cbn [firstn app]. set (rest := skipn _ _). clearbody rest.
  set (rx := a :: b :: c :: (body ++ rest)%list). set (data := firstn (N.to_nat m) body).
  assert (Hd : firstn (N.to_nat (3 + (m + 2) - 2)) rx = ([a; b; c] ++ data)%list).
  { replace (N.to_nat (3 + (m + 2) - 2)) with (List.length [a; b; c] + N.to_nat m)%nat by (cbn [List.length]; lia).
    apply (firstn_into_middle [a; b; c]). lia. }
  assert (Hlo : nth_error rx (N.to_nat (3 + (m + 2) - 2)) = Some (nth (N.to_nat m) body 0)).
  { replace (N.to_nat (3 + (m + 2) - 2)) with (List.length [a; b; c] + N.to_nat m)%nat by (cbn [List.length]; lia).
    apply (nth_error_middle [a; b; c]). lia. }
  assert (Hhi : nth_error rx (N.to_nat (3 + (m + 2) - 1)) = Some (nth (N.to_nat m + 1) body 0)).
  { replace (N.to_nat (3 + (m + 2) - 1)) with (List.length [a; b; c] + (N.to_nat m + 1))%nat by (cbn [List.length]; lia).
    apply (nth_error_middle [a; b; c]). lia. }
  assert (Hpl : firstn (N.to_nat (3 + (m + 2) - 2 - 2)) (skipn (N.to_nat 2) rx) = c :: data).
  { replace (N.to_nat (3 + (m + 2) - 2 - 2)) with (S (N.to_nat m)) by lia.
    change (N.to_nat 2) with 2%nat. unfold rx. cbn [skipn firstn]. rewrite firstn_app_le by lia. reflexivity. }
  assert (Hrx : 3 + (m + 2) <= lenN rx).
  { unfold lenN, rx. cbn [List.length]. rewrite app_length. lia. }
  (* rt.crc.init(); rt.crc.add(rxbuf[0:bytesNeeded+1]) *)
  erewrite seq_normal by (gl_step; rewrite Hci; gl_close).
  erewrite seq_normal.
  2:{ eapply exec_scall.
      - eapply evals_cons; [reflexivity|]. eapply evals_cons; [|reflexivity].
        eapply eval_slice0_b; [reflexivity|gl_close|lia].
      - rewrite Hd. apply Hca.
        unfold data. rewrite bytesb_app, bytesb_firstn by exact Hb2. unfold bytesb, is_byte. cbn [forallb]. lia.
      - reflexivity. }
  (* if !rt.crc.isEqual(rxbuf[bytesNeeded+1], rxbuf[bytesNeeded+2]) *)
  rewrite seq_assoc.
  erewrite seq_normal.
  2:{ eapply exec_scall; [|apply Hce|reflexivity].
      eapply evals_cons; [reflexivity|].
      eapply evals_cons; [eapply eval_index_b; [reflexivity|gl_close|exact Hlo]|].
      eapply evals_cons; [eapply eval_index_b; [reflexivity|gl_close|exact Hhi]|reflexivity]. }
  gl_return. unfold crc16.
  destruct (crc_is_equal _ _ _); cbn [negb]; cbv iota; [|reflexivity].
  (* res = &pdu{unitId: rxbuf[0], functionCode: rxbuf[1], payload: rxbuf[2:bytesNeeded+1]} *)
  erewrite seq_normal.
  2:{ eapply exec_setmulti.
      - eapply evals_cons; [reflexivity|].
        eapply evals_cons; [eapply eval_index_b; reflexivity|].
        eapply evals_cons; [eapply eval_index_b; reflexivity|].
        eapply evals_cons; [eapply eval_slice_b; [reflexivity|reflexivity|gl_close|lia|lia]|reflexivity].
      - reflexivity. }
  rewrite Hpl. replace e2 with 0 by lia. reflexivity.
Qed.

Print Assumptions run_readRTUFrame.
