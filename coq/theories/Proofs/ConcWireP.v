(* Proofs about Model/ConcWire.v: every execution of well-bracketed threads
   (Model/Conc.v) shows an atomic wire; what an atomic wire means. *)
From Coq Require Import List Bool Arith Lia.
Import ListNotations.
From Modbus Require Import Model.Conc Model.ConcWire Proofs.ConcP.

(* the outstanding request of the invariant of ConcP is the state of the check *)
Lemma cw_run_inv evs : forall c c' o, cc_inv_mutex c -> cc_inv_out c o -> cc_run c evs = Some c' ->
  cw_run o (cw_proj evs) = true.
Proof.
  induction evs as [|[i a] t IH]; intros c c' o H1 H2 H; [reflexivity|].
  cbn [cc_run] in H. destruct (cc_stepf c (i, a)) as [c1|] eqn:Es; [|discriminate].
  destruct (cc_inv_out_step _ _ _ _ _ H1 H2 Es) as [Hc Hi2].
  pose proof (IH _ _ _ (cc_inv_mutex_step _ _ _ H1 Es) Hi2 H) as Hrest.
  destruct o as [k|].
  - destruct Hc as [[-> ->]|[_ [w ->]]]; cbn [cw_proj cw_run cc_out_next] in *;
      [rewrite Nat.eqb_refl|]; exact Hrest.
  - destruct a; try exact Hrest. congruence.
Qed.

Lemma cw_good_atomic ps evs c : cc_good ps -> cc_exec (cc_init ps) evs c ->
  cw_atomic (cw_proj evs) = true.
Proof.
  intros Hg H. exact (cw_run_inv _ _ _ _ (cc_inv_mutex_init _ Hg) (cc_inv_out_init _ Hg) H).
Qed.

Lemma cw_run_next o l1 : forall k e l2, cw_run o (l1 ++ WReq k :: e :: l2) = true -> e = WEnd k.
Proof.
  revert o. induction l1 as [|x t IH]; intros o k e l2 H.
  - cbn [app cw_run] in H. destruct o; [discriminate|]. destruct e as [j|j]; cbn [cw_run] in H; [discriminate|].
    apply andb_true_iff in H. destruct H as [H _]. apply Nat.eqb_eq in H. subst j. reflexivity.
  - cbn [app cw_run] in H. destruct x as [j|j]; destruct o; try discriminate.
    + exact (IH _ _ _ _ H).
    + apply andb_true_iff in H. destruct H as [_ H]. exact (IH _ _ _ _ H).
Qed.

Lemma cw_run_prev l1 : forall o k l2, cw_run o (l1 ++ WEnd k :: l2) = true ->
  (l1 = [] /\ o = Some k) \/ exists l0, l1 = l0 ++ [WReq k].
Proof.
  induction l1 as [|x t IH]; intros o k l2 H.
  - left. cbn [app cw_run] in H. destruct o as [j|]; [|discriminate].
    apply andb_true_iff in H. destruct H as [H _]. apply Nat.eqb_eq in H. subst j. split; reflexivity.
  - right. cbn [app cw_run] in H. destruct x as [j|j]; destruct o as [j0|]; try discriminate.
    + destruct (IH _ _ _ H) as [[-> Ho]|[l0 ->]].
      * inversion Ho. subst j. exists []. reflexivity.
      * exists (WReq j :: l0). reflexivity.
    + apply andb_true_iff in H. destruct H as [_ H].
      destruct (IH _ _ _ H) as [[_ Ho]|[l0 ->]]; [discriminate|].
      exists (WEnd j :: l0). reflexivity.
Qed.
