(* Proofs about the two framings of Model/Wire.v: io.ReadFull, the MBAP frame
   reader and its skip loop, the RTU frame reader, assembled frames.
   mbap_frame and rtu_frame, the frames written out field by field, are what
   the readers are proved against. *)
(* Two bounds recur. maxTCPFrameLength is 260 = 7 header bytes + 253 PDU
   bytes: readMBAPFrame refuses a length field (unit id + PDU) above 254, so a
   payload (PDU without function code) has at most 252 bytes. maxRTUFrameLength
   is 256 = 3 header bytes (unit, function code, first payload byte) + data + 2
   CRC bytes: the data announced by the header has at most 251 bytes. *)
From Modbus Require Import Base.Bytes Model.Crc Model.Encoding Model.Wire Model.Client
  Spec.ModbusSpec Spec.ClientSpec Proofs.CrcP.

Lemma bytesb_nil : bytesb [] = true.
Proof. reflexivity. Qed.

Lemma be16_small v : v < 256 -> be16 v = [0; v].
Proof. intros Hv. unfold be16. f_equal; [lia|f_equal; lia]. Qed.

Lemma lenN_app {A} (a b : list A) : lenN (a ++ b) = lenN a + lenN b.
Proof. unfold lenN. rewrite app_length. lia. Qed.

Lemma read_full_app n a b : length a = n -> read_full n (a ++ b) = RFull a b.
Proof.
  intros H. unfold read_full. rewrite app_length.
  replace (Nat.leb n (length a + length b)) with true by (symmetry; apply Nat.leb_le; lia).
  subst n. rewrite firstn_app, Nat.sub_diag, firstn_all, firstn_O, app_nil_r.
  rewrite skipn_app, Nat.sub_diag, skipn_all. reflexivity.
Qed.

Lemma read_full_ok n s got rest : read_full n s = RFull got rest ->
  s = got ++ rest /\ length got = n.
Proof.
  unfold read_full. destruct (Nat.leb n (length s)) eqn:E; [|discriminate].
  intros H. inversion H; subst. apply Nat.leb_le in E. split.
  - symmetry. apply firstn_skipn.
  - apply firstn_length_le. exact E.
Qed.

Lemma read_full_short n s got : read_full n s = RShort got ->
  got = s /\ (length s < n)%nat.
Proof.
  unfold read_full. destruct (Nat.leb n (length s)) eqn:E; [discriminate|].
  intros H. inversion H; subst. apply Nat.leb_gt in E. split; [reflexivity|exact E].
Qed.

Lemma read_full_short_iff n s : (length s < n)%nat -> read_full n s = RShort s.
Proof.
  intros H. unfold read_full.
  replace (Nat.leb n (length s)) with false by (symmetry; apply Nat.leb_gt; exact H).
  reflexivity.
Qed.

Lemma read_full_cons n b l :
  read_full (S n) (b :: l) =
  match read_full n l with
  | RFull got rest => RFull (b :: got) rest
  | RShort got => RShort (b :: got)
  end.
Proof.
  unfold read_full. cbn [length Nat.leb firstn skipn].
  destruct (Nat.leb n (length l)); reflexivity.
Qed.

Definition mbap_frame (t proto unit fc : N) (payload : list N) : list N :=
  be16 t ++ be16 proto ++ be16 (2 + lenN payload) ++ [unit; fc] ++ payload.

Lemma mbap_frame_length t proto unit fc payload :
  length (mbap_frame t proto unit fc payload) = (8 + length payload)%nat.
Proof. unfold mbap_frame, be16. cbn [app length]. lia. Qed.

Lemma spec_frame_mbap t p :
  spec_frame FMbap t p = mbap_frame t 0 (p_unit p) (p_fc p) (p_payload p).
Proof. reflexivity. Qed.

(* the model narrows the length field to 16 bits and be16 takes its two low
   bytes anyway *)
Lemma assemble_mbap_is_spec txn p : assemble_mbap txn p = spec_frame FMbap txn p.
Proof. unfold assemble_mbap, spec_frame. rewrite be16_u16. reflexivity. Qed.

Lemma assemble_mbap_spec txn p : lenN (p_payload p) <= 65533 ->
  assemble_mbap txn p = spec_frame FMbap txn p.
Proof. intros _. apply assemble_mbap_is_spec. Qed.

Lemma read_mbap_frame e t proto unit fc payload rest :
  t < 65536 -> proto < 65536 -> lenN payload <= 252 ->
  read_mbap e (mbap_frame t proto unit fc payload ++ rest) =
    (if proto =? 0 then FOk (mkpdu unit fc payload) t else FErr EUnknownProto, rest).
Proof.
  intros Ht Hp Hl. unfold mbap_frame, read_mbap.
  remember (lenN payload) as L eqn:HL.
  change (be16 t ++ be16 proto ++ be16 (2 + L) ++ [unit; fc] ++ payload)
    with ([(t / 256) mod 256; t mod 256; (proto / 256) mod 256; proto mod 256;
           ((2 + L) / 256) mod 256; (2 + L) mod 256; unit] ++ (fc :: payload)).
  rewrite <- app_assoc. rewrite read_full_app by reflexivity.
  replace (((2 + L) / 256) mod 256 * 256 + (2 + L) mod 256) with (2 + L) by lia.
  replace (260 <? 2 + L - 1 + 7) with false by lia.
  replace (2 + L <=? 1) with false by lia.
  rewrite read_full_app by (cbn [length]; unfold lenN in HL; lia).
  replace ((proto / 256) mod 256 * 256 + proto mod 256) with proto by lia.
  replace ((t / 256) mod 256 * 256 + t mod 256) with t by lia.
  destruct (proto =? 0); reflexivity.
Qed.

Lemma read_mbap_cases e s r rest : read_mbap e s = (r, rest) ->
  (exists x, r = FErr x /\ x <> EUnknownProto) \/
  exists t1 t0 p1 p0 l1 l0 unit fc payload,
    s = [t1; t0; p1; p0; l1; l0; unit] ++ (fc :: payload) ++ rest /\
    l1 * 256 + l0 = 2 + lenN payload /\ lenN payload <= 252 /\
    r = if p1 * 256 + p0 =? 0 then FOk (mkpdu unit fc payload) (t1 * 256 + t0)
        else FErr EUnknownProto.
Proof.
  assert (Hshort : short_err e <> EUnknownProto) by (destruct e; discriminate).
  unfold read_mbap. destruct (read_full 7 s) as [hdr r1|got] eqn:E1.
  2:{ intros H; inversion H; subst. left. eexists; split; [reflexivity|exact Hshort]. }
  apply read_full_ok in E1 as [Hs Hl].
  destruct hdr as [|t1 [|t0 [|p1 [|p0 [|l1 [|l0 [|unit [|x hdr]]]]]]]]; try discriminate Hl.
  set (len := l1 * 256 + l0).
  destruct (260 <? len - 1 + 7) eqn:C1;
    [intros H; inversion H; left; eexists; split; [reflexivity|discriminate]|].
  destruct (len <=? 1) eqn:C2;
    [intros H; inversion H; left; eexists; split; [reflexivity|discriminate]|].
  destruct (read_full (N.to_nat (len - 1)) r1) as [body r2|got] eqn:E2.
  2:{ intros H; inversion H; subst. left. eexists; split; [reflexivity|exact Hshort]. }
  apply read_full_ok in E2 as [Hr1 Hb].
  destruct body as [|fc payload]; [cbn [length] in Hb; lia|].
  intros H. right. exists t1, t0, p1, p0, l1, l0, unit, fc, payload.
  assert (Hpl : len = 2 + lenN payload) by (unfold lenN; cbn [length] in Hb; lia).
  destruct (p1 * 256 + p0 =? 0); cbn [negb] in H; inversion H; subst r rest s r1;
    (split; [reflexivity|]); (split; [exact Hpl|]); (split; [lia|reflexivity]).
Qed.

(* any frame result that lets the skip loop go on has consumed 8 bytes or
   more: the 7 header bytes and a function code *)
Lemma read_mbap_len e s r rest : read_mbap e s = (r, rest) ->
  match r with
  | FOk _ _ | FErr EUnknownProto => (length rest + 8 <= length s)%nat
  | FErr _ => True
  end.
Proof.
  intros H. destruct (read_mbap_cases e s r rest H)
    as [(x & -> & Hx)|(t1 & t0 & p1 & p0 & l1 & l0 & unit & fc & payload & -> & _ & _ & ->)].
  - destruct x; try exact I. congruence.
  - destruct (p1 * 256 + p0 =? 0); rewrite !app_length; cbn [length]; lia.
Qed.

Lemma read_mbap_inv e s r rest : bytesb s = true -> read_mbap e s = (r, rest) ->
  (exists x, r = FErr x /\ x <> EUnknownProto) \/
  exists t proto unit fc payload,
    s = mbap_frame t proto unit fc payload ++ rest /\
    t < 65536 /\ proto < 65536 /\ lenN payload <= 252 /\
    unit < 256 /\ fc < 256 /\ bytesb payload = true /\ bytesb rest = true /\
    r = if proto =? 0 then FOk (mkpdu unit fc payload) t else FErr EUnknownProto.
Proof.
  intros Hb H. destruct (read_mbap_cases e s r rest H)
    as [Herr|(t1 & t0 & p1 & p0 & l1 & l0 & unit & fc & payload & -> & Hl & Hp & ->)];
    [left; exact Herr|right].
  rewrite !bytesb_app, !andb_true_iff in Hb. destruct Hb as (Hh & Hfp & Hr).
  rewrite bytesb_cons_eq, andb_true_iff in Hfp. destruct Hfp as [Hfc Hpl].
  rewrite !bytesb_cons_eq in Hh.
  exists (t1 * 256 + t0), (p1 * 256 + p0), unit, fc, payload.
  split; [|repeat split; try assumption; try reflexivity; lia].
  unfold mbap_frame. rewrite <- Hl, !be16_digits by lia. reflexivity.
Qed.

Lemma mbap_no_panic fuel : forall e txn s,
  fst (mbap_read_response fuel e txn s) <> Panic.
Proof.
  induction fuel as [|f IH]; intros e txn s; [cbn; discriminate|].
  cbn [mbap_read_response]. destruct (read_mbap e s) as [r s'].
  destruct r as [p t|x].
  - destruct (t =? txn); [cbn; discriminate|apply IH].
  - destruct x; try (cbn; discriminate). apply IH.
Qed.

Lemma mbap_no_oof fuel : forall e txn s, (length s < fuel)%nat ->
  fst (mbap_read_response fuel e txn s) <> OutOfFuel.
Proof.
  induction fuel as [|f IH]; intros e txn s Hf; [lia|].
  cbn [mbap_read_response]. destruct (read_mbap e s) as [r s'] eqn:E.
  apply read_mbap_len in E.
  destruct r as [p t|x].
  - destruct (t =? txn); [cbn; discriminate|apply IH; lia].
  - destruct x; try (cbn; discriminate). apply IH; lia.
Qed.

Lemma mbap_fuel_indep f : forall f' e txn s, (length s < f)%nat -> (length s < f')%nat ->
  mbap_read_response f e txn s = mbap_read_response f' e txn s.
Proof.
  induction f as [|f IH]; intros f' e txn s Hf Hf'; [lia|].
  destruct f' as [|f']; [lia|].
  cbn [mbap_read_response]. destruct (read_mbap e s) as [r s'] eqn:E.
  apply read_mbap_len in E.
  destruct r as [p t|x].
  - destruct (t =? txn); [reflexivity|apply IH; lia].
  - destruct x; try reflexivity. apply IH; lia.
Qed.

Lemma skippable_frame txn f : skippable txn f <->
  exists t proto unit fc payload,
    f = mbap_frame t proto unit fc payload /\
    t < 65536 /\ proto < 65536 /\ lenN payload <= 252 /\ (proto <> 0 \/ t <> txn).
Proof. reflexivity. Qed.

Lemma skippable_concat_length txn frames : Forall (skippable txn) frames ->
  (length frames <= length (concat frames))%nat.
Proof.
  induction 1 as [|f fs (t & proto & unit & fc & payload & -> & _) _ IH]; [cbn; lia|].
  cbn [concat length]. fold (mbap_frame t proto unit fc payload).
  rewrite app_length, mbap_frame_length. lia.
Qed.

Lemma mbap_skip e txn frames : forall fuel rest, Forall (skippable txn) frames ->
  mbap_read_response (length frames + fuel) e txn (concat frames ++ rest) =
  mbap_read_response fuel e txn rest.
Proof.
  induction frames as [|f fs IH]; intros fuel rest HF; [reflexivity|].
  inversion HF as [|? ? Hf Hfs]; subst.
  cbn [length concat plus mbap_read_response]. rewrite <- app_assoc.
  destruct Hf as (t & proto & unit & fc & payload & -> & Ht & Hp & Hl & Hd).
  fold (mbap_frame t proto unit fc payload).
  rewrite read_mbap_frame by assumption.
  destruct (proto =? 0) eqn:E.
  - apply N.eqb_eq in E. replace (t =? txn) with false by lia. apply IH, Hfs.
  - apply IH, Hfs.
Qed.

(* the fuel the exchange gives the loop: one more than the stream is long *)
Lemma mbap_skips e txn frames rest : Forall (skippable txn) frames ->
  mbap_read_response (S (length (concat frames ++ rest))) e txn (concat frames ++ rest) =
  mbap_read_response (S (length rest)) e txn rest.
Proof.
  intros HF. pose proof (skippable_concat_length _ _ HF) as Hlen.
  set (n := length (concat frames ++ rest)).
  assert (Hn : (length frames + length rest <= n)%nat) by (subst n; rewrite app_length; lia).
  replace (S n) with (length frames + S (n - length frames))%nat by lia.
  rewrite mbap_skip by exact HF. apply mbap_fuel_indep; lia.
Qed.

Lemma mbap_waits e txn frames tail : Forall (skippable txn) frames -> (length tail < 7)%nat ->
  mbap_read_response (S (length (concat frames ++ tail))) e txn (concat frames ++ tail) =
  (Err (short_err e), []).
Proof.
  intros HF Ht. rewrite mbap_skips by exact HF.
  cbn [mbap_read_response]. unfold read_mbap. rewrite read_full_short_iff by exact Ht.
  destruct e; reflexivity.
Qed.

Lemma mbap_response_frame e txn frames unit fc payload post :
  Forall (skippable txn) frames -> txn < 65536 -> lenN payload <= 252 ->
  let s := concat frames ++ mbap_frame txn 0 unit fc payload ++ post in
  mbap_read_response (S (length s)) e txn s = (Ok (mkpdu unit fc payload), post).
Proof.
  intros HF Ht Hl s. subst s. rewrite mbap_skips by exact HF.
  cbn [mbap_read_response]. rewrite read_mbap_frame by (assumption || lia).
  cbn [N.eqb]. rewrite N.eqb_refl. reflexivity.
Qed.

Lemma mbap_response_inv fuel : forall e txn s p rest, bytesb s = true ->
  mbap_read_response fuel e txn s = (Ok p, rest) ->
  exists frames,
    Forall (skippable txn) frames /\
    s = concat frames ++ mbap_frame txn 0 (p_unit p) (p_fc p) (p_payload p) ++ rest /\
    lenN (p_payload p) <= 252.
Proof.
  induction fuel as [|f IH]; intros e txn s p rest Hb; [cbn; discriminate|].
  cbn [mbap_read_response]. destruct (read_mbap e s) as [r s'] eqn:E.
  destruct (read_mbap_inv e s r s' Hb E)
    as [(x & -> & Hx)|(t & proto & unit & fc & payload & -> & Ht & Hp & Hl & _ & _ & _ & Hb' & ->)].
  { destruct x; try discriminate. congruence. }
  (* a frame that is skipped goes in front of what the rest of the loop finds *)
  assert (Hskip : (proto <> 0 \/ t <> txn) ->
            mbap_read_response f e txn s' = (Ok p, rest) ->
            exists frames, Forall (skippable txn) frames /\
              mbap_frame t proto unit fc payload ++ s' =
                concat frames ++ mbap_frame txn 0 (p_unit p) (p_fc p) (p_payload p) ++ rest /\
              lenN (p_payload p) <= 252).
  { intros Hd H. destruct (IH e txn s' p rest Hb' H) as (frames & HF & -> & Hl').
    exists (mbap_frame t proto unit fc payload :: frames).
    split; [constructor; [|exact HF]|split; [cbn [concat]; rewrite <- app_assoc; reflexivity|exact Hl']].
    exists t, proto, unit, fc, payload. repeat split; assumption. }
  destruct (proto =? 0) eqn:C0; [|apply Hskip; left; lia].
  destruct (t =? txn) eqn:C; [|apply Hskip; right; lia].
  intros H; inversion H; subst p s'. apply N.eqb_eq in C0, C. subst proto t.
  exists []. split; [constructor|]. split; [reflexivity|exact Hl].
Qed.

Definition rtu_frame (unit fc : N) (payload : list N) : list N :=
  ([unit; fc] ++ payload) ++ crc_bytes ([unit; fc] ++ payload).

Lemma assemble_rtu_frame p : assemble_rtu p = rtu_frame (p_unit p) (p_fc p) (p_payload p).
Proof. reflexivity. Qed.

Lemma body_bytes unit fc payload : unit < 256 -> fc < 256 -> bytesb payload = true ->
  bytesb ([unit; fc] ++ payload) = true.
Proof. intros Hu Hf Hp. cbn [app]. rewrite !bytesb_cons_eq, Hp. lia. Qed.

Lemma crc_bytes_ref body : bytesb body = true ->
  crc_bytes body = [crc_ref body mod 256; crc_ref body / 256].
Proof.
  intros Hb. unfold crc_bytes, crc_value, le16.
  pose proof (crc16_word body Hb) as Hw. rewrite (crc16_is_ref body Hb) in *.
  f_equal. f_equal. lia.
Qed.

Lemma spec_frame_rtu t p : bytesb ([p_unit p; p_fc p] ++ p_payload p) = true ->
  spec_frame FRtu t p = rtu_frame (p_unit p) (p_fc p) (p_payload p).
Proof.
  intros Hb. unfold spec_frame, rtu_frame. rewrite (crc_bytes_ref _ Hb). reflexivity.
Qed.

(* the model appends the table CRC, the specification the bit-serial one, and
   they agree on bytes *)
Lemma assemble_rtu_spec txn p : bytesb ([p_unit p; p_fc p] ++ p_payload p) = true ->
  assemble_rtu p = spec_frame FRtu txn p.
Proof. intros Hb. rewrite spec_frame_rtu by exact Hb. reflexivity. Qed.

Lemma crc_bytes_accept body : bytesb body = true ->
  exists lo hi, crc_bytes body = [lo; hi] /\ crc_is_equal (crc16 body) lo hi = true.
Proof.
  intros Hb. pose proof (crc16_word body Hb) as Hw.
  unfold crc_bytes, crc_value, le16. do 2 eexists. split; [reflexivity|].
  apply crc_is_equal_iff; [exact Hw|lia|lia|reflexivity].
Qed.

Lemma read_rtu_framed e unit fc b2 data lo hi rest :
  expected_len fc b2 = Some (lenN data) -> lenN data <= 251 ->
  read_rtu e (([unit; fc; b2] ++ data) ++ [lo; hi] ++ rest) =
    (if crc_is_equal (crc16 ([unit; fc; b2] ++ data)) lo hi
     then Ok (mkpdu unit fc (b2 :: data)) else Err EBadCRC, rest).
Proof.
  intros He Hl. unfold read_rtu.
  rewrite <- !app_assoc. rewrite read_full_app by reflexivity.
  rewrite He. replace (256 <? 3 + (lenN data + 2)) with false by lia.
  rewrite app_assoc.
  rewrite read_full_app by (rewrite app_length; cbn [length]; unfold lenN; lia).
  replace (N.to_nat (lenN data)) with (length data) by (unfold lenN; lia).
  rewrite firstn_app_length, skipn_app_length.
  destruct (crc_is_equal (crc16 ([unit; fc; b2] ++ data)) lo hi); reflexivity.
Qed.

Lemma read_rtu_frame e unit fc b2 data rest :
  expected_len fc b2 = Some (lenN data) -> lenN data <= 251 ->
  bytesb ([unit; fc; b2] ++ data) = true ->
  read_rtu e (rtu_frame unit fc (b2 :: data) ++ rest) =
    (Ok (mkpdu unit fc (b2 :: data)), rest).
Proof.
  intros He Hl Hb. unfold rtu_frame.
  change ([unit; fc] ++ b2 :: data) with ([unit; fc; b2] ++ data).
  destruct (crc_bytes_accept _ Hb) as (lo & hi & -> & Hc).
  rewrite <- app_assoc, read_rtu_framed, Hc by assumption. reflexivity.
Qed.

Lemma read_rtu_cases e s r rest : read_rtu e s = (r, rest) ->
  (length rest <= length s)%nat /\
  ((exists x, r = Err x /\ x <> EBadCRC) \/
   exists unit fc b2 data lo hi,
     s = ([unit; fc; b2] ++ data) ++ [lo; hi] ++ rest /\
     expected_len fc b2 = Some (lenN data) /\ lenN data <= 251 /\
     r = if crc_is_equal (crc16 ([unit; fc; b2] ++ data)) lo hi
         then Ok (mkpdu unit fc (b2 :: data)) else Err EBadCRC).
Proof.
  unfold read_rtu. destruct (read_full 3 s) as [hdr r1|got] eqn:E1.
  2:{ destruct got; intros H; inversion H; (split; [cbn; lia|left]);
        eexists; (split; [reflexivity|destruct e; discriminate]). }
  apply read_full_ok in E1 as [-> Hl].
  destruct hdr as [|unit [|fc [|b2 [|x hdr]]]]; try discriminate Hl.
  destruct (expected_len fc b2) as [n|] eqn:He.
  2:{ intros H; inversion H; subst. split; [rewrite app_length; lia|left].
      eexists; split; [reflexivity|discriminate]. }
  destruct (256 <? 3 + (n + 2)) eqn:C1.
  { intros H; inversion H; subst. split; [rewrite app_length; lia|left].
    eexists; split; [reflexivity|discriminate]. }
  destruct (read_full (N.to_nat (n + 2)) r1) as [body r2|got] eqn:E2.
  2:{ destruct e, got; intros H; inversion H; (split; [cbn; lia|left]);
        eexists; (split; [reflexivity|discriminate]). }
  apply read_full_ok in E2 as [-> Hb].
  pose proof (firstn_skipn (N.to_nat n) body) as Hsplit.
  assert (Hfl : length (firstn (N.to_nat n) body) = N.to_nat n) by (apply firstn_length_le; lia).
  assert (Hsk : length (skipn (N.to_nat n) body) = 2%nat) by (rewrite skipn_length; lia).
  remember (firstn (N.to_nat n) body) as data eqn:Hd.
  destruct (skipn (N.to_nat n) body) as [|lo [|hi [|y tl]]]; try discriminate Hsk.
  assert (Hn : lenN data = n) by (unfold lenN; lia).
  intros H. split.
  { destruct (crc_is_equal _ lo hi); inversion H; subst; rewrite !app_length; lia. }
  right. exists unit, fc, b2, data, lo, hi.
  split; [|split; [rewrite Hn; exact He|split; [lia|]]].
  - rewrite <- Hsplit, <- !app_assoc.
    destruct (crc_is_equal _ lo hi); inversion H; reflexivity.
  - destruct (crc_is_equal _ lo hi); inversion H; reflexivity.
Qed.

Lemma read_rtu_no_panic e s :
  fst (read_rtu e s) <> Panic /\ fst (read_rtu e s) <> OutOfFuel.
Proof.
  destruct (read_rtu e s) as [r rest] eqn:E.
  destruct (read_rtu_cases e s r rest E)
    as [_ [(x & -> & _)|(unit & fc & b2 & data & lo & hi & _ & _ & _ & ->)]];
    [|destruct (crc_is_equal _ lo hi)]; cbn [fst]; split; discriminate.
Qed.

Lemma read_rtu_inv e s p rest : bytesb s = true -> read_rtu e s = (Ok p, rest) ->
  exists b2 data,
    p_payload p = b2 :: data /\ expected_len (p_fc p) b2 = Some (lenN data) /\
    lenN data <= 251 /\
    s = rtu_frame (p_unit p) (p_fc p) (p_payload p) ++ rest.
Proof.
  intros Hbytes E.
  destruct (read_rtu_cases e s (Ok p) rest E)
    as [_ [(x & Hx & _)|(unit & fc & b2 & data & lo & hi & -> & He & Hl & Hr)]];
    [discriminate Hx|].
  destruct (crc_is_equal _ lo hi) eqn:Hc; [|discriminate Hr].
  injection Hr as ->. cbn [p_unit p_fc p_payload]. exists b2, data.
  split; [reflexivity|]. split; [exact He|]. split; [exact Hl|].
  rewrite !bytesb_app, !andb_true_iff in Hbytes. destruct Hbytes as ((Hh & Hd) & Hlh & _).
  rewrite !bytesb_cons_eq in Hlh.
  apply crc_is_equal_iff in Hc; [|apply crc16_word; rewrite bytesb_app, Hh, Hd; reflexivity|lia|lia].
  unfold rtu_frame, crc_bytes. change ([unit; fc] ++ b2 :: data) with ([unit; fc; b2] ++ data).
  rewrite <- Hc, <- !app_assoc. reflexivity.
Qed.

Lemma rtu_response_ok e s p rest :
  rtu_read_response e s = (Ok p, rest) <-> read_rtu e s = (Ok p, rest).
Proof.
  unfold rtu_read_response. destruct (read_rtu e s) as [r s'].
  destruct r as [a|x| |]; try (split; intros H; exact H).
  destruct x; split; intros H; try exact H; discriminate H.
Qed.

Lemma rtu_response_no_panic e s :
  fst (rtu_read_response e s) <> Panic /\ fst (rtu_read_response e s) <> OutOfFuel.
Proof.
  pose proof (read_rtu_no_panic e s) as H. unfold rtu_read_response.
  destruct (read_rtu e s) as [r s']. destruct r as [a|x| |]; try exact H.
  destruct x; cbn; split; discriminate.
Qed.
