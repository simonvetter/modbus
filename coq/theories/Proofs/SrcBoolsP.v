(* encodeBools / decodeBools of encoding.go as translated from the Go source
   (Gen/SrcPure.v) compute encode_bools / decode_bools of Model/Encoding.v,
   for every input. *)
From Coq Require Import List NArith String Lia Bool.
Import ListNotations.
From Modbus Require Import Base.Bytes Model.GoLite Gen.SrcPure Model.Crc Model.Encoding.
From Modbus Require Import Proofs.GoLiteP Proofs.SrcCrcP.
From Modbus Require Import Proofs.BoolsP.
Open Scope N_scope.

Lemma map_repeat' {A B} (f : A -> B) x n : map f (repeat x n) = repeat (f x) n.
Proof. induction n as [|n IH]; [reflexivity|]. cbn [repeat map]. rewrite IH. reflexivity. Qed.

Lemma nth_firstn' {A} (l : list A) d : forall n j,
  nth j (firstn n l) d = if (j <? n)%nat then nth j l d else d.
Proof.
  induction l as [|h t IH]; intros n j.
  - rewrite firstn_nil. destruct j; destruct (_ <? n)%nat; reflexivity.
  - destruct n as [|n]; [destruct j; reflexivity|].
    destruct j as [|j]; [reflexivity|]. cbn [firstn nth]. rewrite IH.
    change (S j <? S n)%nat with (j <? n)%nat. reflexivity.
Qed.

(* bit j of byte k of the output, after the first i input bits have been processed *)
Definition bitspec (l : list bool) (i k : nat) (j : N) : bool :=
  (j <? 8) && (8 * k + N.to_nat j <? i)%nat && nth (8 * k + N.to_nat j) l false.

Definition enc_inv (l : list bool) (i : nat) (out : list N) : Prop :=
  List.length out = ((List.length l + 7) / 8)%nat /\
  forall k x, nth_error out k = Some x -> forall j, N.testbit x j = bitspec l i k j.

Lemma enc_inv_init l : enc_inv l 0 (repeat 0 ((List.length l + 7) / 8)).
Proof.
  split; [apply repeat_length|]. intros k x H j.
  apply nth_error_In in H. apply repeat_spec in H. subst x. rewrite N.bits_0.
  unfold bitspec. replace (8 * k + N.to_nat j <? 0)%nat with false by lia.
  rewrite andb_false_r. reflexivity.
Qed.

Lemma enc_inv_false l i out : nth i l false = false -> enc_inv l i out -> enc_inv l (S i) out.
Proof.
  intros Hb [Hlen Hinv]. split; [exact Hlen|]. intros k x H j. rewrite (Hinv k x H j).
  unfold bitspec. destruct (Nat.eq_dec (8 * k + N.to_nat j) i) as [E|E].
  - rewrite E, Hb. rewrite !andb_false_r. reflexivity.
  - replace (8 * k + N.to_nat j <? S i)%nat with (8 * k + N.to_nat j <? i)%nat by lia. reflexivity.
Qed.

Lemma enc_inv_true l i out out' x :
  nth i l false = true -> enc_inv l i out ->
  nth_error out (i / 8) = Some x ->
  upd out (i / 8) (N.lor x (2 ^ N.of_nat (i mod 8))) = Some out' ->
  enc_inv l (S i) out'.
Proof.
  intros Hb [Hlen Hinv] Hx Hu. destruct (upd_spec _ _ _ _ Hu) as [Hl' Hn'].
  split; [lia|]. intros k y H j. rewrite Hn' in H.
  destruct (Nat.eqb k (i / 8)) eqn:Ek.
  - apply Nat.eqb_eq in Ek. subst k. assert (Ey : y = N.lor x (2 ^ N.of_nat (i mod 8))) by congruence. subst y.
    rewrite N.lor_spec, N.pow2_bits_eqb, (Hinv _ _ Hx j). unfold bitspec.
    destruct (Nat.eq_dec (8 * (i / 8) + N.to_nat j) i) as [E|E].
    + rewrite E, Hb. replace (N.of_nat (i mod 8) =? j) with true by lia.
      replace (j <? 8) with true by lia. replace (i <? S i)%nat with true by lia.
      rewrite orb_true_r. reflexivity.
    + replace (N.of_nat (i mod 8) =? j) with false by lia. rewrite orb_false_r.
      replace (8 * (i / 8) + N.to_nat j <? S i)%nat with (8 * (i / 8) + N.to_nat j <? i)%nat by lia.
      reflexivity.
  - apply Nat.eqb_neq in Ek. rewrite (Hinv k y H j). unfold bitspec.
    destruct (j <? 8) eqn:Ej; [|reflexivity].
    replace (8 * k + N.to_nat j <? S i)%nat with (8 * k + N.to_nat j <? i)%nat by lia.
    reflexivity.
Qed.

Lemma enc_inv_final l out : enc_inv l (List.length l) out -> out = encode_bools l.
Proof.
  intros [Hlen Hinv]. apply nth_error_ext'. intros n.
  destruct (Nat.lt_ge_cases n (List.length out)) as [Hn|Hn].
  - rewrite encode_bools_nth by (rewrite encode_bools_len; lia).
    destruct (nth_error out n) as [x|] eqn:E; [|apply nth_error_None in E; lia].
    f_equal. apply N.bits_inj. intros j. rewrite (Hinv n x E j).
    rewrite <- (N2Nat.id j) at 2. rewrite testbit_bits_byte.
    rewrite nth_firstn', nth_skipn'. unfold bitspec.
    destruct (Nat.lt_ge_cases (8 * n + N.to_nat j) (List.length l)) as [Hj|Hj].
    + replace (8 * n + N.to_nat j <? List.length l)%nat with true by lia.
      rewrite andb_true_r.
      destruct (j <? 8) eqn:Ej.
      * replace (N.to_nat j <? 8)%nat with true by lia. reflexivity.
      * replace (N.to_nat j <? 8)%nat with false by lia. reflexivity.
    + rewrite (nth_overflow l) by lia. rewrite andb_false_r.
      destruct (N.to_nat j <? 8)%nat; reflexivity.
  - rewrite (proj2 (nth_error_None _ _)) by exact Hn. symmetry. apply nth_error_None.
    rewrite encode_bools_len. lia.
Qed.

Lemma exec_seq5 fe fuel a b c d e r st :
  exec ge fe fuel st (SSeq a (SSeq b (SSeq c (SSeq d (SSeq e r))))) =
  exec ge fe fuel st (SSeq (SSeq a (SSeq b (SSeq c (SSeq d e)))) r).
Proof.
  cbn [exec].
  destruct (exec ge fe fuel st a) as [st1| | | |]; try reflexivity.
  destruct (exec ge fe fuel st1 b) as [st2| | | |]; try reflexivity.
  destruct (exec ge fe fuel st2 c) as [st3| | | |]; try reflexivity.
  destruct (exec ge fe fuel st3 d) as [st4| | | |]; try reflexivity.
Qed.

(* encodeBools, with in, out, byteCount, i in slots 0..3: the statements up
   to [out = make([]byte, byteCount)], then
   [for i = 0; i < uint(len(in)); i++ { if in[i] { out[i/8] |= 0x01 << (i % 8) } }]
   as initialisation, condition, post statement and body (cut out of the
   generated tree: see crc_add_loop_body in SrcCrcP.v) *)
Definition enc_parts : stmt * stmt * expr * stmt * stmt :=
  Eval cbv in match f_body src_fn_encodeBools with
              | SSeq s1 (SSeq s2 (SSeq s3 (SSeq s4 (SSeq s5 (SSeq (SSeq s6 (SFor c p b)) _))))) =>
                  (SSeq s1 (SSeq s2 (SSeq s3 (SSeq s4 s5))), s6, c, p, b)
              | _ => (SSkip, SSkip, EB false, SSkip, SSkip)
              end.
Definition enc_prefix := fst (fst (fst (fst enc_parts))).
Definition enc_init := snd (fst (fst (fst enc_parts))).
Definition enc_cond := snd (fst (fst enc_parts)).
Definition enc_post := snd (fst enc_parts).
Definition enc_body := snd enc_parts.

Lemma enc_body_shape fe fuel st :
  exec ge fe fuel st (f_body src_fn_encodeBools) =
  exec ge fe fuel st (SSeq enc_prefix (SSeq (SSeq enc_init (SFor enc_cond enc_post enc_body)) (SReturn ENil))).
Proof. unfold enc_prefix, enc_parts. cbn [fst snd]. rewrite <- exec_seq5. reflexivity. Qed.

Lemma enc_prefix_eval fe fuel l :
  N.of_nat (List.length l) < 2 ^ 62 ->
  exec ge fe fuel [vbools l; VL []; VN 0; VN 0] enc_prefix =
  ONormal [vbools l; vbytes (repeat 0 ((List.length l + 7) / 8));
           VN (N.of_nat ((List.length l + 7) / 8)); VN 0].
Proof.
  intros Hlen. gl_eval_sym. rewrite map_length.
  destruct (N.of_nat (List.length l) mod 8 =? 0) eqn:E; gl_eval_sym; rewrite map_repeat'.
  - replace (N.of_nat (List.length l) mod 2 ^ 64 / 8) with (N.of_nat ((List.length l + 7) / 8)) by lia.
    rewrite Nat2N.id. reflexivity.
  - replace ((N.of_nat (List.length l) mod 2 ^ 64 / 8 + 1) mod 2 ^ 64)
      with (N.of_nat ((List.length l + 7) / 8)) by lia.
    rewrite Nat2N.id. reflexivity.
Qed.

Section EncLoop.
  Variable fe : fenv.
  Variable fuel : nat.

  Let condf := fun st' : state => eval ge fe st' enc_cond.
  Let bodyf := fun st' : state => exec ge fe fuel st' enc_body.
  Let postf := fun st' : state => exec ge fe fuel st' enc_post.

  Lemma enc_init_eval a b c d :
    exec ge fe fuel [a; b; c; d] enc_init = ONormal [a; b; c; VN 0].
  Proof. reflexivity. Qed.

  Lemma enc_cond_eval (l : list bool) out bc i :
    condf [vbools l; out; bc; VN i] = Ok (VB (i <? N.of_nat (List.length l) mod 2 ^ 64)).
  Proof. unfold condf, vbools. gl_eval_sym. rewrite map_length. reflexivity. Qed.

  Lemma enc_post_eval a b c i :
    postf [a; b; c; VN i] = ONormal [a; b; c; VN ((i + 1) mod 2 ^ 64)].
  Proof. unfold postf. gl_eval_sym. reflexivity. Qed.

  Lemma enc_body_false (l : list bool) out bc i :
    nth_error l i = Some false ->
    bodyf [vbools l; out; bc; VN (N.of_nat i)] = ONormal [vbools l; out; bc; VN (N.of_nat i)].
  Proof.
    intros Hb. unfold bodyf, vbools. gl_eval_sym.
    rewrite Nat2N.id, nth_error_map, Hb. reflexivity.
  Qed.

  Lemma enc_body_true (l : list bool) out out' x bc i :
    nth_error l i = Some true ->
    nth_error out (i / 8) = Some x ->
    upd out (i / 8) (N.lor x (2 ^ N.of_nat (i mod 8))) = Some out' ->
    bodyf [vbools l; vbytes out; bc; VN (N.of_nat i)] =
    ONormal [vbools l; vbytes out'; bc; VN (N.of_nat i)].
  Proof.
    intros Hb Hx Hu. unfold bodyf, vbools, vbytes. gl_eval_sym.
    rewrite Nat2N.id, nth_error_map, Hb. cbn [option_map]. gl_eval_sym.
    replace (N.to_nat (N.of_nat i / 8)) with (i / 8)%nat by lia.
    rewrite nth_error_map, Hx. cbn [option_map].
    assert (Es : N.shiftl 1 (N.of_nat i mod 8) mod 2 ^ 8 = 2 ^ N.of_nat (i mod 8)).
    { replace (N.of_nat i mod 8) with (N.of_nat (i mod 8)) by lia.
      rewrite N.shiftl_1_l. apply N.mod_small. apply N.pow_lt_mono_r; lia. }
    rewrite Es. rewrite (upd_map VN), Hu. reflexivity.
  Qed.

  Lemma enc_loop (l : list bool) bc : N.of_nat (List.length l) < 2 ^ 62 ->
    forall m i out n,
    (i + m = List.length l)%nat -> (m < n)%nat -> enc_inv l i out ->
    for_go n condf bodyf postf [vbools l; vbytes out; bc; VN (N.of_nat i)] =
    ONormal [vbools l; vbytes (encode_bools l); bc; VN (N.of_nat (List.length l))].
  Proof.
    intros Hlen. induction m as [|m IH]; intros i out n Him Hn Hinv.
    - destruct n as [|n]; [lia|].
      replace i with (List.length l) in * by lia.
      rewrite for_go_exit.
      + rewrite <- (enc_inv_final l out Hinv). reflexivity.
      + rewrite enc_cond_eval.
        replace (N.of_nat (List.length l) <? N.of_nat (List.length l) mod 2 ^ 64) with false by lia.
        reflexivity.
    - destruct n as [|n]; [lia|].
      assert (Hi : (i < List.length l)%nat) by lia.
      assert (Hc : condf [vbools l; vbytes out; bc; VN (N.of_nat i)] = Ok (VB true)).
      { rewrite enc_cond_eval.
        replace (N.of_nat i <? N.of_nat (List.length l) mod 2 ^ 64) with true by lia. reflexivity. }
      assert (Hp : forall a b c, postf [a; b; c; VN (N.of_nat i)] = ONormal [a; b; c; VN (N.of_nat (S i))]).
      { intros a b c. rewrite enc_post_eval.
        replace ((N.of_nat i + 1) mod 2 ^ 64) with (N.of_nat (S i)) by lia. reflexivity. }
      pose proof (nth_error_nth' l false Hi) as Hb.
      destruct (nth i l false) eqn:Eb.
      + assert (Hk : (i / 8 < List.length out)%nat) by (destruct Hinv as [Hl _]; lia).
        destruct (nth_error out (i / 8)) as [x|] eqn:Ex; [|apply nth_error_None in Ex; lia].
        destruct (upd_some out (i / 8) (N.lor x (2 ^ N.of_nat (i mod 8))) Hk) as [out' Hu].
        erewrite for_go_step; [|exact Hc|apply (enc_body_true l out out' x); eassumption|apply Hp].
        apply IH; [lia|lia|]. apply (enc_inv_true l i out out' x); assumption.
      + erewrite for_go_step; [|exact Hc|apply enc_body_false; exact Hb|apply Hp].
        apply IH; [lia|lia|]. apply enc_inv_false; assumption.
  Qed.
End EncLoop.

Lemma run_encodeBools fe fuel l :
  N.of_nat (List.length l) < 2 ^ 62 -> (List.length l < fuel)%nat ->
  run_fn ge fe fuel src_fn_encodeBools [vbools l] = Ok [vbytes (encode_bools l)].
Proof.
  intros Hlen Hfuel. unfold run_fn.
  cbn [f_nparams f_zeros f_outs f_results src_fn_encodeBools List.length Nat.eqb negb app].
  rewrite enc_body_shape.
  cbn [exec]. rewrite enc_prefix_eval by exact Hlen. rewrite enc_init_eval.
  rewrite (enc_loop fe fuel l _ Hlen (List.length l) 0%nat); [reflexivity|lia|exact Hfuel|apply enc_inv_init].
Qed.

(* decodeBools, with quantity, in, out, i in slots 0..3:
   [for i = 0; i < uint(quantity); i++ { out = append(out, ((in[i/8] >> (i % 8)) & 0x01) == 0x01) }] *)
Definition dec_parts : stmt * expr * stmt * stmt :=
  Eval cbv in match f_body src_fn_decodeBools with
              | SSeq _ (SSeq (SSeq s (SFor c p b)) _) => (s, c, p, b)
              | _ => (SSkip, EB false, SSkip, SSkip)
              end.
Definition dec_init := fst (fst (fst dec_parts)).
Definition dec_cond := snd (fst (fst dec_parts)).
Definition dec_post := snd (fst dec_parts).
Definition dec_body := snd dec_parts.

Lemma testbit_shr_land b m : (N.land (N.shiftr b m) 1 =? 1) = N.testbit b m.
Proof.
  rewrite <- (N.add_0_l m) at 2. rewrite <- N.shiftr_spec'.
  change 1 with (N.ones 1) at 1. rewrite N.land_ones. change (2 ^ 1) with 2.
  rewrite <- N.bit0_mod. destruct (N.testbit (N.shiftr b m) 0); reflexivity.
Qed.

Section DecLoop.
  Variable fe : fenv.
  Variable fuel : nat.

  Let condf := fun st' : state => eval ge fe st' dec_cond.
  Let bodyf := fun st' : state => exec ge fe fuel st' dec_body.
  Let postf := fun st' : state => exec ge fe fuel st' dec_post.

  Lemma dec_cond_eval q inl out i :
    condf [VN q; inl; out; VN i] = Ok (VB (i <? q mod 2 ^ 64)).
  Proof. reflexivity. Qed.

  Lemma dec_post_eval a b c i :
    postf [a; b; c; VN i] = ONormal [a; b; c; VN ((i + 1) mod 2 ^ 64)].
  Proof. unfold postf. gl_eval_sym. reflexivity. Qed.

  Lemma dec_body_eval q bs (out : list bool) i :
    bodyf [VN q; vbytes bs; vbools out; VN (N.of_nat i)] =
    match decode_bool_at bs i with
    | Some b => ONormal [VN q; vbytes bs; vbools (out ++ [b]); VN (N.of_nat i)]
    | None => OFail Panic
    end.
  Proof.
    match goal with |- _ = ?r => remember r as R eqn:ER end.
    unfold bodyf, vbools, vbytes. gl_eval_sym.
    replace (N.to_nat (N.of_nat i / 8)) with (i / 8)%nat by lia.
    rewrite nth_error_map. subst R. unfold decode_bool_at.
    destruct (nth_error bs (i / 8)) as [b|]; cbn [option_map]; [|reflexivity].
    match goal with |- _ = ?r => remember r as R eqn:ER end.
    gl_eval_sym. rewrite testbit_shr_land.
    replace (N.of_nat i mod 8) with (N.of_nat (i mod 8)) by lia.
    subst R. unfold vbools, vbytes. rewrite map_app. reflexivity.
  Qed.

  Lemma dec_loop q bs : q < 65536 ->
    forall m i out n,
    (i + m = N.to_nat q)%nat -> (m < n)%nat ->
    for_go n condf bodyf postf [VN q; vbytes bs; vbools out; VN (N.of_nat i)] =
    match sequence (map (decode_bool_at bs) (seq i m)) with
    | Some r => ONormal [VN q; vbytes bs; vbools (out ++ r); VN q]
    | None => OFail Panic
    end.
  Proof.
    intros Hq. induction m as [|m IH]; intros i out n Him Hn.
    - destruct n as [|n]; [lia|].
      cbn [seq map sequence]. rewrite app_nil_r.
      rewrite for_go_exit.
      + replace (N.of_nat i) with q by lia. reflexivity.
      + rewrite dec_cond_eval. replace (N.of_nat i <? q mod 2 ^ 64) with false by lia. reflexivity.
    - destruct n as [|n]; [lia|].
      assert (Hc : condf [VN q; vbytes bs; vbools out; VN (N.of_nat i)] = Ok (VB true)).
      { rewrite dec_cond_eval. replace (N.of_nat i <? q mod 2 ^ 64) with true by lia. reflexivity. }
      cbn [seq map sequence].
      pose proof (dec_body_eval q bs out i) as Hb.
      destruct (decode_bool_at bs i) as [b|].
      + erewrite for_go_step; [|exact Hc|exact Hb|apply dec_post_eval].
        replace ((N.of_nat i + 1) mod 2 ^ 64) with (N.of_nat (S i)) by lia.
        rewrite IH by lia.
        destruct (sequence (map (decode_bool_at bs) (seq (S i) m))) as [r|]; [|reflexivity].
        rewrite <- app_assoc. reflexivity.
      + apply for_go_body_fail; [exact Hc|exact Hb].
  Qed.
End DecLoop.

Lemma run_decodeBools fe fuel q bs :
  q < 65536 -> (N.to_nat q < fuel)%nat ->
  run_fn ge fe fuel src_fn_decodeBools [VN q; vbytes bs] =
  match decode_bools (N.to_nat q) bs with Some r => Ok [vbools r] | None => Panic end.
Proof.
  intros Hq Hfuel.
  pose proof (dec_loop fe fuel q bs Hq (N.to_nat q) 0%nat [] fuel eq_refl Hfuel) as E.
  cbn [app N.of_nat] in E. unfold run_fn.
  change (f_body src_fn_decodeBools) with
    (SSeq (SSet (LVar 3) (EN 0)) (SSeq (SSeq dec_init (SFor dec_cond dec_post dec_body)) (SReturn ENil))).
  cbn [f_nparams f_zeros f_outs f_results src_fn_decodeBools]. gl_step.
  change (exec ge fe fuel [VN q; vbytes bs; VL []; VN 0] dec_init)
    with (ONormal [VN q; vbytes bs; vbools []; VN 0]).
  cbv beta iota. rewrite E. unfold decode_bools.
  destruct (sequence (map (decode_bool_at bs) (seq 0 (N.to_nat q)))) as [r|]; reflexivity.
Qed.
