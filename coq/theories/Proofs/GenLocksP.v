(* The discipline check over the GENERATED lock skeletons (Gen/ClientLocks.v,
   Gen/ServerLocks.v, rewritten by harness/cmd/locksum from the Go sources on
   every run of bin/check), and the generic theorems of Proofs/ConcP.v
   instantiated to them. *)
From Coq Require Import List Bool String Arith.
Import ListNotations.
From Modbus Require Import Base.Trace Model.Conc Proofs.ConcP Gen.ClientLocks Gen.ServerLocks.

(* depth bound for inlining calls between methods of the same receiver. It only
   has to exceed the depth of the call chains in the two tables: if it did not,
   the check would run out of fuel and client_programs_wb / server_programs_wb
   below would fail to evaluate to true. *)
Definition cc_fuel : nat := 16.

(* (T5) every public method of ModbusClient is well bracketed *)
Lemma client_programs_wb : cc_table_wb client_programs cc_fuel client_entries = true.
Proof. vm_compute. reflexivity. Qed.

(* Start, Stop, acceptTCPClients, handleTCPClient of ModbusServer are well bracketed *)
Lemma server_programs_wb : cc_table_wb server_programs cc_fuel server_entries = true.
Proof. vm_compute. reflexivity. Qed.

(* the client's table contains no wait action (they are emitted for the server only) *)
Lemma client_programs_nowait : cc_table_nowait client_programs = true.
Proof. vm_compute. reflexivity. Qed.

Section Table.
  Variable tb : ctable.
  Variable entries : list string.
  Hypothesis Hwb : cc_table_wb tb cc_fuel entries = true.

  Lemma tb_paths_wb ms p : (forall m, In m ms -> In m entries) -> cc_thread_path tb ms p ->
    cc_flat_wb p /\ cc_txrx_ok p = true.
  Proof.
    intros Hin Hp. unfold cc_table_wb in Hwb. apply andb_true_iff in Hwb.
    exact (cc_thread_flat_wb tb cc_fuel entries ms p (proj1 Hwb) Hin Hp).
  Qed.

  Lemma tb_good prog ps : cc_runs_table tb entries prog ps -> cc_good ps.
  Proof.
    intros [Hin HF]. apply (Forall2_Forall_r _ _ _ _ HF). intros ms p Hms Hp.
    exact (tb_paths_wb ms p (Hin ms Hms) Hp).
  Qed.

  Lemma tb_access_by_holder prog ps e1 i a e2 c : cc_runs_table tb entries prog ps ->
    cc_exec (cc_init ps) (e1 ++ (i, a) :: e2) c -> cc_is_access a = true ->
    exists c1, cc_exec (cc_init ps) e1 c1 /\ cc_holds c1 i = true /\
               forall j, cc_holds c1 j = true -> j = i.
  Proof.
    intros Hr H Ha. apply (cc_access_by_holder ps e1 i a e2 c (tb_good _ _ Hr) H).
    - destruct a; discriminate.
    - intros w. destruct a; discriminate.
  Qed.

  Lemma tb_tx_then_rx prog ps e1 i e e2 c : cc_table_nowait tb = true ->
    cc_runs_table tb entries prog ps ->
    cc_exec (cc_init ps) (e1 ++ (i, ATx) :: e :: e2) c -> e = (i, ARx).
  Proof.
    intros Hnw Hr. apply cc_tx_then_rx_nowait; [exact (tb_good _ _ Hr)|].
    apply (Forall2_Forall_r _ _ _ _ (proj2 Hr)). intros ms p _ Hp.
    exact (cc_thread_path_nowait tb ms p Hnw Hp).
  Qed.

  Lemma tb_no_race prog ps e1 i a1 mid j a2 e2 c : cc_runs_table tb entries prog ps ->
    cc_exec (cc_init ps) (e1 ++ (i, a1) :: mid ++ (j, a2) :: e2) c ->
    i <> j -> cc_conflict a1 a2 = true ->
    exists m1 m2 m3, mid = m1 ++ (i, AUnlock) :: m2 ++ (j, ALock) :: m3.
  Proof.
    intros Hr H Hij Hc. apply (cc_release_acquire _ _ _ _ _ _ _ _ _ (tb_good _ _ Hr) H Hij).
    - unfold cc_conflict in Hc. destruct a1; cbn in Hc |- *; try discriminate; reflexivity.
    - unfold cc_conflict in Hc. destruct a1; cbn in Hc; try discriminate;
        destruct a2; cbn in Hc |- *; try discriminate; reflexivity.
  Qed.
End Table.

Lemma server_good prog ps : cc_runs_table server_programs server_entries prog ps -> cc_good ps.
Proof. exact (tb_good _ _ server_programs_wb prog ps). Qed.
