(* rtu_transport.go as translated from the Go source (Gen/SrcPure.v): discard,
   ExecuteRequest, WriteResponse, ReadRequest and Close of *rtuTransport equal
   the transport model of Model/Transport.v. *)
From Coq Require Import List NArith String Lia Bool.
Import ListNotations.
From Modbus Require Import Base.Bytes Model.GoLite Gen.SrcPure Model.Crc Model.Encoding.
From Modbus Require Import Model.Wire Model.Transport.
From Modbus Require Import Proofs.GoLiteP Proofs.GoLiteLinkP Proofs.SrcCrcP Proofs.SrcLinkP Proofs.SrcMiscP Proofs.SrcClientP.
From Modbus Require Import Proofs.SrcTransportP.
Open Scope string_scope.
Open Scope N_scope.

Lemma run_rtu_Close fe fuel T tmo la t35 t1 w : tworld_hyp fe T "link" ->
  run_fn ge fe fuel src_fn_rtuTransport_Close [VN tmo; VN la; VN t35; VN t1; w] =
  out_close T [VN tmo; VN la; VN t35; VN t1] w.
Proof.
  intros (_ & _ & _ & _ & _ & Hcl). cbn [append] in Hcl. run_one_call Hcl.
Qed.

Lemma run_rtu_ReadRequest fe fuel w :
  run_fn ge fe fuel src_fn_rtuTransport_ReadRequest [w] = out_rtu_read_request w.
Proof.
  unfold run_fn, src_fn_rtuTransport_ReadRequest, out_rtu_read_request.
  gl_step. reflexivity.
Qed.

Lemma run_rtu_WriteResponse fe fuel T tmo la t35 t1 res w :
  tworld_hyp fe T "link" -> asm_rtu_hyp fe -> pdu_ok res ->
  run_fn ge fe fuel src_fn_rtuTransport_WriteResponse
         ([VN tmo; VN la; VN t35; VN t1] ++ pdu_args res ++ [w])%list =
  out_rtu_write_response T tmo la t35 t1 res w.
Proof.
  intros (Hnow & _ & _ & Hwr & _ & _) Hasm [Hb _]. cbn [append] in Hwr.
  destruct res as [u fc pl]. cbn [p_unit p_fc p_payload] in Hb.
  unfold run_fn, src_fn_rtuTransport_WriteResponse, out_rtu_write_response, t_rtu_write_response, pdu_args.
  cbn [p_unit p_fc p_payload].
  gl_auto. rewrite (Hasm _ _ _ Hb). gl_auto. rewrite Hwr.
  destruct (t_write T w (assemble_rtu (mkpdu u fc pl))) as [[w1 n] e] eqn:Ew.
  gl_auto.
  destruct (e =? 0) eqn:Ee; gl_auto.
  - apply N.eqb_eq in Ee. subst e.
    rewrite Hnow. destruct (t_now T w1) as [w2 now] eqn:En. cbn [fst snd]. gl_auto.
    unfold add64, mul64, w64. reflexivity.
  - reflexivity.
Qed.

Lemma run_discard fe fuel T w : tworld_hyp fe T "rtuLink" -> tworld_wf T src_codes ->
  run_fn ge fe fuel src_fn_discard [w] = out_discard T w.
Proof.
  intros (Hnow & _ & Hdl & _ & Hrf & _) [_ Hwf]. cbn [append] in Hdl, Hrf.
  unfold run_fn, src_fn_discard, out_discard, t_discard.
  gl_auto.
  assert (Hlen : List.length (repeat (VN 0) 1024) = 1024%nat) by apply repeat_length.
  set (buf := repeat (VN 0) 1024) in *. clearbody buf.
  rewrite Hnow. destruct (t_now T w) as [w0 now] eqn:En. cbn [fst snd]. gl_auto.
  rewrite Hdl. unfold add64.
  destruct (t_setdl T w0 ((now + 500000) mod 2 ^ 64)) as [w1 e1] eqn:Ed. cbn [fst snd]. gl_auto.
  rewrite Hlen. gl_auto. rewrite (sub_U 64 1024 0) by (vm_compute; intuition discriminate). change (1024 - 0) with 1024.
  rewrite Hrf. pose proof (Hwf w1 1024) as Hg.
  destruct (t_readfull T w1 1024) as [[w2 got] e2] eqn:Er. destruct Hg as (_ & Hg & _).
  gl_auto. rewrite Hlen. unfold vbytes. gl_auto. rewrite map_length.
  unfold lenN in Hg.
  replace ((0 + N.of_nat (List.length got)) mod 2 ^ 64 <=? 1024) with true
    by (change (2 ^ 64) with 18446744073709551616; lia).
  gl_auto. reflexivity.
Qed.

(* ExecuteRequest after the wait for t3.5 ([rtu_send]: timestamp, write, sleep to the
   end of our own frame, read) and after the read ([rtu_finish]: flush and last
   activity): the model and the translated body are cut at the same two points, so
   that what follows a branch is gone through once *)
Definition rtu_finish (T : tworld) (t1 la1 : N) (w8 : val) (e3 : N) : N * val :=
  let w9 := if orb (orb (e3 =? c_badcrc src_codes) (e3 =? c_proto src_codes)) (e3 =? c_short src_codes)
            then t_discard T (t_sleep T w8 (mul64 256 t1)) else w8 in
  if negb (e3 =? c_timedout src_codes) then let '(w10, now4) := t_now T w9 in (now4, w10) else (la1, w9).

Definition rtu_send (T : tworld) (la t35 t1 : N) (req : pdu) (w3 : val) : N * val * option pdu * N :=
  let '(w4, ts) := t_now T w3 in
  let '(w5, n, e2) := t_write T w4 (assemble_rtu req) in
  if negb (e2 =? 0) then (la, w5, None, e2)
  else
    let la1 := add64 ts (mul64 (w64 n) t1) in
    let '(w6, now3) := t_now T w5 in
    let '(w8, res, e3) := t_read_rtu T src_codes (t_sleep T w6 (sub64 (add64 la1 t35) now3)) in
    let '(la', w') := rtu_finish T t1 la1 w8 e3 in (la', w', res, e3).

Lemma t_rtu_execute_eq T tmo la t35 t1 req w :
  t_rtu_execute T src_codes tmo la t35 t1 req w =
  let '(w0, now0) := t_now T w in
  let '(w1, e) := t_setdl T w0 (add64 now0 tmo) in
  if negb (e =? 0) then (la, w1, None, e)
  else
    let '(w2, now1) := t_now T w1 in
    let t := sub64 now1 (add64 la t35) in
    rtu_send T la t35 t1 req (if slt64 t 0 then t_sleep T w2 (mul64 t minus_one64) else w2).
Proof.
  unfold t_rtu_execute, rtu_send, rtu_finish.
  destruct (t_now T w) as [w0 now0], (t_setdl T w0 _) as [w1 e], (negb (e =? 0)); [reflexivity|].
  destruct (t_now T w1) as [w2 now1]. cbv zeta.
  destruct (t_now T _) as [w4 ts], (t_write T w4 _) as [[w5 n] e2], (negb (e2 =? 0)); [reflexivity|].
  destruct (t_now T w5) as [w6 now3], (t_read_rtu T src_codes _) as [[w8 res] e3].
  destruct (negb (e3 =? _)); [destruct (t_now T _)|]; reflexivity.
Qed.

Definition ex_send : stmt :=
  Eval cbv in match f_body src_fn_rtuTransport_ExecuteRequest with
              | SSeq _ (SSeq _ (SSeq _ (SSeq _ (SSeq _ (SSeq _ (SSeq _ r)))))) => r
              | _ => SSkip
              end.
Definition ex_flush : stmt :=
  Eval cbv in match ex_send with
              | SSeq _ (SSeq _ (SSeq _ (SSeq _ (SSeq _ (SSeq _ (SSeq r _)))))) => r
              | _ => SSkip
              end.
Definition ex_last : stmt :=
  Eval cbv in match ex_send with
              | SSeq _ (SSeq _ (SSeq _ (SSeq _ (SSeq _ (SSeq _ (SSeq _ r)))))) => r
              | _ => SSkip
              end.

Definition ex_finish : stmt := SSeq ex_flush ex_last.

Lemma ex_finish_ok fe fuel T tmo la1 t35 t1 a4 a5 a6 w8 r8 r9 r10 r11 e3 j13 j14 j15 j16 j17 j18 j19 j20 j21 :
  tworld_hyp fe T "link" -> discard_hyp fe T ->
  fn_ret src_fn_rtuTransport_ExecuteRequest
    (exec ge fe fuel [VN tmo; VN la1; VN t35; VN t1; a4; a5; a6; w8; r8; r9; r10; r11; VN e3;
                      j13; j14; j15; j16; j17; j18; j19; j20; j21] ex_finish) =
  let '(la', w') := rtu_finish T t1 la1 w8 e3 in
  GOk [VN tmo; VN la'; VN t35; VN t1; w'; r8; r9; r10; r11; VN e3].
Proof.
  intros (Hnow & Hsl & _) Hdis. unfold rtu_finish, ex_finish.
  change (c_timedout src_codes) with 4. change (c_badcrc src_codes) with 14.
  change (c_short src_codes) with 15. change (c_proto src_codes) with 16.
  set (b := (e3 =? 14) || (e3 =? 16) || (e3 =? 15)).
  erewrite exec_seq_n; [| |reflexivity].
  2:{ unfold ex_flush. eapply exec_if_b with (bb := b).
      - apply eval_orelse; [apply eval_orelse|]; reflexivity.
      - instantiate (1 := [VN tmo; VN la1; VN t35; VN t1; a4; a5; a6;
                           if b then t_discard T (t_sleep T w8 (mul64 256 t1)) else w8;
                           r8; r9; r10; r11; VN e3; j13; j14; j15; j16; j17; j18; j19; j20; j21]).
        destruct b; [|reflexivity].
        gl_auto. rewrite Hsl. gl_auto. rewrite Hdis. unfold out_discard, mul64. gl_auto. reflexivity. }
  set (w9 := if b then _ else w8). clearbody w9. unfold ex_last.
  gl_auto. destruct (e3 =? 4); gl_auto; [reflexivity|].
  rewrite Hnow. destruct (t_now T w9) as [w10 now4]. cbn [fst snd]. gl_auto. reflexivity.
Qed.

Lemma ex_send_ok fe fuel T tmo la t35 t1 u fc pl w3 j12 j13 j14 j15 j16 j17 j18 j19 j20 j21 :
  tworld_hyp fe T "link" -> asm_rtu_hyp fe -> read_rtu_hyp fe T -> discard_hyp fe T ->
  bytesb (u :: fc :: pl) = true ->
  fn_ret src_fn_rtuTransport_ExecuteRequest
    (exec ge fe fuel [VN tmo; VN la; VN t35; VN t1; VN u; VN fc; vbytes pl; w3; VB true; VN 0; VN 0; VL []; j12;
                      j13; j14; j15; j16; j17; j18; j19; j20; j21] ex_send) =
  let '(la', w', p, e) := rtu_send T la t35 t1 (mkpdu u fc pl) w3 in
  GOk ([VN tmo; VN la'; VN t35; VN t1; w'] ++ enc_opdu p ++ [VN e])%list.
Proof.
  intros HT Hasm Hrr Hdis Hb. pose proof HT as (Hnow & Hsl & _ & Hwr & _ & _). cbn [append] in Hwr.
  unfold rtu_send, ex_send. fold ex_flush ex_last. fold ex_finish.
  gl_auto. rewrite Hnow. destruct (t_now T w3) as [w4 ts]. cbn [fst snd]. gl_auto.
  rewrite (Hasm _ _ _ Hb). gl_auto. rewrite Hwr.
  destruct (t_write T w4 (assemble_rtu (mkpdu u fc pl))) as [[w5 n] e2]. gl_auto.
  destruct (e2 =? 0) eqn:Ee2; gl_auto; [|reflexivity].
  rewrite Hnow. destruct (t_now T w5) as [w6 now3]. cbn [fst snd]. gl_auto.
  rewrite Hsl. gl_auto. rewrite Hrr. unfold out_read_rtu, add64, sub64, mul64, w64.
  destruct (t_read_rtu T src_codes _) as [[w8 res] e3].
  destruct res as [q|]; cbn [enc_opdu app]; gl_auto;
    rewrite (ex_finish_ok fe fuel T) by assumption;
    destruct (rtu_finish T t1 _ w8 e3) as [la' w']; reflexivity.
Qed.

Lemma ex_body_eq :
  f_body src_fn_rtuTransport_ExecuteRequest =
  SSeq (SSet (LVar 13) (EN 0))
  (SSeq (SSet (LVar 14) (EN 0))
  (SSeq (SSet (LVar 15) (EN 0))
  (SSeq (SSeq (SCall "time.Now" (ECons (EVar 7) (ENil)) [LVar 7; LVar 16])
              (SCall "link.SetDeadline" (ECons (EVar 7) (ECons (EBin OAdd (U 64) (EVar 16) (EVar 0)) (ENil))) [LVar 7; LVar 12]))
  (SSeq (SIf (ECmp CNe (EVar 12) (EN 0)) (SReturn (ENil)) (SSkip))
  (SSeq (SSeq (SCall "time.Now" (ECons (EVar 7) (ENil)) [LVar 7; LVar 17])
              (SSet (LVar 14) (EBin OSub (U 64) (EVar 17) (EBin OAdd (U 64) (EVar 1) (EVar 2)))))
  (SSeq (SIf (ECmpS CLt (EVar 14) (EN 0))
             (SCall "time.Sleep" (ECons (EVar 7) (ECons (EBin OMul (U 64) (EVar 14) (EN 18446744073709551615)) (ENil))) [LVar 7])
             (SSkip))
        ex_send)))))).
Proof. reflexivity. Qed.

Lemma run_rtu_ExecuteRequest fe fuel T tmo la t35 t1 req w :
  tworld_hyp fe T "link" -> asm_rtu_hyp fe -> read_rtu_hyp fe T -> discard_hyp fe T -> pdu_ok req ->
  run_fn ge fe fuel src_fn_rtuTransport_ExecuteRequest
         ([VN tmo; VN la; VN t35; VN t1] ++ pdu_args req ++ [w])%list =
  out_rtu_execute T tmo la t35 t1 req w.
Proof.
  intros HT Hasm Hrr Hdis [Hb _]. pose proof HT as (Hnow & Hsl & Hdl & _). cbn [append] in Hdl.
  destruct req as [u fc pl]. cbn [p_unit p_fc p_payload] in Hb.
  rewrite run_fn_exec by reflexivity. rewrite ex_body_eq.
  unfold out_rtu_execute. rewrite t_rtu_execute_eq.
  let z := eval cbv in (f_zeros src_fn_rtuTransport_ExecuteRequest) in
  change (f_zeros src_fn_rtuTransport_ExecuteRequest) with z.
  unfold pdu_args. cbn [p_unit p_fc p_payload]. gl_auto.
  rewrite Hnow. destruct (t_now T w) as [w0 now0]. cbn [fst snd]. gl_auto.
  rewrite Hdl. unfold add64 at 1. destruct (t_setdl T w0 _) as [w1 e]. cbn [fst snd]. gl_auto.
  destruct (e =? 0); gl_auto; [|reflexivity].
  rewrite Hnow. destruct (t_now T w1) as [w2 now1]. cbn [fst snd]. gl_auto.
  rewrite Hsl. cbv zeta. unfold slt64, sub64, add64, mul64, minus_one64.
  change (2 ^ 64 - 1) with 18446744073709551615.
  (* either way the same state, but for the world *)
  destruct (sbias _ <? sbias 0); gl_auto; apply ex_send_ok; assumption.
Qed.

Print Assumptions run_discard.
Print Assumptions run_rtu_ExecuteRequest.
Print Assumptions run_rtu_WriteResponse.
Print Assumptions run_rtu_ReadRequest.
Print Assumptions run_rtu_Close.
