(* The RTU counterpart of Proofs/SrcStackP.v: the oracle of the translated
   client is what the translated rtuTransport.ExecuteRequest returns on the
   stream world ([src_rtu_reply]), and the public result is the model's
   [client_call FRtu], up to [norm_io]. The transaction id of the model plays no
   part on RTU, nor does the fuel (rtuTransport.ExecuteRequest has no loop). *)
From Coq Require Import List NArith String Lia Bool.
Import ListNotations.
From Modbus Require Import Base.Bytes Model.GoLite Gen.SrcPure Model.Crc Model.Encoding.
From Modbus Require Import Model.Wire Model.Client Model.Transport Spec.ClientSpec.
From Modbus Require Proofs.ClientReqP.
From Modbus Require Import Proofs.FramingP.
From Modbus Require Import Proofs.GoLiteP Proofs.GoLiteLinkP Proofs.SrcMiscP.
From Modbus Require Import Proofs.TransportStreamP Proofs.SrcTransportP Proofs.SrcTransportLinkP Proofs.SrcTransportWorldsP.
From Modbus Require Import Proofs.SrcClientP Proofs.SrcClientLinkP Proofs.SrcStackP.
Open Scope string_scope.
Open Scope N_scope.

(* the returned list has FIVE leading outs (timeout, lastActivity, t35, t1, the
   world), then nil flag, unit, function code, payload, error value *)
Definition reply_of_run_rtu (r : GoLite.res (list val)) : treply :=
  match r with
  | GOk [_; _; _; _; _; VB rnil; VN u; VN f; VL p; VN c] => dec_reply rnil u f (unvn p) c
  | _ => bad_reply
  end.

Definition src_rtu_reply (fuel : nat) (tmo la t35 t1 : N) (e : send) (s : list N) (req : pdu) : treply :=
  reply_of_run_rtu
    (call_with src_pure (world_base (sw e)) fuel "rtuTransport.ExecuteRequest"
               ([VN tmo; VN la; VN t35; VN t1] ++ pdu_args req ++ [vbytes s])%list).

Lemma reply_of_run_rtu_wf r : treply_wf (reply_of_run_rtu r).
Proof.
  unfold reply_of_run_rtu.
  repeat match goal with
         | |- treply_wf (match ?x with _ => _ end) => destruct x
         end;
    first [apply bad_reply_wf|apply dec_reply_wf].
Qed.

Lemma src_rtu_reply_wf_all fuel tmo la t35 t1 e s req : treply_wf (src_rtu_reply fuel tmo la t35 t1 e s req).
Proof. unfold src_rtu_reply. apply reply_of_run_rtu_wf. Qed.

Theorem src_rtu_reply_model fuel tmo la t35 t1 txn e s req : bytesb s = true -> pdu_ok req ->
  reply_rel (src_rtu_reply fuel tmo la t35 t1 e s req) (model_transport FRtu txn e s req).
Proof.
  intros Hs Hok.
  unfold model_transport. rewrite transport_result_eq. apply reply_rel_result.
  destruct (src_rtu_ExecuteRequest_stream fuel e tmo la t35 t1 req s Hs Hok) as (la' & p & c & Hrun & H).
  destruct (rtu_read_response e s) as [r s'] eqn:E.
  cbn [fst snd] in *. unfold src_rtu_reply. rewrite Hrun.
  destruct r as [q|x| |]; try contradiction.
  - destruct H as [-> ->]. cbn [app enc_opdu reply_of_run_rtu vbytes].
    apply dec_reply_frame. exact (rtu_response_bytes _ _ _ _ Hs E).
  - destruct H as [-> Hc]. exists c. split; [|exact Hc].
    cbn [app enc_opdu reply_of_run_rtu unvn]. apply dec_reply_err. exact (proj1 (CK_EC c x Hc)).
Qed.

(* the error class of a timeout is the same on both sides: the stream world's
   stall code is 2, the model's ETimeout is carried as 2 by [treply_of], and
   executeRequest ([exec_spec]) turns both into ErrRequestTimedOut *)
Lemma src_rtu_reply_timeout fuel tmo la t35 t1 txn e s req n u f p : bytesb s = true -> pdu_ok req ->
  src_rtu_reply fuel tmo la t35 t1 e s req = TErr 2 n u f p ->
  exists n' u' f' p', model_transport FRtu txn e s req = TErr 2 n' u' f' p'.
Proof.
  intros Hs Hok Ha.
  exact (reply_rel_timeout _ _ (src_rtu_reply_model fuel tmo la t35 t1 txn e s req Hs Hok) n u f p Ha).
Qed.

Definition rtu_ok_frame : list N := assemble_rtu (mkpdu 9 3 [2; 0x11; 0x22]).

Example sample_rtu_frame :
  src_rtu_reply 1 1000 5 35 10 Stall rtu_ok_frame req1 = TOk (mkpdu 9 3 [2; 0x11; 0x22]) /\
  model_transport FRtu 7 Stall rtu_ok_frame req1 = TOk (mkpdu 9 3 [2; 0x11; 0x22]).
Proof. vm_compute. split; reflexivity. Qed.

Example sample_rtu_badcrc :
  src_rtu_reply 1 1000 5 35 10 Stall [9; 3; 2; 0x11; 0x22; 0; 0] req1 = TErr (c_badcrc src_codes) true 0 0 [] /\
  model_transport FRtu 7 Stall [9; 3; 2; 0x11; 0x22; 0; 0] req1 = TErr (c_badcrc src_codes) true 0 0 [].
Proof. vm_compute. split; reflexivity. Qed.

Example sample_rtu_short :
  src_rtu_reply 1 1000 5 35 10 Closed [9; 3] req1 = TErr (c_short src_codes) true 0 0 [] /\
  model_transport FRtu 7 Closed [9; 3] req1 = TErr (c_short src_codes) true 0 0 [].
Proof. vm_compute. split; reflexivity. Qed.

Example sample_rtu_timeout :
  src_rtu_reply 1 1000 5 35 10 Stall [9; 3; 2; 0x11] req1 = TErr 2 true 0 0 [] /\
  model_transport FRtu 7 Stall [9; 3; 2; 0x11] req1 = TErr 2 true 0 0 [].
Proof. vm_compute. split; reflexivity. Qed.

Example sample_rtu_eof :
  src_rtu_reply 1 1000 5 35 10 Closed [] req1 = TErr src_eof true 0 0 [] /\
  model_transport FRtu 7 Closed [] req1 = TErr other_error true 0 0 [].
Proof. vm_compute. split; reflexivity. Qed.

Example sample_rtu_reset :
  src_rtu_reply 1 1000 5 35 10 Reset [9; 3; 2; 0x11] req1 = TErr 1 true 0 0 [] /\
  model_transport FRtu 7 Reset [9; 3; 2; 0x11] req1 = TErr other_error true 0 0 [].
Proof. vm_compute. split; reflexivity. Qed.

Arguments src_rtu_reply : simpl never.
Global Opaque src_rtu_reply.

Lemma src_rtu_reply_hyp fuel' tmo la t35 t1 e s :
  transport_hyp (oracle_of (src_rtu_reply fuel' tmo la t35 t1 e s)) (src_rtu_reply fuel' tmo la t35 t1 e s).
Proof. apply oracle_of_hyp. intros req. apply src_rtu_reply_wf_all. Qed.

Print Assumptions src_rtu_reply_wf_all.
Print Assumptions src_rtu_reply_model.
Print Assumptions src_rtu_reply_timeout.
