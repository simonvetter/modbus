(* C06, client-level clauses: a corrupted RTU reply is never reported as
   success; a wrong CRC field is a bad-CRC error; a rejection that
   triggers the resynchronisation flush leaves the line empty; and the
   refutation of the unconditional recovery clause (finding F8). The file
   begins with the definitions the statements of Properties/C06b.v use. *)
From Modbus Require Import Base.Bytes Model.Crc Model.Encoding Model.Wire Model.Client
  Spec.ModbusSpec Spec.ClientSpec Proofs.CrcP Proofs.FramingP Proofs.ClientRespP.

(* the errors after which rtu_read_response discards what is on the line, up
   to 1024 bytes (Model/Wire.v; rtu_transport.go: discard) *)
Definition flushes (x : err) : bool :=
  match x with EBadCRC | EProtocol | EShortFrame => true | _ => false end.

(* The witness of finding F8 (recovery_refuted below).
   A single-bit flip of bit 7 of the function code of a valid reply whose first
   data bytes happen to equal the CRC of the shortened frame: the prefix parses
   as a complete exception frame with a valid CRC. It is (correctly) not a
   success, but nothing is flushed, and the NEXT exchange with a well-behaved
   device fails on the leftover bytes. *)
Definition f8_cfg := mkcfg 1 BigE HighFirst.
Definition f8_op := OpReadRegs 1 0 2 Holding.
Definition f8_reply := mkpdu 1 3 [4; 0x40; 0xF3; 0x12; 0x34].
Definition f8_flip : list N := [0; 0x80; 0; 0; 0; 0; 0; 0; 0].
Definition f8_next := mkpdu 1 3 [4; 0; 1; 0; 2].

Definition reply_len (o : op) : N :=
  match o with
  | OpReadBools _ _ q => 1 + (q + 7) / 8
  | OpReadRegs w _ q _ => 1 + 2 * (q * w)
  | OpReadBytes _ _ _ _ => 1 + 2 * op_count o
  | _ => 4
  end.

Lemma answers_payload_len cfg o res vs : op_wf o -> answers cfg o res vs ->
  lenN (p_payload res) = reply_len o.
Proof.
  intros Hwf Hans. destruct (is_write o) eqn:W.
  { apply (answers_write cfg o res vs W) in Hans as (_ & _ & -> & _).
    destruct (write_echo_shape cfg o W) as (b0 & b1 & b2 & b3 & -> & _).
    destruct o; try discriminate W; reflexivity. }
  destruct Hans as (_ & _ & H).
  destruct o as [di a q|w a q rt|raw a q rt|a v|a vs'|a v|w a vs'|raw a bs]; try discriminate W;
    cbn [reply_len].
  - destruct H as (data & l & Hp & Hl & _). rewrite Hp, lenN_cons. lia.
  - destruct H as (xs & Hp & Hl & _). rewrite Hp, lenN_cons, spec_regs_len. lia.
  - destruct H as (data & Hp & Hl & _). rewrite Hp, lenN_cons. lia.
Qed.

Lemma spec_frame_rtu_len t p :
  length (spec_frame FRtu t p) = (length (p_payload p) + 4)%nat.
Proof. unfold spec_frame. rewrite !app_length. cbn [length]. lia. Qed.

(* T6: corruption is never success *)
Lemma corrupted_never_success cfg txn o e res vs err post :
  op_wf o -> cfg_wf cfg -> txn < 65536 -> valid_op o = true ->
  bytesb (p_payload res) = true -> answers cfg o res vs ->
  let v := spec_frame FRtu 0 res in
  bytesb err = true -> length err = length v -> low_weight err -> bytesb post = true ->
  forall vs', cr_res (client_call FRtu cfg txn o e (xor_bytes v err ++ post)) <> Ok vs'.
Proof.
  intros Hwf Hcfg Ht V Hpb Hans v Heb Hel Hlw Hpost vs' Hok.
  pose proof Hans as (Hu & Hf & _).
  (* the valid frame is body ++ crc_bytes body *)
  assert (Hbody : bytesb ([p_unit res; p_fc res] ++ p_payload res) = true).
  { apply body_bytes; [rewrite Hu; exact Hcfg|rewrite Hf; pose proof (spec_fc_byte o); lia|exact Hpb]. }
  assert (Hv : v = ([p_unit res; p_fc res] ++ p_payload res) ++ crc_bytes ([p_unit res; p_fc res] ++ p_payload res)).
  { unfold v. rewrite (spec_frame_rtu 0 res Hbody). reflexivity. }
  assert (Hvb : bytesb v = true).
  { rewrite Hv, bytesb_app, Hbody. apply le16_bytes. }
  assert (Hsb : bytesb (xor_bytes v err ++ post) = true).
  { rewrite bytesb_app, Hpost, andb_true_r. apply xor_bytes_bytes; assumption. }
  destruct (client_sound FRtu cfg txn o e _ vs' Hwf Hcfg Ht Hsb Hok)
    as (_ & res' & pre & post' & Hans' & Hs & _ & Hpre).
  subst pre. cbn [app] in Hs.
  (* both frames answer the same request: same length *)
  pose proof (answers_payload_len cfg o res vs Hwf Hans) as L1.
  pose proof (answers_payload_len cfg o res' vs' Hwf Hans') as L2.
  assert (Hlen : length (xor_bytes v err) = length (spec_frame FRtu (u16 (txn + 1)) res')).
  { rewrite xor_bytes_len by (symmetry; exact Hel). unfold v. rewrite !spec_frame_rtu_len.
    unfold lenN in *. lia. }
  destruct (app_eq_len _ _ _ _ Hs Hlen) as [Hx _].
  (* the accepted frame carries a matching CRC: contradiction with detection *)
  destruct Hans' as (Hu' & Hf' & _).
  assert (Hxb : bytesb (xor_bytes v err) = true) by (apply xor_bytes_bytes; assumption).
  assert (Hbody' : bytesb ([p_unit res'; p_fc res'] ++ p_payload res') = true).
  { rewrite Hx in Hxb. unfold spec_frame in Hxb. rewrite bytesb_app in Hxb.
    apply andb_true_iff in Hxb as [H _]. exact H. }
  rewrite (spec_frame_rtu _ res' Hbody') in Hx. unfold rtu_frame in Hx.
  destruct (crc_bytes_accept _ Hbody') as (lo & hi & Ec & Hc). rewrite Ec in Hx.
  rewrite Hv in Hx.
  pose proof (corrupted_frame_rejected _ err _ lo hi Hbody Heb Hlw
                (eq_trans Hel (f_equal (@length N) Hv)) Hx) as Hrej.
  congruence.
Qed.

(* T7: a wrong CRC field is a bad-CRC error *)
Lemma read_rtu_bad_crc e unit fc b2 data lo hi rest :
  expected_len fc b2 = Some (lenN data) -> lenN data <= 251 ->
  crc_is_equal (crc16 ([unit; fc; b2] ++ data)) lo hi = false ->
  read_rtu e (([unit; fc; b2] ++ data) ++ [lo; hi] ++ rest) = (Err EBadCRC, rest).
Proof. intros He Hl Hc. rewrite read_rtu_framed, Hc by assumption. reflexivity. Qed.

Lemma rtu_response_eq e s :
  rtu_read_response e s =
  let '(r, s') := read_rtu e s in
  (r, match r with Err x => if flushes x then skipn 1024 s' else s' | _ => s' end).
Proof.
  unfold rtu_read_response. destruct (read_rtu e s) as [r s'].
  destruct r as [p|y| |]; try reflexivity. destruct y; reflexivity.
Qed.

(* 1024 is the size of the flush: a longer unread stream would leave bytes on
   the line *)
Lemma flush_empties_line e s x rest : (length s <= 1024)%nat ->
  rtu_read_response e s = (Err x, rest) -> flushes x = true -> rest = [].
Proof.
  intros Hl H Hf. rewrite rtu_response_eq in H. destruct (read_rtu e s) as [r s'] eqn:E.
  apply read_rtu_cases in E as [E _].
  assert (Hsk : skipn 1024 s' = []) by (apply skipn_all2; lia).
  apply pair_equal_spec in H as [-> <-]. rewrite Hf. exact Hsk.
Qed.

(* F8: the unconditional recovery clause is false *)
Lemma recovery_refuted :
  answers f8_cfg f8_op f8_reply (VNums [0x40F3; 0x1234]) /\
  low_weight f8_flip /\ length f8_flip = length (spec_frame FRtu 0 f8_reply) /\
  answers f8_cfg f8_op f8_next (VNums [1; 2]) /\
  let r1 := client_call FRtu f8_cfg 0 f8_op Stall (xor_bytes (spec_frame FRtu 0 f8_reply) f8_flip) in
  cr_res r1 = Err (EExc 4) /\ cr_rest r1 <> [] /\
  let r2 := client_call FRtu f8_cfg (cr_txn r1) f8_op Stall (cr_rest r1 ++ spec_frame FRtu 0 f8_next) in
  cr_res r2 = Err EProtocol.
Proof.
  split.
  { split; [reflexivity|]. split; [reflexivity|]. exists [0x40F3; 0x1234].
    split; [reflexivity|]. split; [reflexivity|]. split; [|reflexivity].
    repeat constructor. }
  split.
  { change f8_flip with (zeros 1 ++ [0x80] ++ zeros 7). apply lw_burst.
    split; [reflexivity|]. split; [cbn; lia|]. exists 7, 1. cbn. lia. }
  split; [reflexivity|].
  split.
  { split; [reflexivity|]. split; [reflexivity|]. exists [1; 2].
    split; [reflexivity|]. split; [reflexivity|]. split; [|reflexivity].
    repeat constructor. }
  vm_compute. repeat split; discriminate.
Qed.
