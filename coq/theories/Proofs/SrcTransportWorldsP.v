(* The translated transports (tcp_transport.go, rtu_transport.go inside the
   linked program [src_pure]) run on concrete worlds: composition of
   Proofs/SrcTransportLinkP.v (translated program = transport model, for any
   world) with Proofs/TransportStreamP.v and Proofs/TransportClockP.v (transport
   model on a byte stream / on a world with a clock). *)
From Coq Require Import List NArith String Lia Bool.
Import ListNotations.
From Modbus Require Import Base.Bytes Model.GoLite Gen.SrcPure Model.Crc Model.Encoding.
From Modbus Require Import Model.Wire Model.Transport.
From Modbus Require Import Proofs.GoLiteP Proofs.GoLiteLinkP Proofs.SrcMiscP Proofs.SrcTransportP Proofs.SrcTransportLinkP.
From Modbus Require Import Proofs.TransportStreamP Proofs.TransportClockP.
Open Scope string_scope.
Open Scope N_scope.

Definition EC : N -> err := err_class src_codes 2.

Definition CK : N -> err -> Prop := code_ok src_codes 2 src_eof.

Lemma src_distinct :
  distinctb [0; 1; 2; src_eof; c_ueof src_codes; c_proto src_codes; c_unkproto src_codes;
             c_badcrc src_codes; c_short src_codes] = true.
Proof. vm_compute. reflexivity. Qed.

Lemma CK_EC c x : CK c x -> c <> 0 /\ EC c = x.
Proof. intros H. destruct (code_ok_class src_codes 2 src_eof src_distinct c x H) as (H0 & Hx & _). split; assumption. Qed.

Lemma sw_wf e : tworld_wf (sw e) src_codes.
Proof. exact (stream_world_wf src_codes e 2 src_eof src_distinct). Qed.

Theorem src_tcp_ExecuteRequest_stream fuel e tmo last req s : bytesb s = true -> pdu_ok req ->
  let last' := (last + 1) mod 65536 in
  let run := call_with src_pure (world_base (sw e)) fuel "tcpTransport.ExecuteRequest" ([VN tmo; VN last] ++ pdu_args req ++ [vbytes s])%list in
  match mbap_read_response fuel e last' s with
  | (Wire.Ok q, s') => run = GOk ([VN tmo; VN last'; vbytes s'] ++ enc_opdu (Some q) ++ [VN 0])%list
  | (Wire.Err x, s') => exists c, run = GOk ([VN tmo; VN last'; vbytes s'] ++ enc_opdu None ++ [VN c])%list /\ CK c x
  | (Wire.OutOfFuel, _) => run = GoLite.OutOfFuel
  | (Wire.Panic, _) => False end.
Proof.
  intros Hs Hok last' run.
  assert (Hrun : run = out_tcp_execute (sw e) fuel tmo last req (vbytes s)).
  { apply src_tcp_ExecuteRequest_ok; [apply world_base_hyp; tauto|apply sw_wf|exact Hok]. }
  unfold out_tcp_execute in Hrun. clearbody run.
  pose proof (t_tcp_execute_stream src_codes e 2 src_eof src_distinct fuel tmo last req s Hs) as H.
  change (SW src_codes e 2 src_eof) with (sw e) in H. cbv zeta in H. fold last' in H.
  destruct (mbap_read_response fuel e last' s) as [[q|x| |] s'].
  - rewrite H in Hrun. exact Hrun.
  - destruct H as (c & H & Hc). exists c. rewrite H in Hrun. split; [exact Hrun|exact Hc].
  - exact H.
  - rewrite H in Hrun. exact Hrun.
Qed.

Theorem src_rtu_ExecuteRequest_stream fuel e tmo la t35 t1 req s : bytesb s = true -> pdu_ok req -> exists la' p c,
  call_with src_pure (world_base (sw e)) fuel "rtuTransport.ExecuteRequest" ([VN tmo; VN la; VN t35; VN t1] ++ pdu_args req ++ [vbytes s])%list =
    GOk ([VN tmo; VN la'; VN t35; VN t1; vbytes (snd (rtu_read_response e s))] ++ enc_opdu p ++ [VN c])%list /\
  match fst (rtu_read_response e s) with Wire.Ok q => p = Some q /\ c = 0 | Wire.Err x => p = None /\ CK c x | _ => False end.
Proof.
  intros Hs Hok.
  rewrite (src_rtu_ExecuteRequest_ok (world_base (sw e)) fuel (sw e) tmo la t35 t1 req (vbytes s));
    [|apply world_base_hyp; tauto|apply world_base_hyp; tauto|apply sw_wf|exact Hok].
  unfold out_rtu_execute.
  pose proof (t_rtu_execute_stream src_codes e 2 src_eof src_distinct tmo la t35 t1 req s Hs) as H.
  change (SW src_codes e 2 src_eof) with (sw e) in H.
  destruct (t_rtu_execute (sw e) src_codes tmo la t35 t1 req (vbytes s)) as [[[la' w'] p] c].
  destruct H as [-> H]. exists la', p, c. split; [reflexivity|exact H].
Qed.

Theorem clock_world_wf sc : sc <> 0 -> sc <> c_ueof src_codes -> tworld_wf (clock_world sc) src_codes.
Proof.
  intros H0 Hu. unfold tworld_wf. split.
  - intros w bs. cbn [clock_world t_write]. apply N.le_refl.
  - intros w n. cbn [clock_world t_readfull].
    assert (Hz : c_ueof src_codes <> 0) by (vm_compute; discriminate).
    change (lenN (@nil N)) with 0.
    destruct (N.eqb_spec n 0) as [E|E].
    + subst n. split; [reflexivity|]. split; [apply N.le_refl|]. split; [split; reflexivity|].
      intros Hc. exfalso. apply Hz. symmetry. exact Hc.
    + split; [reflexivity|]. split; [apply N.le_0_l|]. split.
      * split; intros Hc; exfalso; [exact (H0 Hc)|apply E; symmetry; exact Hc].
      * intros Hc. exfalso. exact (Hu Hc).
Qed.

(* the error value of the clock world's deadline is none of those ExecuteRequest tests for *)
Lemma src_timedout_distinct :
  let C := src_codes in
  c_timedout C <> 0 /\ c_timedout C <> c_badcrc C /\ c_timedout C <> c_proto C /\
  c_timedout C <> c_short C /\ c_timedout C <> c_ueof C.
Proof. vm_compute. repeat split; discriminate. Qed.

Print Assumptions src_tcp_ExecuteRequest_stream.
Print Assumptions src_rtu_ExecuteRequest_stream.
Print Assumptions clock_world_wf.
