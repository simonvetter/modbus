(* The functions of encoding.go inside the linked program [src_pure]. Names in the Src*P.v files: [run_f] is about
   [run_fn] of the tree of f, what f calls being hypotheses on the environment [fe]; [src_f_ok] is the same through
   [call_with src_pure base], the hypotheses discharged by the [src_g_ok] of the callees; [env_*] (SrcClientLinkP.v)
   is such a hypothesis discharged inside a caller. The hypotheses that no proof uses ([intros _], here and in
   SrcMiscP.v) say that the arguments are values of the Go types; the statements of Properties/ carry them. *)
From Coq Require Import List NArith String Lia Bool.
Import ListNotations.
From Modbus Require Import Base.Bytes Model.GoLite Gen.SrcPure Model.Crc Model.Encoding.
From Modbus Require Import Proofs.GoLiteP Proofs.GoLiteLinkP Proofs.SrcCrcP Proofs.SrcEncodingP Proofs.SrcEncoding2P Proofs.SrcBoolsP.
Open Scope N_scope.
Open Scope string_scope.

Lemma src_uint32ToBytes_ok base fuel e w v :
  call_with src_pure base fuel "uint32ToBytes" [VN (endian_sel e); VN (word_sel w); VN v] =
  Ok [vbytes (u32_to_bytes e w v)].
Proof. link_step "uint32ToBytes" src_fn_uint32ToBytes. apply run_uint32ToBytes. Qed.

Lemma src_uint64ToBytes_ok base fuel e w v :
  call_with src_pure base fuel "uint64ToBytes" [VN (endian_sel e); VN (word_sel w); VN v] =
  Ok [vbytes (u64_to_bytes e w v)].
Proof. link_step "uint64ToBytes" src_fn_uint64ToBytes. apply run_uint64ToBytes. Qed.

Lemma src_float32ToBytes_ok base fuel e w v :
  call_with src_pure base fuel "float32ToBytes" [VN (endian_sel e); VN (word_sel w); VN v] =
  Ok [vbytes (u32_to_bytes e w v)].
Proof.
  link_step "float32ToBytes" src_fn_float32ToBytes. apply (run_pass_fn _ fuel "uint32ToBytes").
  callee "float32ToBytes" "uint32ToBytes" src_fn_uint32ToBytes. apply src_uint32ToBytes_ok.
Qed.

Lemma src_float64ToBytes_ok base fuel e w v :
  call_with src_pure base fuel "float64ToBytes" [VN (endian_sel e); VN (word_sel w); VN v] =
  Ok [vbytes (u64_to_bytes e w v)].
Proof.
  link_step "float64ToBytes" src_fn_float64ToBytes. apply (run_pass_fn _ fuel "uint64ToBytes").
  callee "float64ToBytes" "uint64ToBytes" src_fn_uint64ToBytes. apply src_uint64ToBytes_ok.
Qed.

Lemma src_uint16sToBytes_ok base fuel e vs :
  N.of_nat (List.length vs) < 2 ^ 62 ->
  call_with src_pure base fuel "uint16sToBytes" [VN (endian_sel e); vbytes vs] = Ok [vbytes (u16s_to_bytes e vs)].
Proof.
  intros _. link_step "uint16sToBytes" src_fn_uint16sToBytes. apply run_uint16sToBytes.
  intros e' v'. callee "uint16sToBytes" "uint16ToBytes" src_fn_uint16ToBytes. apply src_uint16ToBytes_ok.
Qed.

Lemma src_bytesToUint16s_ok base fuel e l :
  N.of_nat (List.length l) < 2 ^ 62 -> (List.length l < fuel)%nat ->
  call_with src_pure base fuel "bytesToUint16s" [VN (endian_sel e); vbytes l] =
  match bytes_to_u16s e l with Some r => Ok [vbytes r] | None => Panic end.
Proof.
  intros H1 H2. link_step "bytesToUint16s" src_fn_bytesToUint16s.
  apply run_bytesToUint16s; [|exact H1|exact H2].
  intros l'. callee "bytesToUint16s" "bytesToUint16" src_fn_bytesToUint16. apply src_bytesToUint16_ok.
Qed.

Lemma src_bytesToUint32s_ok base fuel e w l :
  N.of_nat (List.length l) < 2 ^ 62 -> (List.length l < fuel)%nat ->
  call_with src_pure base fuel "bytesToUint32s" [VN (endian_sel e); VN (word_sel w); vbytes l] =
  match bytes_to_u32s e w l with Some r => Ok [vbytes r] | None => Panic end.
Proof.
  intros H1 H2. link_step "bytesToUint32s" src_fn_bytesToUint32s.
  apply run_bytesToUint32s; assumption.
Qed.

Lemma src_bytesToUint64s_ok base fuel e w l :
  N.of_nat (List.length l) < 2 ^ 62 -> (List.length l < fuel)%nat ->
  call_with src_pure base fuel "bytesToUint64s" [VN (endian_sel e); VN (word_sel w); vbytes l] =
  match bytes_to_u64s e w l with Some r => Ok [vbytes r] | None => Panic end.
Proof.
  intros H1 H2. link_step "bytesToUint64s" src_fn_bytesToUint64s.
  apply run_bytesToUint64s; assumption.
Qed.

Lemma src_bytesToFloat32s_ok base fuel e w l :
  N.of_nat (List.length l) < 2 ^ 62 -> (List.length l < fuel)%nat ->
  call_with src_pure base fuel "bytesToFloat32s" [VN (endian_sel e); VN (word_sel w); vbytes l] =
  match bytes_to_u32s e w l with Some r => Ok [vbytes r] | None => Panic end.
Proof.
  intros H1 H2. link_step "bytesToFloat32s" src_fn_bytesToFloat32s.
  apply (run_copy_fn _ fuel "bytesToUint32s").
  callee "bytesToFloat32s" "bytesToUint32s" src_fn_bytesToUint32s. apply src_bytesToUint32s_ok; assumption.
Qed.

Lemma src_bytesToFloat64s_ok base fuel e w l :
  N.of_nat (List.length l) < 2 ^ 62 -> (List.length l < fuel)%nat ->
  call_with src_pure base fuel "bytesToFloat64s" [VN (endian_sel e); VN (word_sel w); vbytes l] =
  match bytes_to_u64s e w l with Some r => Ok [vbytes r] | None => Panic end.
Proof.
  intros H1 H2. link_step "bytesToFloat64s" src_fn_bytesToFloat64s.
  apply (run_copy_fn _ fuel "bytesToUint64s").
  callee "bytesToFloat64s" "bytesToUint64s" src_fn_bytesToUint64s. apply src_bytesToUint64s_ok; assumption.
Qed.

Lemma src_encodeBools_ok base fuel l :
  N.of_nat (List.length l) < 2 ^ 62 -> (List.length l < fuel)%nat ->
  call_with src_pure base fuel "encodeBools" [vbools l] = Ok [vbytes (encode_bools l)].
Proof.
  intros H1 H2. link_step "encodeBools" src_fn_encodeBools. apply run_encodeBools; assumption.
Qed.

Lemma src_decodeBools_ok base fuel q bs :
  q < 65536 -> (N.to_nat q < fuel)%nat -> bytesb bs = true ->
  call_with src_pure base fuel "decodeBools" [VN q; vbytes bs] =
  match decode_bools (N.to_nat q) bs with Some r => Ok [vbools r] | None => Panic end.
Proof.
  intros H1 H2 _. link_step "decodeBools" src_fn_decodeBools. apply run_decodeBools; assumption.
Qed.
