(* The CLI against the reference device (Model/Cli.v: cli_dev_serve): what a
   read prints is the device's contents at the addressed locations in the
   requested type and encoding; what a write sends lands in the addressed
   cells in the requested layout (C01 requests, C02 replies, C17 layout).
   Properties/C20.v is written in terms of cli_regs_of and cli_landed. *)
From Modbus Require Import Base.Bytes Base.Enum Model.Crc Model.Encoding Model.Wire Model.Client
  Model.Strconv Model.Cli Spec.ModbusSpec Spec.ClientSpec Spec.StrconvSpec Spec.CliSpec
  Proofs.EncodingP Proofs.BoolsP Proofs.ClientReqP Proofs.ClientRespP Proofs.TxnP Proofs.StrconvP Proofs.CliP.

Lemma exec_answered st c o pay d' vs :
  cli_op_wf c -> cfg_wf (cs_cfg st) -> cs_txn st < 65536 ->
  cli_doc_op c = Some o -> valid_op o = true ->
  let res := mkpdu (c_unit (cs_cfg st)) (spec_fc o) pay in
  cli_dev_serve (cs_dev st) (spec_pdu (cs_cfg st) o) = (res, d') ->
  bytesb pay = true -> answers (cs_cfg st) o res vs ->
  cli_exec st c =
    mkclist (cs_cfg st) (u16 (cs_txn st + 1)) d'
      (cs_tx st ++ [spec_frame FMbap (u16 (cs_txn st + 1)) (spec_pdu (cs_cfg st) o)])
      (cs_out st ++ cli_print c (Ok vs)).
Proof.
  intros Hwf Hcfg Htxn Hd Hv res Hserve Hb Hans.
  destruct (op_agree c o Hwf Hd) as (o' & Ho' & Hwf' & Hvv & Heq). specialize (Heq Hv). subst o'.
  unfold cli_exec. rewrite Ho'.
  pose proof (client_request_exact (cs_cfg st) o Hwf') as Hreq. rewrite Hv in Hreq. rewrite Hreq, Hserve.
  set (reply := assemble_mbap (u16 (cs_txn st + 1)) res).
  destruct (client_transmit FMbap (cs_cfg st) (cs_txn st) o Stall reply Hwf' Hcfg Htxn) as [T1 _].
  specialize (T1 Hv).
  pose proof (client_complete_mbap (cs_cfg st) (cs_txn st) o Stall res vs [] [] Hwf' Hcfg Htxn Hv Hb Hans
                (Forall_nil _)) as Hc.
  cbn zeta in Hc. cbn [concat app] in Hc. rewrite app_nil_r, <- mbap_frame_spec in Hc. fold reply in Hc.
  destruct Hc as [Hc _].
  rewrite T1, Hc, (call_txn FMbap _ _ _ _ _ Hwf'), Hv. reflexivity.
Qed.

Lemma be16_addr a : a < 65536 -> (a / 256) mod 256 * 256 + a mod 256 = a.
Proof. lia. Qed.

Lemma range_length {A} (f : N -> A) a n : length (cli_range f a n) = N.to_nat n.
Proof. unfold cli_range. now rewrite map_length, seq_length. Qed.

Lemma range_nth {A} (f : N -> A) a n i d : (i < N.to_nat n)%nat ->
  nth i (cli_range f a n) d = f (a + N.of_nat i).
Proof.
  intros Hi. unfold cli_range.
  rewrite (nth_indep _ d (f (a + N.of_nat 0))) by (rewrite map_length, seq_length; exact Hi).
  rewrite (map_nth (fun i => f (a + N.of_nat i)) (seq 0 (N.to_nat n)) 0%nat i).
  rewrite seq_nth by exact Hi. reflexivity.
Qed.

Lemma serve_read_regs d u fc a n : (fc = 3 \/ fc = 4) -> a < 65536 -> 1 <= n <= 125 -> a + n <= 65536 ->
  cli_dev_serve d (mkpdu u fc (be16 a ++ be16 n)) =
    (mkpdu u fc (2 * n :: flat_map be16 (cli_range (if fc =? 3 then dv_hold d else dv_inp d) a n)), d).
Proof.
  intros Hfc Ha Hn Hr. unfold cli_dev_serve, be16. cbn [p_fc p_payload p_unit app].
  rewrite (be16_addr a Ha), (be16_addr n ltac:(lia)).
  replace ((n =? 0) || (125 <? n)) with false by lia.
  replace (65536 <? a + n) with false by lia.
  destruct Hfc as [-> | ->]; reflexivity.
Qed.

Lemma serve_read_bools d u fc a n : (fc = 1 \/ fc = 2) -> a < 65536 -> 1 <= n <= 2000 -> a + n <= 65536 ->
  cli_dev_serve d (mkpdu u fc (be16 a ++ be16 n)) =
    (let enc := encode_bools (cli_range (if fc =? 1 then dv_coil d else dv_disc d) a n) in
     mkpdu u fc (lenN enc :: enc), d).
Proof.
  intros Hfc Ha Hn Hr. unfold cli_dev_serve, be16. cbn [p_fc p_payload p_unit app].
  rewrite (be16_addr a Ha), (be16_addr n ltac:(lia)).
  replace ((n =? 0) || (2000 <? n)) with false by lia.
  replace (65536 <? a + n) with false by lia.
  destruct Hfc as [-> | ->]; reflexivity.
Qed.

Lemma flat_be16_bytes l : bytesb (flat_map be16 l) = true.
Proof.
  induction l as [|x t IH]; [reflexivity|]. cbn [flat_map]. rewrite bytesb_app, be16_bytes, IH. reflexivity.
Qed.

Lemma flat_be16_len l : lenN (flat_map be16 l) = 2 * lenN l.
Proof.
  unfold lenN. induction l as [|x t IH]; [reflexivity|].
  cbn [flat_map]. rewrite app_length. unfold be16 at 1. cbn [length]. lia.
Qed.

Definition cli_regs_of (d : cli_dev) (holding : bool) : N -> N :=
  if holding then dv_hold d else dv_inp d.

Lemma regs_served st (h : bool) o a n :
  spec_fc o = (if h then 3 else 4) -> spec_payload (cs_cfg st) o = be16 a ++ be16 n ->
  a < 65536 -> 1 <= n <= 125 -> a + n <= 65536 ->
  let data := flat_map be16 (cli_range (cli_regs_of (cs_dev st) h) a n) in
  cli_dev_serve (cs_dev st) (spec_pdu (cs_cfg st) o) =
    (mkpdu (c_unit (cs_cfg st)) (spec_fc o) (2 * n :: data), cs_dev st) /\
  bytesb (2 * n :: data) = true /\ lenN data = 2 * n.
Proof.
  intros Hfc Hpay Ha Hn Hr data. unfold spec_pdu. rewrite Hpay. split; [|split].
  - rewrite serve_read_regs; [|destruct h; rewrite Hfc; auto|exact Ha|exact Hn|exact Hr].
    unfold data, cli_regs_of. rewrite Hfc. destruct h; reflexivity.
  - apply bytesb_cons_intro; [lia|apply flat_be16_bytes].
  - unfold data. rewrite flat_be16_len. unfold lenN. rewrite range_length. lia.
Qed.

(* rh/ri:T:a+q (T numeric, within limits): ONE request; the q+1 printed values,
   laid out as T in the selected byte/word order, are the big-endian images of
   the device registers a .. a+(q+1)*w(T)-1; the device is unchanged *)
Lemma exec_read_regs st h t a q :
  t <> CtBytes -> a < 65536 -> q < 65536 -> cfg_wf (cs_cfg st) -> cs_txn st < 65536 ->
  (q + 1) * cli_width t <= 125 -> a + (q + 1) * cli_width t <= 65536 ->
  let c := CoReadRegs h t a q in
  let w := cli_width t in
  exists o xs,
    cli_doc_op c = Some o /\
    cli_exec st c =
      mkclist (cs_cfg st) (u16 (cs_txn st + 1)) (cs_dev st)
        (cs_tx st ++ [spec_frame FMbap (u16 (cs_txn st + 1)) (spec_pdu (cs_cfg st) o)])
        (cs_out st ++ cli_print c (Ok (VNums xs))) /\
    lenN xs = q + 1 /\ Forall (fun v => v < 2 ^ (16 * w)) xs /\
    flat_map (spec_bytes (N.to_nat w) (c_endian (cs_cfg st)) (c_word (cs_cfg st))) xs =
      flat_map be16 (cli_range (cli_regs_of (cs_dev st) h) a ((q + 1) * w)).
Proof.
  intros Ht Ha Hq Hcfg Htxn Hlim Hend. cbn zeta.
  set (w := cli_width t) in *. set (rt := if h then Holding else InputReg).
  set (o := OpReadRegs w a (q + 1) rt).
  assert (Hd : cli_doc_op (CoReadRegs h t a q) = Some o) by (destruct t; try congruence; reflexivity).
  assert (Hw : w = 1 \/ w = 2 \/ w = 4) by apply width_cases.
  assert (Hv : valid_op o = true).
  { rewrite (read_regs_valid h t a q o Ht Hd). fold w. lia. }
  destruct (regs_served st h o a ((q + 1) * w)) as (Hserve & Hbytes & Hlen);
    [destruct h; reflexivity|reflexivity|exact Ha|lia|lia|].
  set (regs := cli_range (cli_regs_of (cs_dev st) h) a ((q + 1) * w)) in *.
  set (data := flat_map be16 regs) in *.
  destruct (regs_k_total (cs_cfg st) w (q + 1) data Hw Hlen) as [xs Hx].
  destruct (regs_k_sound (cs_cfg st) w data (VNums xs) Hw (flat_be16_bytes regs) Hx) as (xs' & E & Hdata & Hall).
  inversion E; subst xs'.
  assert (Hlx : lenN xs = q + 1).
  { pose proof (spec_regs_len w (c_endian (cs_cfg st)) (c_word (cs_cfg st)) xs) as L.
    rewrite <- Hdata, Hlen in L. destruct Hw as [Hw | [Hw | Hw]]; rewrite Hw in L; lia. }
  exists o, xs. split; [exact Hd|]. split; [|split; [exact Hlx|split; [exact Hall|symmetry; exact Hdata]]].
  apply (exec_answered st (CoReadRegs h t a q) o (2 * ((q + 1) * w) :: data) (cs_dev st) (VNums xs));
    try assumption.
  - cbn. split; assumption.
  - repeat split. exists xs. rewrite Hdata. repeat split; assumption.
Qed.

(* rc/rdi:a+q within limits: ONE request; the q+1 printed values are the
   device's coils / discrete inputs a .. a+q *)
Lemma exec_read_bools st coil a q :
  a < 65536 -> q < 65536 -> cfg_wf (cs_cfg st) -> cs_txn st < 65536 ->
  q + 1 <= 2000 -> a + q + 1 <= 65536 ->
  let c := CoReadBools coil a q in
  let bits := cli_range (if coil then dv_coil (cs_dev st) else dv_disc (cs_dev st)) a (q + 1) in
  exists o,
    cli_doc_op c = Some o /\
    cli_exec st c =
      mkclist (cs_cfg st) (u16 (cs_txn st + 1)) (cs_dev st)
        (cs_tx st ++ [spec_frame FMbap (u16 (cs_txn st + 1)) (spec_pdu (cs_cfg st) o)])
        (cs_out st ++ cli_print c (Ok (VBools bits))).
Proof.
  intros Ha Hq Hcfg Htxn Hlim Hend. cbn zeta.
  set (o := OpReadBools (negb coil) a (q + 1)).
  set (bits := cli_range (if coil then dv_coil (cs_dev st) else dv_disc (cs_dev st)) a (q + 1)).
  assert (Hd : cli_doc_op (CoReadBools coil a q) = Some o) by reflexivity.
  assert (Hv : valid_op o = true) by (rewrite (read_bools_valid coil a q o Hd); lia).
  exists o. split; [exact Hd|].
  assert (Hlb : length bits = N.to_nat (q + 1)) by (unfold bits; apply range_length).
  assert (Hserve : cli_dev_serve (cs_dev st) (spec_pdu (cs_cfg st) o) =
                   (mkpdu (c_unit (cs_cfg st)) (spec_fc o) (lenN (encode_bools bits) :: encode_bools bits), cs_dev st)).
  { unfold spec_pdu, spec_payload, o. cbn [op_count].
    rewrite serve_read_bools; [|destruct coil; cbn; auto|exact Ha|lia|lia].
    unfold bits. destruct coil; reflexivity. }
  apply (exec_answered st (CoReadBools coil a q) o (lenN (encode_bools bits) :: encode_bools bits)
           (cs_dev st) (VBools bits)); try assumption.
  - cbn. split; assumption.
  - pose proof (encode_bools_lenN bits) as L. unfold lenN in L at 2. rewrite Hlb in L.
    apply bytesb_cons_intro; [lia|apply encode_bools_bytes].
  - split; [reflexivity|]. split; [reflexivity|].
    unfold o. exists (encode_bools bits), bits. split; [reflexivity|].
    split; [rewrite encode_bools_lenN; unfold lenN; rewrite Hlb; lia|].
    split; [reflexivity|]. split; [unfold lenN; rewrite Hlb; lia|].
    intros i Hi. pose proof (decode_at_encode bits i Hi) as D.
    rewrite decode_bool_at_coil in D.
    + inversion D. reflexivity.
    + rewrite encode_bools_len. apply Nat.div_lt_upper_bound; [lia|].
      pose proof (Nat.div_mod (length bits + 7) 8 ltac:(lia)). pose proof (Nat.mod_upper_bound (length bits + 7) 8 ltac:(lia)). lia.
Qed.

Lemma spec1_be v w : v < 65536 -> spec_bytes 1 BigE w v = be16 v.
Proof.
  intros Hv. rewrite (spec16_enc BigE w v Hv). unfold u16_to_bytes, byte_of, be16.
  change (2 ^ (8 * 1)) with 256. change (2 ^ (8 * 0)) with 1. repeat f_equal; lia.
Qed.

Lemma words_be data n : bytesb data = true -> length data = (2 * n)%nat ->
  exists l, bytes_to_u16s BigE data = Some l /\ flat_map be16 l = data /\ length l = n.
Proof.
  intros Hb Hl. destruct (dec16_total BigE n data Hl) as [l E]. exists l. split; [exact E|].
  destruct (dec16_sound BigE HighFirst l data Hb E) as [Hd HF].
  assert (Hfm : flat_map be16 l = flat_map (spec_bytes 1 BigE HighFirst) l).
  { clear - HF. induction HF as [|x t Hx _ IH]; [reflexivity|]. cbn [flat_map]. rewrite IH, (spec1_be x HighFirst Hx). reflexivity. }
  split; [rewrite Hfm; symmetry; exact Hd|].
  pose proof (flat_be16_len l) as L. rewrite Hfm, <- Hd in L. unfold lenN in L. lia.
Qed.

Lemma range_upd_same {A} (f : N -> A) a l d : cli_range (cli_upd f a l d) a (lenN l) = l.
Proof.
  apply (nth_ext _ _ d d).
  - rewrite range_length. unfold lenN. lia.
  - intros i Hi. rewrite range_length in Hi. rewrite range_nth by exact Hi. unfold cli_upd.
    unfold lenN in *. replace ((a <=? a + N.of_nat i) && (a + N.of_nat i <? a + N.of_nat (length l))) with true by lia.
    f_equal. lia.
Qed.

Lemma upd_outside {A} (f : N -> A) a l d x : x < a \/ a + lenN l <= x -> cli_upd f a l d x = f x.
Proof. intros H. unfold cli_upd. replace ((a <=? x) && (x <? a + lenN l)) with false by lia. reflexivity. Qed.

Definition cli_landed (d d' : cli_dev) (a : N) (image : list N) : Prop :=
  flat_map be16 (cli_range (dv_hold d') a (lenN image / 2)) = image /\
  (forall x, x < a \/ a + lenN image / 2 <= x -> dv_hold d' x = dv_hold d x) /\
  dv_coil d' = dv_coil d /\ dv_disc d' = dv_disc d /\ dv_inp d' = dv_inp d.

Lemma serve_write_reg d u a img : a < 65536 -> bytesb img = true -> length img = 2%nat ->
  exists d', cli_dev_serve d (mkpdu u 6 (be16 a ++ img)) = (mkpdu u 6 (be16 a ++ img), d') /\
             cli_landed d d' a img.
Proof.
  intros Ha Hb Hl. destruct img as [|b1 [|b0 [|? ?]]]; try discriminate Hl.
  apply bytesb_cons in Hb as [H1 Hb]. apply bytesb_cons in Hb as [H0 _].
  unfold cli_dev_serve, be16. cbn [p_fc p_payload p_unit app N.eqb Pos.eqb orb].
  rewrite (be16_addr a Ha). eexists. split; [reflexivity|].
  unfold cli_landed. cbn [dv_hold dv_coil dv_disc dv_inp]. change (lenN [b1; b0] / 2) with 1.
  split; [|split; [|repeat split]].
  - change 1 with (lenN [b1 * 256 + b0]). rewrite range_upd_same. cbn [flat_map app]. unfold be16.
    assert (E1 : ((b1 * 256 + b0) / 256) mod 256 = b1) by lia.
    assert (E2 : (b1 * 256 + b0) mod 256 = b0) by lia. rewrite E1, E2. reflexivity.
  - intros x Hx. apply upd_outside. exact Hx.
Qed.

Lemma serve_write_regs d u a n bytes : a < 65536 -> 1 <= n <= 123 -> a + n <= 65536 ->
  bytesb bytes = true -> lenN bytes = 2 * n ->
  exists d', cli_dev_serve d (mkpdu u 16 (be16 a ++ be16 n ++ [2 * n] ++ bytes)) = (mkpdu u 16 (be16 a ++ be16 n), d') /\
             cli_landed d d' a bytes.
Proof.
  intros Ha Hn Hr Hb Hl. unfold cli_dev_serve, be16. cbn [p_fc p_payload p_unit app N.eqb Pos.eqb orb].
  rewrite (be16_addr a Ha), (be16_addr n ltac:(lia)).
  replace ((n =? 0) || (123 <? n) || negb (2 * n =? 2 * n) || negb (lenN bytes =? 2 * n)) with false by lia.
  replace (65536 <? a + n) with false by lia.
  destruct (words_be bytes (N.to_nat n) Hb ltac:(unfold lenN in Hl; lia)) as (l & E & Hfm & Hll).
  rewrite E. eexists. split; [reflexivity|].
  unfold cli_landed. cbn [dv_hold dv_coil dv_disc dv_inp].
  assert (Hq : lenN bytes / 2 = lenN l) by (unfold lenN in *; lia).
  rewrite Hq. split; [|split; [|repeat split]].
  - rewrite range_upd_same. exact Hfm.
  - intros x Hx. apply upd_outside. exact Hx.
Qed.

Lemma serve_write_coil d u a (v : bool) : a < 65536 ->
  let val := if v then [255; 0] else [0; 0] in
  exists d', cli_dev_serve d (mkpdu u 5 (be16 a ++ val)) = (mkpdu u 5 (be16 a ++ val), d') /\
    dv_coil d' a = v /\ (forall x, x <> a -> dv_coil d' x = dv_coil d x) /\
    dv_disc d' = dv_disc d /\ dv_hold d' = dv_hold d /\ dv_inp d' = dv_inp d.
Proof.
  intros Ha val.
  exists (mkclidev (cli_upd (dv_coil d) a [v] false) (dv_disc d) (dv_hold d) (dv_inp d)). split.
  - unfold cli_dev_serve, be16, val. cbn [p_fc p_payload p_unit app N.eqb Pos.eqb orb].
    rewrite (be16_addr a Ha). destruct v; reflexivity.
  - cbn [dv_coil dv_disc dv_hold dv_inp]. change (lenN [v]) with 1. split; [|split; [|repeat split]].
    + unfold cli_upd. change (lenN [v]) with 1. replace ((a <=? a) && (a <? a + 1)) with true by lia.
      replace (N.to_nat (a - a)) with 0%nat by lia. reflexivity.
    + intros x Hx. apply upd_outside. change (lenN [v]) with 1. lia.
Qed.

Lemma spec_bytes_bytes w e wo v : w = 1 \/ w = 2 \/ w = 4 -> v < 2 ^ (16 * w) ->
  bytesb (spec_bytes (N.to_nat w) e wo v) = true.
Proof.
  intros [-> | [-> | ->]] Hv.
  - change (N.to_nat 1) with 1%nat. rewrite (spec16_enc e wo v Hv). apply u16_to_bytes_bytes.
  - change (N.to_nat 2) with 2%nat. rewrite <- (u32_layout e wo v Hv). apply u32_to_bytes_bytes.
  - change (N.to_nat 4) with 4%nat. rewrite <- (u64_layout e wo v Hv). apply u64_to_bytes_bytes.
Qed.

(* wr:T:a:v for a numeric type: ONE request, "wrote" printed, and the device's
   registers a .. a+w(T)-1 hold v laid out as T in the selected byte/word order
   (v is the two's-complement image for signed types, the IEEE bits for floats) *)
Lemma exec_write_num st t a v :
  t <> CtBytes -> a < 65536 -> v < 2 ^ (16 * cli_width t) -> a + cli_width t <= 65536 ->
  cfg_wf (cs_cfg st) -> cs_txn st < 65536 ->
  let c := CoWriteNum t a v in
  exists o d',
    cli_doc_op c = Some o /\
    cli_exec st c =
      mkclist (cs_cfg st) (u16 (cs_txn st + 1)) d'
        (cs_tx st ++ [spec_frame FMbap (u16 (cs_txn st + 1)) (spec_pdu (cs_cfg st) o)])
        (cs_out st ++ [ClWrote]) /\
    cli_landed (cs_dev st) d' a
      (spec_bytes (N.to_nat (cli_width t)) (c_endian (cs_cfg st)) (c_word (cs_cfg st)) v).
Proof.
  intros Ht Ha Hv Hend Hcfg Htxn. cbn zeta.
  set (e := c_endian (cs_cfg st)). set (wo := c_word (cs_cfg st)). set (w := cli_width t) in *.
  assert (Hwf : cli_op_wf (CoWriteNum t a v)) by (cbn; repeat split; assumption).
  assert (Hw : w = 1 \/ w = 2 \/ w = 4) by apply width_cases.
  set (img := spec_bytes (N.to_nat w) e wo v).
  assert (Hlen : lenN img = 2 * w) by (unfold img, lenN; rewrite spec_bytes_len; lia).
  assert (Hbytes : bytesb img = true) by (apply spec_bytes_bytes; assumption).
  destruct (N.eq_dec w 1) as [Hw1 | Hw2].
  - (* one register: write single register *)
    set (o := OpWriteReg a v).
    assert (Hd : cli_doc_op (CoWriteNum t a v) = Some o) by (cbn; fold w; rewrite Hw1; reflexivity).
    assert (Hvalid : valid_op o = true) by (unfold o; valid_tac).
    destruct (serve_write_reg (cs_dev st) (c_unit (cs_cfg st)) a img Ha Hbytes ltac:(unfold lenN in Hlen; lia))
      as (d' & Hs & Hland).
    exists o, d'. split; [exact Hd|]. split; [|exact Hland].
    assert (Ei : spec_bytes 1 e wo v = img) by (unfold img; rewrite Hw1; reflexivity).
    apply (exec_answered st (CoWriteNum t a v) o (be16 a ++ img) d' VUnit Hwf Hcfg Htxn Hd Hvalid).
    + unfold spec_pdu, spec_payload, o. fold e wo. rewrite Ei. exact Hs.
    + rewrite bytesb_app, be16_bytes. exact Hbytes.
    + unfold answers, o. fold e wo. rewrite Ei. repeat split.
  - (* two or four registers: write multiple registers *)
    set (o := OpWriteRegs w a [v]).
    assert (Hd : cli_doc_op (CoWriteNum t a v) = Some o).
    { cbn. fold w. destruct Hw as [Hw | [-> | ->]]; [contradiction|reflexivity..]. }
    assert (Hcount : op_count o = w) by (unfold o; cbn [op_count]; unfold lenN; cbn [length]; lia).
    assert (Hvalid : valid_op o = true).
    { unfold valid_op. rewrite Hcount. unfold o. cbn [op_regtype_ok op_limit op_addr]. lia. }
    destruct (serve_write_regs (cs_dev st) (c_unit (cs_cfg st)) a w img Ha ltac:(lia) Hend Hbytes Hlen) as (d' & Hs & Hland).
    exists o, d'. split; [exact Hd|]. split; [|exact Hland].
    apply (exec_answered st (CoWriteNum t a v) o (be16 a ++ be16 w) d' VUnit Hwf Hcfg Htxn Hd Hvalid).
    + unfold spec_pdu, spec_payload. rewrite Hcount. unfold o. cbn [spec_fc flat_map].
      fold e wo img. rewrite app_nil_r. exact Hs.
    + rewrite bytesb_app, !be16_bytes. reflexivity.
    + unfold answers. rewrite Hcount. repeat split.
Qed.

(* wr:bytes / wr:string: ONE request; the registers a .. hold the bytes two
   per register (odd lengths zero padded, bytes of a register swapped when
   --endianness little), every other cell unchanged *)
Lemma exec_write_bytes st a bs :
  a < 65536 -> bytesb bs = true -> 1 <= (lenN bs + 1) / 2 <= 123 -> a + (lenN bs + 1) / 2 <= 65536 ->
  cfg_wf (cs_cfg st) -> cs_txn st < 65536 ->
  let c := CoWriteBytes a bs in
  exists o d',
    cli_doc_op c = Some o /\
    cli_exec st c =
      mkclist (cs_cfg st) (u16 (cs_txn st + 1)) d'
        (cs_tx st ++ [spec_frame FMbap (u16 (cs_txn st + 1)) (spec_pdu (cs_cfg st) o)])
        (cs_out st ++ [ClWrote]) /\
    cli_landed (cs_dev st) d' a (spec_byte_image (cs_cfg st) false bs).
Proof.
  intros Ha Hb Hn Hend Hcfg Htxn. cbn zeta.
  set (o := OpWriteBytes false a bs). set (n := (lenN bs + 1) / 2) in *.
  assert (Hd : cli_doc_op (CoWriteBytes a bs) = Some o) by reflexivity.
  assert (Hwf : cli_op_wf (CoWriteBytes a bs)) by (cbn; split; assumption).
  assert (Hvalid : valid_op o = true).
  { unfold o, valid_op. cbn [op_regtype_ok op_count op_limit op_addr]. fold n. lia. }
  set (img := spec_byte_image (cs_cfg st) false bs).
  assert (Hlen : lenN img = 2 * n) by (unfold img; rewrite <- image_spec; apply image_len).
  assert (Hbytes : bytesb img = true) by (unfold img; rewrite <- image_spec; apply image_bytes; exact Hb).
  destruct (serve_write_regs (cs_dev st) (c_unit (cs_cfg st)) a n img Ha Hn Hend Hbytes Hlen) as (d' & Hs & Hland).
  exists o, d'. split; [exact Hd|]. split; [|exact Hland].
  apply (exec_answered st (CoWriteBytes a bs) o (be16 a ++ be16 n) d' VUnit Hwf Hcfg Htxn Hd Hvalid).
  - unfold spec_pdu, spec_payload, o. cbn [spec_fc op_count]. fold n img. exact Hs.
  - rewrite bytesb_app, !be16_bytes. reflexivity.
  - repeat split.
Qed.

(* wc:a:v: ONE request; coil a holds v afterwards, every other cell unchanged *)
Lemma exec_write_coil st a v :
  a < 65536 -> cfg_wf (cs_cfg st) -> cs_txn st < 65536 ->
  let c := CoWriteCoil a v in
  exists o d',
    cli_doc_op c = Some o /\
    cli_exec st c =
      mkclist (cs_cfg st) (u16 (cs_txn st + 1)) d'
        (cs_tx st ++ [spec_frame FMbap (u16 (cs_txn st + 1)) (spec_pdu (cs_cfg st) o)])
        (cs_out st ++ [ClWrote]) /\
    dv_coil d' a = v /\ (forall x, x <> a -> dv_coil d' x = dv_coil (cs_dev st) x) /\
    dv_disc d' = dv_disc (cs_dev st) /\ dv_hold d' = dv_hold (cs_dev st) /\ dv_inp d' = dv_inp (cs_dev st).
Proof.
  intros Ha Hcfg Htxn. cbn zeta. set (o := OpWriteCoil a v).
  assert (Hd : cli_doc_op (CoWriteCoil a v) = Some o) by reflexivity.
  assert (Hwf : cli_op_wf (CoWriteCoil a v)) by exact Ha.
  assert (Hvalid : valid_op o = true) by (unfold o; valid_tac).
  destruct (serve_write_coil (cs_dev st) (c_unit (cs_cfg st)) a v Ha) as (d' & Hs & Hc).
  exists o, d'. split; [exact Hd|]. split; [|exact Hc].
  apply (exec_answered st (CoWriteCoil a v) o (be16 a ++ if v then [255; 0] else [0; 0]) d' VUnit
           Hwf Hcfg Htxn Hd Hvalid).
  - exact Hs.
  - rewrite bytesb_app, be16_bytes. destruct v; reflexivity.
  - repeat split.
Qed.

(* rh/ri:bytes:a+q within limits: ONE request; the printed bytes are the first
   q+1 bytes of the registers' big-endian images (bytes of a register swapped
   when --endianness little), 16 per line; the device is unchanged *)
Lemma exec_read_bytes st h a q :
  a < 65536 -> q < 65536 -> cfg_wf (cs_cfg st) -> cs_txn st < 65536 ->
  (q + 2) / 2 <= 125 -> a + (q + 2) / 2 <= 65536 ->
  let c := CoReadRegs h CtBytes a q in
  let data := flat_map be16 (cli_range (cli_regs_of (cs_dev st) h) a ((q + 2) / 2)) in
  let bytes := firstn (N.to_nat (q + 1))
                 (match c_endian (cs_cfg st) with LittleE => pair_swap data | BigE => data end) in
  exists o,
    cli_doc_op c = Some o /\
    cli_exec st c =
      mkclist (cs_cfg st) (u16 (cs_txn st + 1)) (cs_dev st)
        (cs_tx st ++ [spec_frame FMbap (u16 (cs_txn st + 1)) (spec_pdu (cs_cfg st) o)])
        (cs_out st ++ cli_print c (Ok (VBytes bytes))).
Proof.
  intros Ha Hq Hcfg Htxn Hlim Hend. cbn zeta.
  set (rt := if h then Holding else InputReg). set (o := OpReadBytes false a (q + 1) rt).
  set (n := (q + 2) / 2) in *.
  assert (Hd : cli_doc_op (CoReadRegs h CtBytes a q) = Some o) by reflexivity.
  assert (Hcount : op_count o = n) by (unfold o, n; cbn [op_count]; f_equal; lia).
  assert (Hv : valid_op o = true) by (rewrite (read_bytes_valid h a q o Hd); fold n; lia).
  destruct (regs_served st h o a n) as (Hserve & Hbytes & Hlen);
    [destruct h; reflexivity|unfold spec_payload, o; rewrite <- Hcount; reflexivity|exact Ha|lia|lia|].
  set (data := flat_map be16 (cli_range (cli_regs_of (cs_dev st) h) a n)) in *.
  exists o. split; [exact Hd|].
  apply (exec_answered st (CoReadRegs h CtBytes a q) o (2 * n :: data) (cs_dev st)); try assumption.
  - cbn. split; assumption.
  - split; [reflexivity|]. split; [reflexivity|].
    unfold o at 1. exists data. rewrite Hcount. split; [reflexivity|]. split; [exact Hlen|reflexivity].
Qed.
