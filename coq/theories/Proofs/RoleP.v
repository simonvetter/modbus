(* extractRole (Model/Role.v) against the specification (Spec/RoleSpec.v). *)
From Modbus Require Import Base.Bytes Model.Utf8 Model.Der Model.Role Spec.RoleSpec
  Proofs.Utf8P Proofs.RoleSpecP Proofs.DerP.

Definition good_value (v : list N) : option (list N) :=
  if hd 0 v =? 12 then
    match unmarshal_list v with
    | Some (s, []) => Some s
    | _ => None
    end
  else None.

(* the function computed by the loop plus the final blanking *)
Definition loop_result (role : list N) (exts : list cert_ext) : list N :=
  match role_values exts with
  | [] => role
  | [v] => match good_value v with Some s => s | None => [] end
  | _ => []
  end.

Lemma role_values_cons b v more :
  role_values ((b, v) :: more) = if b then v :: role_values more else role_values more.
Proof. unfold role_values. cbn [filter fst]. destruct b; reflexivity. Qed.

Lemma loop_found exts : forall role,
  role_loop exts role true =
  DOk (role, match role_values exts with [] => false | _ => true end).
Proof.
  induction exts as [|[b v] more IH]; intros role; [reflexivity|].
  cbn [role_loop]. rewrite role_values_cons. destruct b; [reflexivity|apply IH].
Qed.

Lemma loop_fresh exts : forall role, exists p,
  role_loop exts role false = DOk p /\
  (if snd p then [] else fst p) = loop_result role exts.
Proof.
  induction exts as [|[b v] more IH]; intros role.
  { exists (role, false). split; reflexivity. }
  cbn [role_loop]. unfold loop_result. rewrite role_values_cons.
  destruct b; [|apply IH].
  destruct v as [|b0 [|b1 t]].
  - exists (role, true). split; [reflexivity|]. cbn. destruct (role_values more); reflexivity.
  - exists (role, true). split; [reflexivity|]. unfold good_value. cbn [hd unmarshal_list].
    destruct (b0 =? 12); destruct (role_values more); reflexivity.
  - cbn [length Nat.ltb Nat.leb index_at nth_error]. unfold good_value. cbn [hd].
    destruct (b0 =? 12) eqn:E0; cbn [negb].
    2:{ exists (role, true). split; [reflexivity|]. destruct (role_values more); reflexivity. }
    apply N.eqb_eq in E0. subst b0. rewrite unmarshal_eq.
    destruct (unmarshal_list (12 :: b1 :: t)) as [[s rest]|].
    2:{ exists (role, true). split; [reflexivity|]. destruct (role_values more); reflexivity. }
    destruct rest as [|x rest]; cbn [length Nat.eqb negb].
    2:{ exists (s, true). split; [reflexivity|]. destruct (role_values more); reflexivity. }
    rewrite loop_found. eexists. split; [reflexivity|]. cbn [fst snd].
    destruct (role_values more); reflexivity.
Qed.

Lemma extract_role_run_eq exts : extract_role_run exts = DOk (loop_result [] exts).
Proof.
  unfold extract_role_run. destruct (loop_fresh exts []) as ([r bad] & -> & H).
  cbn [fst snd] in H. rewrite H. reflexivity.
Qed.

Lemma extract_role_eq exts : extract_role exts = loop_result [] exts.
Proof. unfold extract_role. rewrite extract_role_run_eq. reflexivity. Qed.

Lemma good_value_sound v s : bytesb v = true -> good_value v = Some s ->
  v = der_utf8string s /\ utf8_valid s = true /\ lenN s < 2 ^ 31.
Proof.
  intros Hb. unfold good_value.
  destruct (hd 0 v =? 12) eqn:E0; [|discriminate]. apply N.eqb_eq in E0.
  destruct (unmarshal_list v) as [[s' rest]|] eqn:U; [|discriminate].
  destruct rest; [|discriminate]. intros H. inversion H; subst s'. clear H.
  destruct v as [|b0 [|b1 t]]; try discriminate U. cbn [hd] in E0. subst b0.
  cbn [bytesb forallb] in Hb. apply andb_true_iff in Hb as [_ Hb].
  apply unmarshal_list_sound in U as (E & Hv & Hl); [|exact Hb].
  rewrite app_nil_r in E. unfold der_utf8string. rewrite E. repeat split; assumption.
Qed.

Lemma good_value_der s : lenN s < 2 ^ 31 ->
  good_value (der_utf8string s) = if utf8_valid s then Some s else None.
Proof.
  intros Hl. unfold good_value. change (hd 0 (der_utf8string s)) with 12.
  change (12 =? 12) with true. cbv iota.
  rewrite <- (app_nil_r (der_utf8string s)), unmarshal_list_complete by exact Hl.
  destruct (utf8_valid s); reflexivity.
Qed.

Lemma good_value_trailing s x t : lenN s < 2 ^ 31 -> good_value (der_utf8string s ++ x :: t) = None.
Proof.
  intros Hl. unfold good_value. destruct (hd 0 _ =? 12); [|reflexivity].
  rewrite unmarshal_list_complete by exact Hl. destruct (utf8_valid s); reflexivity.
Qed.

Lemma good_value_tag v : hd 0 v <> 12 -> good_value v = None.
Proof.
  intros H. unfold good_value. destruct (hd 0 v =? 12) eqn:E; [|reflexivity].
  apply N.eqb_eq in E. contradiction.
Qed.

Lemma good_value_undecodable v : unmarshal_list v = None -> good_value v = None.
Proof. intros H. unfold good_value. rewrite H. destruct (hd 0 v =? 12); reflexivity. Qed.

Lemma role_values_bytes exts v : all_bytes exts = true ->
  In v (role_values exts) -> bytesb v = true.
Proof.
  intros H Hin. unfold role_values in Hin. apply in_map_iff in Hin as (e & <- & He).
  apply filter_In in He as [He _]. unfold all_bytes in H. rewrite forallb_forall in H. apply H, He.
Qed.

(* T1: a role comes from exactly one role extension, whose value is the DER
   UTF8String of that role *)
Lemma role_sound exts r : all_bytes exts = true ->
  extract_role exts = r -> r <> [] ->
  role_values exts = [der_utf8string r] /\ utf8_valid r = true /\ lenN r < 2 ^ 31.
Proof.
  intros Hb E Hr. rewrite extract_role_eq in E. unfold loop_result in E.
  destruct (role_values exts) as [|v [|w l]] eqn:Ev; try congruence.
  destruct (good_value v) as [s|] eqn:G; [|congruence]. subst s.
  apply good_value_sound in G as (-> & Hv & Hl).
  - repeat split; assumption.
  - apply (role_values_bytes exts); [exact Hb|]. rewrite Ev. left. reflexivity.
Qed.

Lemma role_sound_spec exts r : all_bytes exts = true ->
  extract_role exts = r -> r <> [] -> states_role exts r.
Proof.
  intros Hb E Hr. destruct (role_sound exts r Hb E Hr) as (Ev & Hv & _).
  split; [exact Ev|]. apply utf8_valid_iff, Hv.
Qed.

(* T2: one role extension with a well-formed value yields its string *)
Lemma role_complete exts r : role_values exts = [der_utf8string r] ->
  utf8_valid r = true -> lenN r < 2 ^ 31 -> extract_role exts = r.
Proof.
  intros Ev Hv Hl. rewrite extract_role_eq. unfold loop_result. rewrite Ev.
  rewrite good_value_der, Hv by exact Hl. reflexivity.
Qed.

Lemma role_complete_spec exts r : states_role exts r -> lenN r < 2 ^ 31 -> extract_role exts = r.
Proof.
  intros [Ev Hw] Hl. apply role_complete; [exact Ev| |exact Hl]. apply utf8_valid_iff, Hw.
Qed.

Lemma role_bad_value exts v : role_values exts = [v] -> good_value v = None ->
  extract_role exts = [].
Proof.
  intros Ev G. rewrite extract_role_eq. unfold loop_result. rewrite Ev, G. reflexivity.
Qed.

Lemma role_undecodable exts v : role_values exts = [v] -> unmarshal_list v = None ->
  extract_role exts = [].
Proof. intros Ev U. apply (role_bad_value exts v Ev), good_value_undecodable, U. Qed.

(* the two readings of "exactly one role extension" *)
Lemma role_values_one exts v : role_values exts = [v] <->
  exists pre post, exts = pre ++ (true, v) :: post /\
                   forallb (fun e => negb (fst e)) pre = true /\
                   forallb (fun e => negb (fst e)) post = true.
Proof.
  split.
  - revert v. induction exts as [|[b w] more IH]; intros v H; [discriminate|].
    rewrite role_values_cons in H. destruct b.
    + inversion H as [[Hw Hm]]. exists [], more. repeat split.
      clear - Hm. induction more as [|[b u] more IH]; [reflexivity|].
      rewrite role_values_cons in Hm. destruct b; [discriminate|]. cbn [forallb fst negb andb].
      apply IH, Hm.
    + destruct (IH v H) as (pre & post & -> & Hp & Hq). exists ((false, w) :: pre), post.
      repeat split; [|exact Hq]. cbn [forallb fst negb andb]. exact Hp.
  - intros (pre & post & -> & Hp & Hq).
    assert (Hn : forall l, forallb (fun e : cert_ext => negb (fst e)) l = true -> role_values l = []).
    { induction l as [|[b u] l IH]; intros H; [reflexivity|]. cbn [forallb fst] in H.
      apply andb_true_iff in H as [Hb H]. destruct b; [discriminate|].
      rewrite role_values_cons. apply IH, H. }
    unfold role_values in *. rewrite filter_app, map_app. cbn [filter fst map snd].
    rewrite (Hn pre Hp), (Hn post Hq). reflexivity.
Qed.
