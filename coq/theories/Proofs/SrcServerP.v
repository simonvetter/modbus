(* server.go handleTransport as translated from the Go source (Gen/SrcPure.v): the vocabulary of the statements,
   then what the cases of the switch have in common. The transport and the user's handler are external functions
   that take and return the state of the outside world (an arbitrary GoLite value threaded through every
   external call), so that their answers may depend on everything that happened before. [u16tb_hyp],
   [b2u16_hyp] come from SrcClientP.v, [GOk] from SrcMiscP.v. *)
From Coq Require Import List NArith String Lia Bool.
Import ListNotations.
From Modbus Require Import Base.Bytes Model.GoLite Gen.SrcPure Model.Crc Model.Encoding.
From Modbus Require Import Model.Wire Model.Client Model.Server.
From Modbus Require Import Proofs.GoLiteP Proofs.GoLiteLinkP Proofs.SrcCrcP Proofs.SrcLinkP Proofs.SrcMiscP Proofs.SrcClientP.
Open Scope string_scope.
Open Scope N_scope.

(* t.ReadRequest(): a request, or an error (the session then ends) *)
Inductive rdres :=
| RdOk (req : pdu)
| RdErr (code : N).

Record hret := mkhret { hr_bools : list bool; hr_regs : list N; hr_code : N }.

Record world_fns := mkworld {
  w_read : val -> val * rdres;
  w_handle : val -> N -> N -> hreq -> val * hret;   (* world, client address, client role, request *)
  w_write : val -> pdu -> val * N;                  (* t.WriteResponse(res): new world, error value *)
  w_close : val -> val * N                          (* t.Close() *)
}.

Definition rd_wf (r : rdres) : Prop :=
  match r with
  | RdOk req => bytesb (p_payload req) = true /\ p_unit req < 256 /\ p_fc req < 256
  | RdErr c => c <> 0
  end.

Definition enc_rd (r : rdres) : list val :=
  match r with
  | RdOk req => [VB false; VN (p_unit req); VN (p_fc req); vbytes (p_payload req); VN 0]
  | RdErr c => [VB true; VN 0; VN 0; VL []; VN c]
  end.

Definition herr_of_code (c : N) : herr :=
  if c =? 0 then HNone
  else if c =? code_of "ErrIllegalFunction" then HModbus 1
  else if c =? code_of "ErrIllegalDataAddress" then HModbus 2
  else if c =? code_of "ErrIllegalDataValue" then HModbus 3
  else if c =? code_of "ErrServerDeviceFailure" then HModbus 4
  else if c =? code_of "ErrAcknowledge" then HModbus 5
  else if c =? code_of "ErrServerDeviceBusy" then HModbus 6
  else if c =? code_of "ErrMemoryParityError" then HModbus 8
  else if c =? code_of "ErrGWPathUnavailable" then HModbus 10
  else if c =? code_of "ErrGWTargetFailedToRespond" then HModbus 11
  else if c =? code_of "ErrProtocolError" then HProtocol
  else HOther.

Definition model_handler (W : world_fns) (ca cr : N) : handler val :=
  fun w r => let '(w', x) := w_handle W w ca cr r in
             (w', mkhres (hr_bools x) (hr_regs x) (herr_of_code (hr_code x))).

(* hypotheses on the function environment: the external functions are the
   world functions. The proofs use [rd_wf] only for the payload being bytes,
   and the last conjunct only for the error value: that unit id and function
   code are bytes and registers 16-bit words is stated because Go's types
   allow nothing else. *)
Definition world_hyp (fe : fenv) (W : world_fns) : Prop :=
  (forall w, fe "transport.ReadRequest" [w] = GOk (fst (w_read W w) :: enc_rd (snd (w_read W w))) /\
             rd_wf (snd (w_read W w))) /\
  (forall w ca cr u a q wr args,
     fe "handler.HandleCoils" [w; VN ca; VN cr; VN u; VN a; VN q; VB wr; vbools args] =
     let '(w', x) := w_handle W w ca cr (mkhreq HCoils u a q wr args []) in
     GOk [w'; vbools (hr_bools x); VN (hr_code x)]) /\
  (forall w ca cr u a q,
     fe "handler.HandleDiscreteInputs" [w; VN ca; VN cr; VN u; VN a; VN q] =
     let '(w', x) := w_handle W w ca cr (mkhreq HDiscrete u a q false [] []) in
     GOk [w'; vbools (hr_bools x); VN (hr_code x)]) /\
  (forall w ca cr u a q wr args,
     fe "handler.HandleHoldingRegisters" [w; VN ca; VN cr; VN u; VN a; VN q; VB wr; vbytes args] =
     let '(w', x) := w_handle W w ca cr (mkhreq HHolding u a q wr [] args) in
     GOk [w'; vbytes (hr_regs x); VN (hr_code x)]) /\
  (forall w ca cr u a q,
     fe "handler.HandleInputRegisters" [w; VN ca; VN cr; VN u; VN a; VN q] =
     let '(w', x) := w_handle W w ca cr (mkhreq HInput u a q false [] []) in
     GOk [w'; vbytes (hr_regs x); VN (hr_code x)]) /\
  (forall w res,
     fe "transport.WriteResponse" [w; VN (p_unit res); VN (p_fc res); vbytes (p_payload res)] =
     GOk [fst (w_write W w res); VN (snd (w_write W w res))]) /\
  (forall w, fe "transport.Close" [w] = GOk [fst (w_close W w); VN (snd (w_close W w))]) /\
  (forall w ca cr r, In (hr_code (snd (w_handle W w ca cr r))) all_error_values /\
                     Forall (fun v => v < 65536) (hr_regs (snd (w_handle W w ca cr r)))).

Definition srv_request (W : world_fns) (ca cr : N) (w : val) (req : pdu) : val * bool :=
  let '(w1, _, act) := server_process (model_handler W ca cr) w req in
  match act with
  | Respond res => (fst (w_write W w1 res), true)        (* go on *)
  | CloseLink => (fst (w_close W w1), false)             (* return *)
  end.

(* [None] when the fuel runs out *)
Fixpoint srv_loop (W : world_fns) (ca cr : N) (n : nat) (w : val) : option val :=
  match n with
  | O => None
  | S n' =>
      let '(w1, r) := w_read W w in
      match r with
      | RdErr _ => Some w1
      | RdOk req =>
          let '(w2, go_on) := srv_request W ca cr w1 req in
          if go_on then srv_loop W ca cr n' w2 else Some w2
      end
  end.

(* the body of the [for] loop of the translated function (if the Go source
   changes shape this is SSkip: SrcCrcP.v, crc_add_loop_body) *)
Definition srv_parts : stmt :=
  Eval cbv in match f_body src_fn_ModbusServer_handleTransport with
              | SSeq _ (SSeq _ (SSeq _ (SSeq _ (SSeq _ (SSeq (SFor _ _ b) _))))) => b
              | _ => SSkip
              end.

(* a state of the function: the receiver fields, client address and role, the
   world, and 18 further slots. 5-8: req (nil flag, unitId, functionCode,
   payload); 9-12: res, likewise; 13: err; 14: addr; 15: quantity; then the
   locals of the cases: 16 coils, 17 resCount (fc 1, 2); 18 expectedLen (15);
   19 regs, 20 resCount (3, 4); 21 value (6); 22 expectedLen (16) *)
Definition srv_state (started tt : val) (ca cr : N) (w : val) (rest : list val) : state :=
  started :: tt :: VN ca :: VN cr :: w :: rest.

(* what the function calls inside the program, as hypotheses on the
   environment. The bounds are the largest sizes the checks of the server let
   through: 2000 coils read, 1968 (0x7b0) coils written, 125 registers read,
   and a request payload of at most 254 bytes after the five of the header of
   a write-multiple request. *)
Definition srv_callee_hyp (fe : fenv) : Prop :=
  u16tb_hyp fe /\ b2u16_hyp fe /\
  (forall l, (List.length l <= 2000)%nat -> fe "encodeBools" [vbools l] = GOk [vbytes (encode_bools l)]) /\
  (forall q bs, q <= 1968 -> bytesb bs = true ->
     fe "decodeBools" [VN q; vbytes bs] =
     match decode_bools (N.to_nat q) bs with Some r => GOk [vbools r] | None => GoLite.Panic end) /\
  (forall l, (List.length l <= 254)%nat ->
     fe "bytesToUint16s" [VN 1; vbytes l] =
     match bytes_to_u16s BigE l with Some r => GOk [vbytes r] | None => GoLite.Panic end) /\
  (forall vs, (List.length vs <= 125)%nat ->
     fe "uint16sToBytes" [VN 1; vbytes vs] = GOk [vbytes (u16s_to_bytes BigE vs)]) /\
  (forall v, In v all_error_values -> fe "mapErrorToExceptionCode" [VN v] = GOk [VN (err_to_exc v)]).

Definition srv_iter_spec (fe : fenv) (fuel : nat) (W : world_fns) (started tt : val) (ca cr : N)
           (w : val) (rest : list val) (req : pdu) : Prop :=
  exists rest', List.length rest' = 18%nat /\
    exec ge fe fuel (srv_state started tt ca cr w rest) srv_parts =
    (let '(w2, go_on) := srv_request W ca cr (fst (w_read W w)) req in
     if go_on then ONormal (srv_state started tt ca cr w2 rest')
     else OReturn (srv_state started tt ca cr w2 rest') None).

Definition srv_iter_end_spec (fe : fenv) (fuel : nat) (W : world_fns) (started tt : val) (ca cr : N)
           (w : val) (rest : list val) : Prop :=
  exists rest', List.length rest' = 18%nat /\
    exec ge fe fuel (srv_state started tt ca cr w rest) srv_parts =
    OReturn (srv_state started tt ca cr (fst (w_read W w)) rest') None.

(* a list of 18 values, as its elements *)
Ltac split18 rest Hlen :=
  destruct rest as [|r5 [|r6 [|r7 [|r8 [|r9 [|r10 [|r11 [|r12 [|r13 [|s14 [|s15 [|s16 [|s17 [|s18 [|s19 [|s20 [|s21
                   [|s22 [|? ?]]]]]]]]]]]]]]]]]]]; try discriminate Hlen; clear Hlen.

Section Hyps.
  Variables (fe : fenv) (W : world_fns).
  Hypothesis HW : world_hyp fe W.
  Hypothesis HC : srv_callee_hyp fe.

  Lemma read_call w : fe "transport.ReadRequest" [w] = GOk (fst (w_read W w) :: enc_rd (snd (w_read W w))).
  Proof. exact (proj1 (proj1 HW w)). Qed.

  Lemma read_wf w : rd_wf (snd (w_read W w)).
  Proof. exact (proj2 (proj1 HW w)). Qed.

  Lemma coils_call w ca cr u a q wr args :
    fe "handler.HandleCoils" [w; VN ca; VN cr; VN u; VN a; VN q; VB wr; VL (map VB args)] =
    let '(w', x) := w_handle W w ca cr (mkhreq HCoils u a q wr args []) in
    GOk [w'; VL (map VB (hr_bools x)); VN (hr_code x)].
  Proof. destruct HW as (_ & H & _). apply H. Qed.

  Lemma discrete_call w ca cr u a q :
    fe "handler.HandleDiscreteInputs" [w; VN ca; VN cr; VN u; VN a; VN q] =
    let '(w', x) := w_handle W w ca cr (mkhreq HDiscrete u a q false [] []) in
    GOk [w'; VL (map VB (hr_bools x)); VN (hr_code x)].
  Proof. destruct HW as (_ & _ & H & _). apply H. Qed.

  Lemma holding_call w ca cr u a q wr args :
    fe "handler.HandleHoldingRegisters" [w; VN ca; VN cr; VN u; VN a; VN q; VB wr; VL (map VN args)] =
    let '(w', x) := w_handle W w ca cr (mkhreq HHolding u a q wr [] args) in
    GOk [w'; VL (map VN (hr_regs x)); VN (hr_code x)].
  Proof. destruct HW as (_ & _ & _ & H & _). apply H. Qed.

  Lemma input_call w ca cr u a q :
    fe "handler.HandleInputRegisters" [w; VN ca; VN cr; VN u; VN a; VN q] =
    let '(w', x) := w_handle W w ca cr (mkhreq HInput u a q false [] []) in
    GOk [w'; VL (map VN (hr_regs x)); VN (hr_code x)].
  Proof. destruct HW as (_ & _ & _ & _ & H & _). apply H. Qed.

  Lemma write_call w u f p :
    fe "transport.WriteResponse" [w; VN u; VN f; VL (map VN p)] =
    GOk [fst (w_write W w (mkpdu u f p)); VN (snd (w_write W w (mkpdu u f p)))].
  Proof. destruct HW as (_ & _ & _ & _ & _ & H & _). exact (H w (mkpdu u f p)). Qed.

  Lemma close_call w : fe "transport.Close" [w] = GOk [fst (w_close W w); VN (snd (w_close W w))].
  Proof. destruct HW as (_ & _ & _ & _ & _ & _ & H & _). apply H. Qed.

  Lemma handle_code w ca cr r : In (hr_code (snd (w_handle W w ca cr r))) all_error_values.
  Proof. destruct HW as (_ & _ & _ & _ & _ & _ & _ & H). apply H. Qed.

  Lemma b2u16_pair x y : fe "bytesToUint16" [VN 1; VL [VN x; VN y]] = GOk [VN (x * 256 + y)].
  Proof. exact (proj1 (proj2 HC) BigE [x; y]). Qed.

  Lemma u16tb_be v : fe "uint16ToBytes" [VN 1; VN v] = GOk [VL (map VN (be16 v))].
  Proof. rewrite <- be16_u16_to_bytes. exact (proj1 HC BigE v). Qed.

  Lemma encb_call l : (List.length l <= 2000)%nat -> fe "encodeBools" [VL (map VB l)] = GOk [VL (map VN (encode_bools l))].
  Proof. apply (proj1 (proj2 (proj2 HC))). Qed.

  Lemma decb_call q bs : q <= 1968 -> bytesb bs = true ->
    fe "decodeBools" [VN q; VL (map VN bs)] =
    match decode_bools (N.to_nat q) bs with Some r => GOk [VL (map VB r)] | None => GoLite.Panic end.
  Proof. apply (proj1 (proj2 (proj2 (proj2 HC)))). Qed.

  Lemma b2u16s_call l : (List.length l <= 254)%nat ->
    fe "bytesToUint16s" [VN 1; VL (map VN l)] =
    match bytes_to_u16s BigE l with Some r => GOk [VL (map VN r)] | None => GoLite.Panic end.
  Proof. apply (proj1 (proj2 (proj2 (proj2 (proj2 HC))))). Qed.

  Lemma u16s2b_call vs : (List.length vs <= 125)%nat ->
    fe "uint16sToBytes" [VN 1; VL (map VN vs)] = GOk [VL (map VN (u16s_to_bytes BigE vs))].
  Proof. apply (proj1 (proj2 (proj2 (proj2 (proj2 (proj2 HC)))))). Qed.

  Lemma errmap_call v : In v all_error_values -> fe "mapErrorToExceptionCode" [VN v] = GOk [VN (err_to_exc v)].
  Proof. apply (proj2 (proj2 (proj2 (proj2 (proj2 (proj2 HC)))))). Qed.
End Hyps.

(* mapErrorToExceptionCode on an error value is the model's herr_code on its
   class: the two are the same chain of comparisons *)
Lemma herr_exc c :
  herr_code (norm_herr (herr_of_code c)) = err_to_exc c /\ (c <> 0 -> norm_herr (herr_of_code c) <> HNone).
Proof.
  unfold herr_of_code, err_to_exc.
  repeat match goal with
         | |- context [code_of ?s] => let r := eval vm_compute in (code_of s) in change (code_of s) with r
         end.
  repeat (match goal with
          | |- context [if ?x =? ?k then _ else _] => destruct (N.eqb_spec x k) as [->|?]
          end; try (split; [reflexivity|try discriminate; try congruence])).
Qed.

Lemma hfinish_code {St} (st' : St) (r : hreq) c (ok : St * list hreq * action) req :
  match norm_herr (herr_of_code c) with
  | HNone => ok
  | e => (st', [r], Respond (exception_pdu req (herr_code e)))
  end = if c =? 0 then ok else (st', [r], Respond (exception_pdu req (err_to_exc c))).
Proof.
  destruct (N.eqb_spec c 0) as [->|Hc]; [reflexivity|].
  destruct (herr_exc c) as [Hcode Hne]. rewrite <- Hcode.
  destruct (norm_herr (herr_of_code c)); [destruct (Hne Hc eq_refl)|reflexivity..].
Qed.

(* if err == ErrProtocolError { err = ErrServerDeviceFailure } *)
Lemma fix16 c : In c all_error_values -> c <> 0 ->
  let c' := if c =? v_ErrProtocolError then v_ErrServerDeviceFailure else c in
  In c' all_error_values /\ c' <> 0 /\ c' <> v_ErrProtocolError /\ err_to_exc c' = err_to_exc c.
Proof.
  intros Hin Hc. cbv zeta. destruct (N.eqb_spec c v_ErrProtocolError) as [->|H16].
  - vm_compute. intuition discriminate.
  - auto.
Qed.

Definition srv_switch : stmt :=
  Eval cbv in match srv_parts with SSeq _ (SSeq _ (SSeq (SBlock s) _)) => s | _ => SSkip end.
Definition srv_tail : stmt :=
  Eval cbv in match srv_parts with SSeq _ (SSeq _ (SSeq _ t)) => t | _ => SSkip end.

Lemma srv_parts_eq :
  srv_parts =
  SSeq (SCall "transport.ReadRequest" (ECons (EVar 4) ENil) [LVar 4; LVar 5; LVar 6; LVar 7; LVar 8; LVar 13])
    (SSeq (SIf (ECmp CNe (EVar 13) (EN 0)) (SReturn ENil) SSkip)
       (SSeq (SBlock srv_switch) srv_tail)).
Proof. reflexivity. Qed.

(* the cases of the switch, in the order of the source *)
Inductive fc_class := K12 | K5 | K15 | K34 | K6 | K16 | Kother.

Definition class_of (fc : N) : fc_class :=
  if orb (fc =? 1) (fc =? 2) then K12
  else if fc =? 5 then K5
  else if fc =? 15 then K15
  else if orb (fc =? 3) (fc =? 4) then K34
  else if fc =? 6 then K6
  else if fc =? 16 then K16
  else Kother.

Definition srv_case : fc_class -> stmt :=
  Eval cbv in match srv_switch with
              | SIf _ c12 (SIf _ c5 (SIf _ c15 (SIf _ c34 (SIf _ c6 (SIf _ c16 c0))))) =>
                  fun k => match k with
                           | K12 => c12 | K5 => c5 | K15 => c15 | K34 => c34 | K6 => c6 | K16 => c16
                           | Kother => c0
                           end
              | _ => fun _ => SSkip
              end.

(* a case leaves the switch by [break] or at its end; the tail follows *)
Definition after_case (fe : fenv) (fuel : nat) (o : outcome) : outcome :=
  match o with
  | ONormal s | OBreak s => exec ge fe fuel s srv_tail
  | o => o
  end.

Lemma after_normal fe fuel st a st1 :
  exec ge fe fuel st a = ONormal st1 -> after_case fe fuel (exec ge fe fuel st a) = exec ge fe fuel st1 srv_tail.
Proof. intros H. rewrite H. reflexivity. Qed.

(* [srv_request W ca cr w req] is [srv_finish W (server_process (model_handler
   W ca cr) w req)], by conversion: the case proofs compute server_process
   step by step, so they need its result as an argument *)
Definition srv_finish (W : world_fns) (x : val * list hreq * action) : val * bool :=
  let '(w1, _, act) := x in
  match act with
  | Respond res => (fst (w_write W w1 res), true)
  | CloseLink => (fst (w_close W w1), false)
  end.

(* [srv_iter_spec fe fuel W started tt ca cr w rest req] is [iter_out started
   tt ca cr (srv_request ..) (exec .. srv_parts)], again by conversion
   (srv_iter_by_case): the outcome and the model's verdict are arguments, so
   that both can be rewritten while a case is run *)
Definition iter_out (started tt : val) (ca cr : N) (r : val * bool) (o : outcome) : Prop :=
  exists rest', List.length rest' = 18%nat /\
    o = (let '(w2, go_on) := r in
         if go_on then ONormal (srv_state started tt ca cr w2 rest')
         else OReturn (srv_state started tt ca cr w2 rest') None).

(* the function has returned or reached the end of the loop body: the 18
   slots are read off the final state *)
Ltac iter_done := unfold iter_out; eexists; split; [|reflexivity]; reflexivity.

Section Body.
  Variables (fe : fenv) (fuel : nat) (W : world_fns).
  Hypothesis HW : world_hyp fe W.
  Hypothesis HC : srv_callee_hyp fe.
  Variables (started tt : val) (ca cr : N) (w : val).
  Variables (r5 r6 r7 r8 r9 r10 r11 r12 r13 s14 s15 s16 s17 s18 s19 s20 s21 s22 : val).

  (* only the conditions of the chain are evaluated, not its branches *)
  Lemma switch_case w1 u fc pl e :
    let st := [started; tt; VN ca; VN cr; w1; VB false; VN u; VN fc; pl;
               r9; r10; r11; r12; e; s14; s15; s16; s17; s18; s19; s20; s21; s22] in
    exec ge fe fuel st srv_switch = exec ge fe fuel st (srv_case (class_of fc)).
  Proof.
    cbv zeta. unfold srv_switch, class_of.
    rewrite (exec_if_eval _ _ _ _ _ _ _ (orb (fc =? 1) (fc =? 2))) by (apply eval_orelse; gl_run; reflexivity).
    destruct (orb (fc =? 1) (fc =? 2)); [reflexivity|].
    rewrite (exec_if_eval _ _ _ _ _ _ _ (fc =? 5)) by (gl_run; reflexivity).
    destruct (fc =? 5); [reflexivity|].
    rewrite (exec_if_eval _ _ _ _ _ _ _ (fc =? 15)) by (gl_run; reflexivity).
    destruct (fc =? 15); [reflexivity|].
    rewrite (exec_if_eval _ _ _ _ _ _ _ (orb (fc =? 3) (fc =? 4))) by (apply eval_orelse; gl_run; reflexivity).
    destruct (orb (fc =? 3) (fc =? 4)); [reflexivity|].
    rewrite (exec_if_eval _ _ _ _ _ _ _ (fc =? 6)) by (gl_run; reflexivity).
    destruct (fc =? 6); [reflexivity|].
    rewrite (exec_if_eval _ _ _ _ _ _ _ (fc =? 16)) by (gl_run; reflexivity).
    destruct (fc =? 16); reflexivity.
  Qed.

  Lemma srv_front u fc pl :
    snd (w_read W w) = RdOk (mkpdu u fc pl) ->
    exec ge fe fuel (srv_state started tt ca cr w
       [r5; r6; r7; r8; r9; r10; r11; r12; r13; s14; s15; s16; s17; s18; s19; s20; s21; s22]) srv_parts =
    after_case fe fuel (exec ge fe fuel
       [started; tt; VN ca; VN cr; fst (w_read W w); VB false; VN u; VN fc; vbytes pl;
        r9; r10; r11; r12; VN 0; s14; s15; s16; s17; s18; s19; s20; s21; s22] (srv_case (class_of fc))).
  Proof.
    intros Hrd. pose proof (read_call fe W HW w) as Hr. rewrite Hrd in Hr. cbn [enc_rd p_unit p_fc p_payload] in Hr.
    rewrite <- switch_case.
    rewrite srv_parts_eq. unfold srv_state. gl_run. rewrite Hr. gl_run.
    unfold after_case. destruct (exec ge fe fuel _ srv_switch); reflexivity.
  Qed.

  Lemma srv_front_end c :
    snd (w_read W w) = RdErr c ->
    iter_out started tt ca cr (fst (w_read W w), false)
      (exec ge fe fuel (srv_state started tt ca cr w
         [r5; r6; r7; r8; r9; r10; r11; r12; r13; s14; s15; s16; s17; s18; s19; s20; s21; s22]) srv_parts).
  Proof.
    intros Hrd. pose proof (read_call fe W HW w) as Hr. pose proof (read_wf fe W HW w) as Hwf.
    rewrite Hrd in Hr, Hwf. cbn [enc_rd rd_wf] in Hr, Hwf.
    rewrite srv_parts_eq. unfold srv_state. gl_run. rewrite Hr. gl_run.
    replace (c =? 0) with false by lia. gl_run. iter_done.
  Qed.

  Variables (u fc : N).

  Lemma tail_close pl :
    iter_out started tt ca cr (fst (w_close W w), false)
      (exec ge fe fuel
         [started; tt; VN ca; VN cr; w; VB false; VN u; VN fc; pl; r9; r10; r11; r12; VN v_ErrProtocolError;
          s14; s15; s16; s17; s18; s19; s20; s21; s22] srv_tail).
  Proof. unfold srv_tail. gl_run. rewrite (close_call fe W HW). gl_run. iter_done. Qed.

  Lemma tail_exc pl e :
    In e all_error_values -> e <> 0 -> e <> v_ErrProtocolError ->
    iter_out started tt ca cr
      (fst (w_write W w (mkpdu u (N.lor 128 fc) [err_to_exc e])), true)
      (exec ge fe fuel
         [started; tt; VN ca; VN cr; w; VB false; VN u; VN fc; pl; r9; r10; r11; r12; VN e;
          s14; s15; s16; s17; s18; s19; s20; s21; s22] srv_tail).
  Proof.
    intros Hin H0 H16.
    assert (E0 : (e =? 0) = false) by lia. assert (E16 : (e =? v_ErrProtocolError) = false) by lia.
    unfold srv_tail. gl_run. rewrite ?E0, ?E16. gl_run. rewrite ?E0, ?E16. gl_run.
    rewrite (errmap_call fe HC e Hin). gl_run. rewrite ?E0, ?E16. gl_run.
    pose proof (write_call fe W HW w u (N.lor 128 fc) [err_to_exc e]) as Hw. cbn [map] in Hw. rewrite Hw. gl_run.
    destruct (snd (w_write W w (mkpdu u (N.lor 128 fc) [err_to_exc e])) =? 0); gl_run; iter_done.
  Qed.

  Lemma tail_ok pl ru rfc rp :
    iter_out started tt ca cr
      (fst (w_write W w (mkpdu ru rfc rp)), true)
      (exec ge fe fuel
         [started; tt; VN ca; VN cr; w; VB false; VN u; VN fc; pl; VB false; VN ru; VN rfc; VL (map VN rp); VN 0;
          s14; s15; s16; s17; s18; s19; s20; s21; s22] srv_tail).
  Proof.
    unfold srv_tail. gl_run. rewrite (write_call fe W HW w ru rfc rp). gl_run.
    destruct (snd (w_write W w (mkpdu ru rfc rp)) =? 0); gl_run; iter_done.
  Qed.
  (* after a handler call: if err == ErrProtocolError { err = ErrServerDeviceFailure } *)
  Lemma fix16_step pl c rest :
    exec ge fe fuel
      [started; tt; VN ca; VN cr; w; VB false; VN u; VN fc; pl; r9; r10; r11; r12; VN c;
       s14; s15; s16; s17; s18; s19; s20; s21; s22]
      (SSeq (SIf (ECmp CEq (EVar 13) (EN v_ErrProtocolError)) (SSet (LVar 13) (EN v_ErrServerDeviceFailure)) SSkip) rest) =
    exec ge fe fuel
      [started; tt; VN ca; VN cr; w; VB false; VN u; VN fc; pl; r9; r10; r11; r12; VN (if c =? v_ErrProtocolError then v_ErrServerDeviceFailure else c);
       s14; s15; s16; s17; s18; s19; s20; s21; s22] rest.
  Proof. apply seq_normal. gl_run. destruct (c =? v_ErrProtocolError); reflexivity. Qed.

  (* ... if err != nil { break } *)
  Lemma handler_done pl c hs rest ok :
    let st e := [started; tt; VN ca; VN cr; w; VB false; VN u; VN fc; pl; r9; r10; r11; r12; VN e;
                 s14; s15; s16; s17; s18; s19; s20; s21; s22] in
    In c all_error_values ->
    iter_out started tt ca cr (srv_finish W ok) (after_case fe fuel (exec ge fe fuel (st 0) rest)) ->
    iter_out started tt ca cr
      (srv_finish W (if c =? 0 then ok else (w, hs, Respond (mkpdu u (N.lor 128 fc) [err_to_exc c]))))
      (after_case fe fuel (exec ge fe fuel (st c)
         (SSeq (SIf (ECmp CEq (EVar 13) (EN v_ErrProtocolError)) (SSet (LVar 13) (EN v_ErrServerDeviceFailure)) SSkip)
            (SSeq (SIf (ECmp CNe (EVar 13) (EN 0)) SBreak SSkip) rest)))).
  Proof.
    cbv beta zeta. intros Hin Hok. rewrite fix16_step. destruct (N.eqb_spec c 0) as [->|H0].
    - gl_skip. exact Hok.
    - destruct (fix16 c Hin H0) as (Hin' & H0' & H16' & <-).
      assert (E0 : ((if c =? v_ErrProtocolError then v_ErrServerDeviceFailure else c) =? 0) = false) by lia.
      gl_break using E0. apply tail_exc; assumption.
  Qed.

  (* the same with a test of the result in between:
     if err == nil && cnd { err = ErrServerDeviceFailure; break } *)
  Lemma handler_done_if pl c hs cnd v rest ok :
    let st e := [started; tt; VN ca; VN cr; w; VB false; VN u; VN fc; pl; r9; r10; r11; r12; VN e;
                 s14; s15; s16; s17; s18; s19; s20; s21; s22] in
    In c all_error_values ->
    eval ge fe (st 0) cnd = GOk (VB v) ->
    (v = false ->
     iter_out started tt ca cr (srv_finish W ok) (after_case fe fuel (exec ge fe fuel (st 0) rest))) ->
    iter_out started tt ca cr
      (srv_finish W (if c =? 0 then (if v then (w, hs, Respond (mkpdu u (N.lor 128 fc) [4])) else ok)
                     else (w, hs, Respond (mkpdu u (N.lor 128 fc) [err_to_exc c]))))
      (after_case fe fuel (exec ge fe fuel (st c)
         (SSeq (SIf (ECmp CEq (EVar 13) (EN v_ErrProtocolError)) (SSet (LVar 13) (EN v_ErrServerDeviceFailure)) SSkip)
            (SSeq (SIf (EAndAlso (ECmp CEq (EVar 13) (EN 0)) cnd)
                     (SSeq SSkip (SSeq (SSet (LVar 13) (EN v_ErrServerDeviceFailure)) SBreak)) SSkip)
               (SSeq (SIf (ECmp CNe (EVar 13) (EN 0)) SBreak SSkip) rest))))).
  Proof.
    cbv beta zeta. intros Hin Hcnd Hok. rewrite fix16_step. destruct (N.eqb_spec c 0) as [->|H0].
    - cbn [N.eqb].
      erewrite seq_guard; [|apply eval_andalso; [reflexivity|exact Hcnd]|gl_run; reflexivity|exact I].
      cbn [N.eqb andb]. destruct v.
      + apply tail_exc with (e := v_ErrServerDeviceFailure); [vm_compute; tauto|discriminate|discriminate].
      + gl_skip. apply Hok. reflexivity.
    - destruct (fix16 c Hin H0) as (Hin' & H0' & H16' & <-).
      assert (E0 : ((if c =? v_ErrProtocolError then v_ErrServerDeviceFailure else c) =? 0) = false) by lia.
      erewrite seq_guard_no.
      2:{ cbn [eval]. gl_run. rewrite E0. reflexivity. }
      gl_break using E0. apply tail_exc; assumption.
  Qed.
End Body.

(* [K] is what the model answers when the checks pass *)
Section Checks.
  Variables (fe : fenv) (fuel : nat) (W : world_fns).
  Hypothesis HW : world_hyp fe W.
  Hypothesis HC : srv_callee_hyp fe.
  Variables (started tt : val) (ca cr : N) (w : val) (u fc : N).
  Variables (r9 r10 r11 r12 s14 s15 s16 s17 s18 s19 s20 s21 s22 : val).

  (* len(req.payload) != 4 *)
  Lemma len4_check bs e rest K :
    let st := [started; tt; VN ca; VN cr; w; VB false; VN u; VN fc; VL (map VN bs); r9; r10; r11; r12; e;
               s14; s15; s16; s17; s18; s19; s20; s21; s22] in
    (forall b0 b1 b2 b3, bs = [b0; b1; b2; b3] ->
       iter_out started tt ca cr (srv_finish W K) (after_case fe fuel (exec ge fe fuel st rest))) ->
    iter_out started tt ca cr
      (srv_finish W (if negb (List.length bs =? 4)%nat then (w, [], CloseLink) else K))
      (after_case fe fuel (exec ge fe fuel st
         (SSeq (SIf (ECmp CNe (ELen (EDeref (EVar 5) (EVar 8))) (EN 4))
                  (SSeq (SSet (LVar 13) (EN v_ErrProtocolError)) SBreak) SSkip)
            rest))).
  Proof.
    cbv beta zeta. intros HK. gl_guard. rewrite map_length. cbn [compare_n].
    destruct (Nat.eqb (List.length bs) 4) eqn:E4; cbn [negb].
    - replace (N.of_nat (List.length bs) =? 4) with true by lia.
      destruct bs as [|b0 [|b1 [|b2 [|b3 [|b4 bs]]]]]; try discriminate E4. exact (HK b0 b1 b2 b3 eq_refl).
    - replace (N.of_nat (List.length bs) =? 4) with false by lia. apply (tail_close fe fuel W HW).
  Qed.

  (* len(req.payload) < 6 *)
  Lemma len6_check bs e rest K :
    let st := [started; tt; VN ca; VN cr; w; VB false; VN u; VN fc; VL (map VN bs); r9; r10; r11; r12; e;
               s14; s15; s16; s17; s18; s19; s20; s21; s22] in
    (forall a0 a1 a2 a3 a4 a5 tl, bs = a0 :: a1 :: a2 :: a3 :: a4 :: a5 :: tl ->
       iter_out started tt ca cr (srv_finish W K) (after_case fe fuel (exec ge fe fuel st rest))) ->
    iter_out started tt ca cr
      (srv_finish W (if (List.length bs <? 6)%nat then (w, [], CloseLink) else K))
      (after_case fe fuel (exec ge fe fuel st
         (SSeq (SIf (ECmp CLt (ELen (EDeref (EVar 5) (EVar 8))) (EN 6))
                  (SSeq (SSet (LVar 13) (EN v_ErrProtocolError)) SBreak) SSkip)
            rest))).
  Proof.
    cbv beta zeta. intros HK. gl_guard. rewrite map_length. cbn [compare_n].
    destruct (List.length bs <? 6)%nat eqn:E6.
    - replace (N.of_nat (List.length bs) <? 6) with true by lia. apply (tail_close fe fuel W HW).
    - replace (N.of_nat (List.length bs) <? 6) with false by lia.
      destruct bs as [|a0 [|a1 [|a2 [|a3 [|a4 [|a5 tl]]]]]]; try discriminate E6.
      exact (HK a0 a1 a2 a3 a4 a5 tl eq_refl).
  Qed.

  (* address and quantity from the first four bytes; quantity > lim ||
     quantity == 0, a protocol error; uint32(addr) + uint32(quantity) - 1 >
     0xffff, illegal data address *)
  Lemma addr_qty_header lim b0 b1 b2 b3 tl rest K :
    b0 < 256 -> b1 < 256 -> b2 < 256 -> b3 < 256 ->
    let addr := b0 * 256 + b1 in
    let qty := b2 * 256 + b3 in
    let st a q := [started; tt; VN ca; VN cr; w; VB false; VN u; VN fc; VL (map VN (b0 :: b1 :: b2 :: b3 :: tl));
                   r9; r10; r11; r12; VN 0; a; q; s16; s17; s18; s19; s20; s21; s22] in
    (orb (lim <? qty) (qty =? 0) = false -> (65535 <? addr + qty - 1) = false ->
     iter_out started tt ca cr (srv_finish W K)
       (after_case fe fuel (exec ge fe fuel (st (VN addr) (VN qty)) rest))) ->
    iter_out started tt ca cr
      (srv_finish W (if orb (lim <? qty) (qty =? 0) then (w, [], CloseLink)
                     else if 65535 <? addr + qty - 1 then (w, [], Respond (mkpdu u (N.lor 128 fc) [2]))
                     else K))
      (after_case fe fuel (exec ge fe fuel (st s14 s15)
         (SSeq (SSet (LVar 14) (ECall "bytesToUint16"
                  (ECons (EN 1) (ECons (ESlice (EDeref (EVar 5) (EVar 8)) (EN 0) (EN 2)) ENil))))
         (SSeq (SSet (LVar 15) (ECall "bytesToUint16"
                  (ECons (EN 1) (ECons (ESlice (EDeref (EVar 5) (EVar 8)) (EN 2) (EN 4)) ENil))))
         (SSeq (SIf (EOrElse (ECmp CGt (EVar 15) (EN lim)) (ECmp CEq (EVar 15) (EN 0)))
                  (SSeq (SSet (LVar 13) (EN v_ErrProtocolError)) SBreak) SSkip)
         (SSeq (SIf (ECmp CGt (EBin OSub (U 32) (EBin OAdd (U 32) (EConv (U 32) (EVar 14)) (EConv (U 32) (EVar 15))) (EN 1))
                       (EN 65535))
                  (SSeq (SSet (LVar 13) (EN v_ErrIllegalDataAddress)) SBreak) SSkip)
            rest)))))).
  Proof.
    intros B0 B1 B2 B3 addr qty st HK. subst st. cbv beta in *.
    assert (Haddr : addr < 65536) by (unfold addr; lia). assert (Hqty : qty < 65536) by (unfold qty; lia).
    assert (Hlen : forall k, k <= 4 -> (k <=? N.of_nat (List.length (map VN (b0 :: b1 :: b2 :: b3 :: tl)))) = true)
      by (intros k Hk; cbn [map List.length]; lia).
    erewrite seq_normal by (gl_run; rewrite !Hlen by lia; gl_run; rewrite (b2u16_pair fe HC); reflexivity).
    erewrite seq_normal by (gl_run; rewrite !Hlen by lia; gl_run; rewrite (b2u16_pair fe HC); reflexivity).
    fold addr qty. clearbody addr qty. clear Hlen.
    erewrite seq_guard by first [exact I | try apply eval_orelse; gl_run; reflexivity].
    destruct (orb (lim <? qty) (qty =? 0)) eqn:Eq; [apply (tail_close fe fuel W HW)|].
    gl_guard. rewrite end_addr_cmp by lia.
    destruct (65535 <? addr + qty - 1) eqn:Ea; [|apply HK; reflexivity].
    apply (tail_exc fe fuel W HW HC) with (e := v_ErrIllegalDataAddress);
      [vm_compute; tauto|discriminate|discriminate].
  Qed.
End Checks.

Lemma srv_iter_by_case fe fuel W started tt ca cr w rest u fc pl :
  world_hyp fe W -> List.length rest = 18%nat -> snd (w_read W w) = RdOk (mkpdu u fc pl) ->
  (forall w1 r9 r10 r11 r12 s14 s15 s16 s17 s18 s19 s20 s21 s22, bytesb pl = true ->
     iter_out started tt ca cr (srv_finish W (server_process (model_handler W ca cr) w1 (mkpdu u fc pl)))
       (after_case fe fuel (exec ge fe fuel
          [started; tt; VN ca; VN cr; w1; VB false; VN u; VN fc; VL (map VN pl);
           r9; r10; r11; r12; VN 0; s14; s15; s16; s17; s18; s19; s20; s21; s22] (srv_case (class_of fc))))) ->
  srv_iter_spec fe fuel W started tt ca cr w rest (mkpdu u fc pl).
Proof.
  intros HW Hlen Hrd Hcase.
  pose proof (read_wf fe W HW w) as Hwf. rewrite Hrd in Hwf. destruct Hwf as (Hb & _).
  split18 rest Hlen.
  change (iter_out started tt ca cr (srv_request W ca cr (fst (w_read W w)) (mkpdu u fc pl))
            (exec ge fe fuel (srv_state started tt ca cr w
               [r5; r6; r7; r8; r9; r10; r11; r12; r13; s14; s15; s16; s17; s18; s19; s20; s21; s22]) srv_parts)).
  rewrite (srv_front fe fuel W HW) with (1 := Hrd). apply Hcase. exact Hb.
Qed.
