(* utf8_valid accepts exactly the encodings of sequences of Unicode scalar
   values (C15, T5). *)
From Modbus Require Import Base.Bytes Model.Utf8.

Lemma valid1 b t : b < 0x80 -> utf8_valid (b :: t) = utf8_valid t.
Proof. intros H. cbn [utf8_valid]. split_ifs. reflexivity. Qed.

Lemma valid2 b0 b1 t : byte_between 0xC2 0xDF b0 = true ->
  utf8_valid (b0 :: b1 :: t) = andb (is_cont b1) (utf8_valid t).
Proof.
  intros H. cbn [utf8_valid]. rewrite H. unfold byte_between in H.
  destruct (b0 <? 0x80) eqn:E; [lia|reflexivity].
Qed.

Lemma valid3 b0 b1 b2 t : byte_between 0xE0 0xEF b0 = true ->
  utf8_valid (b0 :: b1 :: b2 :: t) =
  andb (byte_between (second_lo b0) (second_hi b0) b1) (andb (is_cont b2) (utf8_valid t)).
Proof.
  intros H. cbn [utf8_valid]. rewrite H. unfold byte_between in H.
  destruct (b0 <? 0x80) eqn:E; [lia|].
  destruct (byte_between 0xC2 0xDF b0) eqn:E2; [unfold byte_between in E2; lia|reflexivity].
Qed.

Lemma valid4 b0 b1 b2 b3 t : byte_between 0xF0 0xF4 b0 = true ->
  utf8_valid (b0 :: b1 :: b2 :: b3 :: t) =
  andb (byte_between (second_lo b0) (second_hi b0) b1)
       (andb (is_cont b2) (andb (is_cont b3) (utf8_valid t))).
Proof.
  intros H. cbn [utf8_valid]. rewrite H. unfold byte_between in H.
  destruct (b0 <? 0x80) eqn:E; [lia|].
  destruct (byte_between 0xC2 0xDF b0) eqn:E2; [unfold byte_between in E2; lia|].
  destruct (byte_between 0xE0 0xEF b0) eqn:E3; [unfold byte_between in E3; lia|reflexivity].
Qed.

Lemma cont_range b : is_cont b = true <-> 0x80 <= b <= 0xBF.
Proof. unfold is_cont, byte_between. lia. Qed.

Lemma second_lo_le b0 b1 : second_lo b0 <= b1 <->
  0x80 <= b1 /\ (b0 = 0xE0 -> 0xA0 <= b1) /\ (b0 = 0xF0 -> 0x90 <= b1).
Proof.
  unfold second_lo.
  destruct (N.eqb_spec b0 0xE0); [|destruct (N.eqb_spec b0 0xF0)]; lia.
Qed.

Lemma second_hi_ge b0 b1 : b1 <= second_hi b0 <->
  b1 <= 0xBF /\ (b0 = 0xED -> b1 <= 0x9F) /\ (b0 = 0xF4 -> b1 <= 0x8F).
Proof.
  unfold second_hi.
  destruct (N.eqb_spec b0 0xED); [|destruct (N.eqb_spec b0 0xF4)]; lia.
Qed.

(* the second byte after a 3 or 4 byte lead: a continuation byte, narrowed
   after E0, F0 (no overlong form), ED (no surrogate) and F4 (at most 10FFFF) *)
Lemma second_range b0 b1 : byte_between (second_lo b0) (second_hi b0) b1 = true <->
  0x80 <= b1 <= 0xBF /\ (b0 = 0xE0 -> 0xA0 <= b1) /\ (b0 = 0xF0 -> 0x90 <= b1) /\
  (b0 = 0xED -> b1 <= 0x9F) /\ (b0 = 0xF4 -> b1 <= 0x8F).
Proof.
  unfold byte_between.
  rewrite andb_true_iff, !N.leb_le, second_lo_le, second_hi_ge. tauto.
Qed.

(* The encoder on a code point given by its base-64 digits.  The division
   arithmetic of this file is here, in contexts that hold nothing else. *)
Lemma encode1_2 d0 d1 : 2 <= d0 < 32 -> d1 < 64 ->
  utf8_encode1 (d0 * 64 + d1) = [0xC0 + d0; 0x80 + d1].
Proof.
  intros H0 H1. unfold utf8_encode1.
  replace (_ <? 0x80) with false by lia. replace (_ <? 0x800) with true by lia.
  repeat f_equal; lia.
Qed.

Lemma encode1_3 d0 d1 d2 : d0 < 16 -> d1 < 64 -> d2 < 64 -> 32 <= d0 * 64 + d1 ->
  utf8_encode1 (d0 * 4096 + d1 * 64 + d2) = [0xE0 + d0; 0x80 + d1; 0x80 + d2].
Proof.
  intros H0 H1 H2 Hm. unfold utf8_encode1.
  replace (_ <? 0x80) with false by lia. replace (_ <? 0x800) with false by lia.
  replace (_ <? 0x10000) with true by lia.
  repeat f_equal; lia.
Qed.

Lemma encode1_4 d0 d1 d2 d3 : d1 < 64 -> d2 < 64 -> d3 < 64 -> 16 <= d0 * 64 + d1 ->
  utf8_encode1 (d0 * 262144 + d1 * 4096 + d2 * 64 + d3) =
  [0xF0 + d0; 0x80 + d1; 0x80 + d2; 0x80 + d3].
Proof.
  intros H1 H2 H3 Hm. unfold utf8_encode1.
  replace (_ <? 0x80) with false by lia. replace (_ <? 0x800) with false by lia.
  replace (_ <? 0x10000) with false by lia.
  repeat f_equal; lia.
Qed.

Lemma valid_encode1 c t : is_scalar c = true ->
  utf8_valid (utf8_encode1 c ++ t) = utf8_valid t.
Proof.
  intros Hc. unfold is_scalar in Hc. unfold utf8_encode1.
  assert (Hk : forall x, is_cont (0x80 + x mod 64) = true) by (intros x; apply cont_range; lia).
  destruct (c <? 0x80) eqn:E1; [cbn [app]; apply valid1; lia|].
  destruct (c <? 0x800) eqn:E2; [|destruct (c <? 0x10000) eqn:E3]; cbn [app].
  - rewrite valid2, Hk by (unfold byte_between; lia). reflexivity.
  - rewrite valid3, Hk by (unfold byte_between; lia).
    rewrite (proj2 (second_range _ _)) by lia. reflexivity.
  - rewrite valid4, !Hk by (unfold byte_between; lia).
    rewrite (proj2 (second_range _ _)) by lia. reflexivity.
Qed.

Lemma encode_valid cps : forallb is_scalar cps = true -> utf8_valid (utf8_encode cps) = true.
Proof.
  induction cps as [|c cps IH]; intros H; [reflexivity|].
  cbn [forallb] in H. apply andb_true_iff in H as [Hc H].
  unfold utf8_encode in *. cbn [flat_map]. rewrite valid_encode1 by exact Hc. apply IH, H.
Qed.

Lemma encode1_bytes c : is_scalar c = true -> bytesb (utf8_encode1 c) = true.
Proof.
  intros Hc. unfold is_scalar in Hc. unfold utf8_encode1, bytesb, is_byte.
  split_ifs; cbn [forallb]; lia.
Qed.

Lemma encode_bytes cps : forallb is_scalar cps = true -> bytesb (utf8_encode cps) = true.
Proof.
  induction cps as [|c cps IH]; intros H; [reflexivity|].
  cbn [forallb] in H. apply andb_true_iff in H as [Hc H].
  unfold utf8_encode in *. cbn [flat_map]. rewrite bytesb_app, encode1_bytes, IH by assumption.
  reflexivity.
Qed.

Lemma encode1_nonempty c : utf8_encode1 c <> [].
Proof. unfold utf8_encode1. split_ifs; discriminate. Qed.

Lemma from_lead a b : a <= b -> exists d, b = a + d.
Proof. exists (b - a). lia. Qed.

(* an accepted string starts with the encoding of the scalar whose base-64
   digits are the payload bits of its first sequence *)
Lemma utf8_valid_inv l : utf8_valid l = true ->
  l = [] \/ exists c t, is_scalar c = true /\ l = utf8_encode1 c ++ t /\ utf8_valid t = true.
Proof.
  intros H. destruct l as [|b0 t]; [left; reflexivity|right].
  cbn [utf8_valid] in H.
  destruct (b0 <? 0x80) eqn:E1.
  { exists b0, t. unfold is_scalar, utf8_encode1. rewrite E1. repeat split; [lia|exact H]. }
  destruct (byte_between 0xC2 0xDF b0) eqn:E2.
  { destruct t as [|b1 t]; [discriminate|].
    apply andb_true_iff in H as [H1 H]. apply cont_range in H1. unfold byte_between in E2.
    destruct (from_lead 0xC0 b0) as [d0 ->]; [lia|]. destruct (from_lead 0x80 b1) as [d1 ->]; [lia|].
    exists (d0 * 64 + d1), t. rewrite encode1_2 by lia.
    repeat split; [unfold is_scalar; lia|exact H]. }
  destruct (byte_between 0xE0 0xEF b0) eqn:E3.
  { destruct t as [|b1 [|b2 t]]; try discriminate.
    apply andb_true_iff in H as [H1 H]. apply andb_true_iff in H as [H2 H].
    apply second_range in H1. apply cont_range in H2. unfold byte_between in E3.
    destruct (from_lead 0xE0 b0) as [d0 ->]; [lia|]. destruct (from_lead 0x80 b1) as [d1 ->]; [lia|].
    destruct (from_lead 0x80 b2) as [d2 ->]; [lia|].
    exists (d0 * 4096 + d1 * 64 + d2), t. rewrite encode1_3 by lia.
    repeat split; [unfold is_scalar; lia|exact H]. }
  destruct (byte_between 0xF0 0xF4 b0) eqn:E4; [|discriminate].
  destruct t as [|b1 [|b2 [|b3 t]]]; try discriminate.
  apply andb_true_iff in H as [H1 H]. apply andb_true_iff in H as [H2 H].
  apply andb_true_iff in H as [H3 H].
  apply second_range in H1. apply cont_range in H2, H3. unfold byte_between in E4.
  destruct (from_lead 0xF0 b0) as [d0 ->]; [lia|]. destruct (from_lead 0x80 b1) as [d1 ->]; [lia|].
  destruct (from_lead 0x80 b2) as [d2 ->]; [lia|]. destruct (from_lead 0x80 b3) as [d3 ->]; [lia|].
  exists (d0 * 262144 + d1 * 4096 + d2 * 64 + d3), t.
  rewrite encode1_4 by lia.
  repeat split; [unfold is_scalar; lia|exact H].
Qed.

Lemma valid_decodes_n n : forall l, (length l <= n)%nat -> utf8_valid l = true ->
  exists cps, forallb is_scalar cps = true /\ l = utf8_encode cps.
Proof.
  induction n as [|n IH]; intros l Hl H.
  - destruct l; [|cbn in Hl; lia]. exists []. split; reflexivity.
  - destruct (utf8_valid_inv l H) as [->|(c & t & Hc & -> & Ht)].
    + exists []. split; reflexivity.
    + destruct (IH t) as (cps & Hs & ->); [|exact Ht|].
      * rewrite app_length in Hl. pose proof (encode1_nonempty c) as Hne.
        destruct (utf8_encode1 c); [congruence|cbn [length] in Hl; lia].
      * exists (c :: cps). cbn [forallb]. rewrite Hc, Hs. split; reflexivity.
Qed.

Lemma utf8_valid_iff bs :
  utf8_valid bs = true <-> exists cps, forallb is_scalar cps = true /\ bs = utf8_encode cps.
Proof.
  split.
  - apply (valid_decodes_n (length bs)). lia.
  - intros (cps & Hs & ->). apply encode_valid, Hs.
Qed.

Lemma valid_bytes bs : utf8_valid bs = true -> bytesb bs = true.
Proof. intros H. apply utf8_valid_iff in H as (cps & Hs & ->). apply encode_bytes, Hs. Qed.

(* The encoding is uniquely decodable because it can be decoded: the lead byte
   gives the length of the sequence, the payload bits are the base-64 digits. *)
Definition decode1 (l : list N) : option (N * list N) :=
  match l with
  | [] => None
  | b0 :: t =>
    if b0 <? 0x80 then Some (b0, t)
    else if b0 <? 0xE0 then
      match t with
      | b1 :: t' => Some ((b0 - 0xC0) * 64 + (b1 - 0x80), t')
      | _ => None
      end
    else if b0 <? 0xF0 then
      match t with
      | b1 :: b2 :: t' => Some ((b0 - 0xE0) * 4096 + (b1 - 0x80) * 64 + (b2 - 0x80), t')
      | _ => None
      end
    else
      match t with
      | b1 :: b2 :: b3 :: t' =>
        Some ((b0 - 0xF0) * 262144 + (b1 - 0x80) * 4096 + (b2 - 0x80) * 64 + (b3 - 0x80), t')
      | _ => None
      end
  end.

(* taken off before lia sees the goal: a truncated subtraction is a case split
   for it, and the four-byte case has four *)
Lemma lead_off a x : a + x - a = x.
Proof. lia. Qed.

Lemma decode1_encode1 c t : decode1 (utf8_encode1 c ++ t) = Some (c, t).
Proof.
  unfold utf8_encode1.
  destruct (c <? 0x80) eqn:E1; [cbn [app decode1]; rewrite E1; reflexivity|].
  destruct (c <? 0x800) eqn:E2; [|destruct (c <? 0x10000) eqn:E3]; cbn [app decode1].
  - replace (_ <? 0x80) with false by lia. replace (_ <? 0xE0) with true by lia.
    rewrite !lead_off. do 2 f_equal. lia.
  - replace (_ <? 0x80) with false by lia. replace (_ <? 0xE0) with false by lia.
    replace (_ <? 0xF0) with true by lia. rewrite !lead_off. do 2 f_equal. lia.
  - replace (_ <? 0x80) with false by lia. replace (_ <? 0xE0) with false by lia.
    replace (_ <? 0xF0) with false by lia. rewrite !lead_off. do 2 f_equal. lia.
Qed.

Lemma utf8_encode_injective : forall cps1 cps2, utf8_encode cps1 = utf8_encode cps2 -> cps1 = cps2.
Proof.
  unfold utf8_encode.
  induction cps1 as [|c1 l1 IH]; intros [|c2 l2] E; cbn [flat_map] in E;
    apply (f_equal decode1) in E; rewrite ?decode1_encode1 in E; try discriminate E.
  - reflexivity.
  - inversion E. f_equal. apply IH. assumption.
Qed.
