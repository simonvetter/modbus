(* client.go inside the linked program [src_pure]: the translated methods of *ModbusClient that talk to the transport, called through
   [call_with src_pure base], the callee hypotheses of Proofs/SrcClient{,Read,Write,Typed}P.v discharged by
   the lemmas about the linked callees. The transport is an oracle [T] of the base environment
   ([transport_hyp], [xchg]); with the model's transport (Model/Client.v) as that oracle ([model_transport],
   [oracle_of]) a call returns what the model's client_call returns ([call_out_client_call]). *)
From Coq Require Import List NArith String Lia Bool.
Import ListNotations.
From Modbus Require Import Base.Bytes Model.GoLite Gen.SrcPure Model.Crc Model.Encoding.
From Modbus Require Import Model.Wire Model.Client.
From Modbus Require Import Proofs.FramingP.
From Modbus Require Import Proofs.GoLiteP Proofs.GoLiteLinkP Proofs.SrcCrcP Proofs.SrcLinkP Proofs.SrcMiscP Proofs.SrcClientP.
From Modbus Require Import Proofs.SrcClientReadP Proofs.SrcClientWriteP Proofs.SrcClientTypedP.
Open Scope string_scope.
Open Scope N_scope.

(* [T] is what the external function transport.ExecuteRequest of the base
   environment answers; [xchg T] what executeRequest makes of it *)
Definition transport_hyp (base : fenv) (T : pdu -> treply) : Prop :=
  forall req, base "transport.ExecuteRequest" [VN (p_unit req); VN (p_fc req); vbytes (p_payload req)] = GOk (enc_reply (T req))
              /\ treply_wf (T req).
Definition xchg (T : pdu -> treply) : pdu -> treply := fun req => exec_spec req (T req).

Lemma xchg_wf base T : transport_hyp base T -> forall req, treply_wf (xchg T req).
Proof. intros H req. apply exec_spec_wf. apply (H req). Qed.

Lemma src_executeRequest_ok base fuel T cfg tt req : transport_hyp base T ->
  call_with src_pure base fuel "ModbusClient.executeRequest"
    (mc_fields cfg tt ++ [VN (p_unit req); VN (p_fc req); vbytes (p_payload req)])%list
  = GOk (mc_fields cfg tt ++ enc_reply (xchg T req))%list.
Proof.
  intros HT. destruct (HT req) as [Ho Hwf].
  link_step "ModbusClient.executeRequest" src_fn_ModbusClient_executeRequest.
  apply run_executeRequest; [|exact Hwf].
  rewrite (env_base src_pure base "ModbusClient.executeRequest" "transport.ExecuteRequest" eq_refl).
  exact Ho.
Qed.

(* [c], with tree [g], is linked before [name]: inside [name] a call of [c] is
   the linked [c]. Both parts are closed computations on the program. *)
Definition before (name c : string) (g : fn) : Prop :=
  lookup_fn c (prefix_before name (p_fns src_pure)) = Some g /\
  absent c (suffix_after c (p_fns src_pure)) = true.

Lemma env_eq base fuel name c g : before name c g ->
  forall args, env_in_with src_pure base name fuel c args = call_with src_pure base fuel c args.
Proof. intros [H1 H2]. exact (env_call_with2 src_pure base name c g H1 H2 fuel). Qed.

Section Env.
  Variables (base : fenv) (fuel : nat) (name : string).
  Let E := env_in_with src_pure base name fuel.

  Lemma env_exec T : transport_hyp base T ->
    before name "ModbusClient.executeRequest" src_fn_ModbusClient_executeRequest -> exec_hyp E (xchg T).
  Proof.
    intros HT B cfg tt req. split; [|exact (xchg_wf _ _ HT req)].
    unfold E. rewrite (env_eq _ _ _ _ _ B). apply src_executeRequest_ok. exact HT.
  Qed.

  Lemma env_u16tb : before name "uint16ToBytes" src_fn_uint16ToBytes -> u16tb_hyp E.
  Proof. intros B e v. unfold E. rewrite (env_eq _ _ _ _ _ B). apply src_uint16ToBytes_ok. Qed.

  Lemma env_b2u16 : before name "bytesToUint16" src_fn_bytesToUint16 -> b2u16_hyp E.
  Proof. intros B e l. unfold E. rewrite (env_eq _ _ _ _ _ B). apply src_bytesToUint16_ok. Qed.

  Lemma env_excmap : before name "mapExceptionCodeToError" src_fn_mapExceptionCodeToError -> excmap_hyp E.
  Proof.
    intros B c Hc. unfold E. rewrite (env_eq _ _ _ _ _ B). apply src_mapExceptionCodeToError_ok. exact Hc.
  Qed.
End Env.

Lemma src_encoding_ok base fuel cfg tt :
  call_with src_pure base fuel "ModbusClient.encoding" (mc_fields cfg tt) =
  GOk (mc_fields cfg tt ++ [VN (endian_sel (c_endian cfg)); VN (word_sel (c_word cfg))])%list.
Proof. link_step "ModbusClient.encoding" src_fn_ModbusClient_encoding. apply run_encoding. Qed.

(* The linked decodeBools and encodeBools loop once per coil: at most 2000 are
   read, 1968 written, hence [2000 < fuel] here and in src_WriteCoils_ok. *)
Lemma src_readBools_ok base fuel T cfg tt a q di :
  transport_hyp base T -> a < 65536 -> q < 65536 -> (2000 < fuel)%nat ->
  call_with src_pure base fuel "ModbusClient.readBools" (mc_fields cfg tt ++ [VN a; VN q; VB di])%list =
  out_vals (mc_fields cfg tt) (call_out cfg (OpReadBools di a q) (xchg T)).
Proof.
  intros HT Ha Hq Hfuel.
  link_step "ModbusClient.readBools" src_fn_ModbusClient_readBools.
  apply run_readBools_at; [| | | |exact Ha|exact Hq].
  - apply env_exec; [exact HT|split; reflexivity].
  - apply env_u16tb. split; reflexivity.
  - apply env_excmap. split; reflexivity.
  - intros Hq2 bs Hbs. callee "ModbusClient.readBools" "decodeBools" src_fn_decodeBools.
    apply src_decodeBools_ok; [exact Hq|lia|exact Hbs].
Qed.

Lemma src_readRegisters_ok base fuel T cfg tt a q rtn rt :
  transport_hyp base T -> a < 65536 -> q < 65536 -> regtype_sel rt rtn ->
  call_with src_pure base fuel "ModbusClient.readRegisters" (mc_fields cfg tt ++ [VN a; VN q; VN rtn])%list =
  out_vals (mc_fields cfg tt) (rr_out cfg a q rt (xchg T)).
Proof.
  intros HT Ha Hq Hrt.
  link_step "ModbusClient.readRegisters" src_fn_ModbusClient_readRegisters.
  apply run_readRegisters; [| | |exact Ha|exact Hq|exact Hrt].
  - apply env_exec; [exact HT|split; reflexivity].
  - apply env_u16tb. split; reflexivity.
  - apply env_excmap. split; reflexivity.
Qed.

(* the bound on the length is not used: run_writeRegisters holds without it *)
Lemma src_writeRegisters_ok base fuel T cfg tt a bytes :
  transport_hyp base T -> a < 65536 -> bytesb bytes = true -> N.of_nat (List.length bytes) < 2 ^ 62 ->
  call_with src_pure base fuel "ModbusClient.writeRegisters" (mc_fields cfg tt ++ [VN a; vbytes bytes])%list =
  out_err (mc_fields cfg tt) (wr_out cfg a bytes (xchg T)).
Proof.
  intros HT Ha Hb _.
  link_step "ModbusClient.writeRegisters" src_fn_ModbusClient_writeRegisters.
  apply run_writeRegisters; [| | | |exact Ha|exact Hb].
  - apply env_exec; [exact HT|split; reflexivity].
  - apply env_u16tb. split; reflexivity.
  - apply env_b2u16. split; reflexivity.
  - apply env_excmap. split; reflexivity.
Qed.

Section Env2.
  Variables (base : fenv) (fuel : nat) (name : string).
  Let E := env_in_with src_pure base name fuel.

  Lemma env_encoding : before name "ModbusClient.encoding" src_fn_ModbusClient_encoding -> encoding_hyp E.
  Proof. intros B cfg tt. unfold E. rewrite (env_eq _ _ _ _ _ B). apply src_encoding_ok. Qed.

  Lemma env_rbools T : transport_hyp base T -> (2000 < fuel)%nat ->
    before name "ModbusClient.readBools" src_fn_ModbusClient_readBools -> rbools_hyp E (xchg T).
  Proof.
    intros HT Hf B cfg tt a q di Ha Hq. unfold E. rewrite (env_eq _ _ _ _ _ B).
    apply src_readBools_ok; assumption.
  Qed.

  Lemma env_rregs T : transport_hyp base T ->
    before name "ModbusClient.readRegisters" src_fn_ModbusClient_readRegisters -> rregs_hyp E (xchg T).
  Proof.
    intros HT B cfg tt a q rtn rt Ha Hq Hrt. unfold E. rewrite (env_eq _ _ _ _ _ B).
    apply src_readRegisters_ok; assumption.
  Qed.

  Lemma env_wregs T : transport_hyp base T ->
    before name "ModbusClient.writeRegisters" src_fn_ModbusClient_writeRegisters -> wregs_hyp E (xchg T).
  Proof.
    intros HT B cfg tt a b Ha Hb Hl. unfold E. rewrite (env_eq _ _ _ _ _ B).
    apply src_writeRegisters_ok; assumption.
  Qed.

  Lemma env_regcount : before name "registerCount" src_fn_registerCount -> regcount_hyp E.
  Proof.
    intros B q w Hq Hw. unfold E. rewrite (env_eq _ _ _ _ _ B). apply src_registerCount_ok; assumption.
  Qed.

  Lemma env_dec16 : before name "bytesToUint16s" src_fn_bytesToUint16s -> dec16_hyp E fuel.
  Proof.
    intros B e l H1 H2. unfold E. rewrite (env_eq _ _ _ _ _ B). apply src_bytesToUint16s_ok; assumption.
  Qed.

  (* [c], with tree [g], is a parameter (a decoder with a word order, a slice
     reader): its specification in the linked program is a hypothesis *)
  Lemma env_decw c g decf : before name c g ->
    decw_hyp (call_with src_pure base fuel) fuel c decf -> decw_hyp E fuel c decf.
  Proof. intros B H e w l H1 H2. unfold E. rewrite (env_eq _ _ _ _ _ B). apply H; assumption. Qed.

  Lemma env_typed c g w X : before name c g ->
    typed_hyp (call_with src_pure base fuel) c w X -> typed_hyp E c w X.
  Proof.
    intros B H cfg tt a q rtn rt Ha Hq Hrt. unfold E. rewrite (env_eq _ _ _ _ _ B). apply H; assumption.
  Qed.
End Env2.

(* [name] is ReadCoils ([di] false) or ReadDiscreteInputs ([di] true) *)
Lemma src_bools_reader_ok name di :
  lookup_fn name (p_fns src_pure) = Some (bools_reader di) ->
  absent name (suffix_after name (p_fns src_pure)) = true ->
  before name "ModbusClient.readBools" src_fn_ModbusClient_readBools ->
  forall base fuel T cfg tt a q,
  transport_hyp base T -> a < 65536 -> q < 65536 -> (2000 < fuel)%nat ->
  call_with src_pure base fuel name (mc_fields cfg tt ++ [VN a; VN q])%list =
  out_vals (mc_fields cfg tt) (call_out cfg (OpReadBools di a q) (xchg T)).
Proof.
  intros Hl Hab B base fuel T cfg tt a q HT Ha Hq Hfuel.
  rewrite (call_env_with src_pure base name _ Hl Hab).
  apply run_bools_reader; [|exact Ha|exact Hq]. apply env_rbools; assumption.
Qed.

(* [name] is ReadCoil or ReadDiscreteInput *)
Lemma src_bool_reader_ok name di :
  lookup_fn name (p_fns src_pure) = Some (bool_reader di) ->
  absent name (suffix_after name (p_fns src_pure)) = true ->
  before name "ModbusClient.readBools" src_fn_ModbusClient_readBools ->
  forall base fuel T cfg tt a,
  transport_hyp base T -> a < 65536 -> (2000 < fuel)%nat ->
  call_with src_pure base fuel name (mc_fields cfg tt ++ [VN a])%list =
  out_one (mc_fields cfg tt) (VB false) (call_out cfg (OpReadBools di a 1) (xchg T)).
Proof.
  intros Hl Hab B base fuel T cfg tt a HT Ha Hfuel.
  rewrite (call_env_with src_pure base name _ Hl Hab).
  apply run_bool_reader; [|exact (xchg_wf _ _ HT)|exact Ha]. apply env_rbools; assumption.
Qed.

Lemma src_ReadRegisters_ok base fuel T cfg tt a q rtn rt :
  transport_hyp base T -> a < 65536 -> q < 65536 -> regtype_sel rt rtn -> (300 < fuel)%nat ->
  call_with src_pure base fuel "ModbusClient.ReadRegisters" (mc_fields cfg tt ++ [VN a; VN q; VN rtn])%list =
  out_vals (mc_fields cfg tt) (call_out cfg (OpReadRegs 1 a q rt) (xchg T)).
Proof.
  intros HT Ha Hq Hrt Hfuel.
  link_step "ModbusClient.ReadRegisters" src_fn_ModbusClient_ReadRegisters.
  apply run_ReadRegisters; [| | |exact Ha|exact Hq|exact Hrt|exact Hfuel].
  - apply env_rregs; [exact HT|split; reflexivity].
  - apply env_encoding. split; reflexivity.
  - apply env_dec16. split; reflexivity.
Qed.

(* [name] is ReadUint32s, ReadFloat32s ([k] 2), ReadUint64s or ReadFloat64s ([k] 4);
   [dec], with tree [g] and model [decf], its decoder *)
Lemma src_typed_reader_ok name k dec g decf :
  lookup_fn name (p_fns src_pure) = Some (typed_reader k dec) ->
  absent name (suffix_after name (p_fns src_pure)) = true ->
  before name "ModbusClient.readRegisters" src_fn_ModbusClient_readRegisters ->
  before name "ModbusClient.encoding" src_fn_ModbusClient_encoding ->
  before name "registerCount" src_fn_registerCount ->
  before name dec g ->
  (forall base fuel, decw_hyp (call_with src_pure base fuel) fuel dec decf) ->
  (k =? 1) = false -> k < 65536 ->
  (forall cfg data, decf (c_endian cfg) (c_word cfg) data = dec_values cfg k data) ->
  forall base fuel T cfg tt a q rtn rt,
  transport_hyp base T -> a < 65536 -> q < 65536 -> regtype_sel rt rtn -> (300 < fuel)%nat ->
  call_with src_pure base fuel name (mc_fields cfg tt ++ [VN a; VN q; VN rtn])%list =
  out_vals (mc_fields cfg tt) (call_out cfg (OpReadRegs k a q rt) (xchg T)).
Proof.
  intros Hl Hab B1 B2 B3 B4 Hdec Hk1 Hk Hdv base fuel T cfg tt a q rtn rt HT Ha Hq Hrt Hfuel.
  rewrite (call_env_with src_pure base name _ Hl Hab).
  apply (run_typed_reader _ fuel cfg tt (xchg T) a q rtn rt k dec decf); try assumption.
  - apply env_rregs; assumption.
  - apply env_encoding; assumption.
  - apply env_regcount; assumption.
  - apply (env_decw _ _ _ _ g); [assumption|apply Hdec].
  - apply Hdv.
Qed.

(* [name] is ReadRegister, ReadUint32, ...; [callee] (tree [g], [w] registers
   per value) its slice reader *)
Lemma src_single_reader_ok name callee g w :
  lookup_fn name (p_fns src_pure) = Some (single_reader callee) ->
  absent name (suffix_after name (p_fns src_pure)) = true ->
  before name callee g ->
  (forall base fuel T, transport_hyp base T -> (300 < fuel)%nat ->
     typed_hyp (call_with src_pure base fuel) callee w (xchg T)) ->
  forall base fuel T cfg tt a rtn rt,
  transport_hyp base T -> a < 65536 -> regtype_sel rt rtn -> (300 < fuel)%nat ->
  call_with src_pure base fuel name (mc_fields cfg tt ++ [VN a; VN rtn])%list =
  out_one (mc_fields cfg tt) (VN 0) (call_out cfg (OpReadRegs w a 1 rt) (xchg T)).
Proof.
  intros Hl Hab B Hc base fuel T cfg tt a rtn rt HT Ha Hrt Hfuel.
  rewrite (call_env_with src_pure base name _ Hl Hab).
  apply run_single_typed; [|exact (xchg_wf _ _ HT)|exact Ha|exact Hrt].
  apply (env_typed _ _ _ _ g); [exact B|apply Hc; assumption].
Qed.

Lemma src_WriteCoil_ok base fuel T cfg tt a v : transport_hyp base T -> a < 65536 ->
  call_with src_pure base fuel "ModbusClient.WriteCoil" (mc_fields cfg tt ++ [VN a; VB v])%list =
  out_err (mc_fields cfg tt) (call_out cfg (OpWriteCoil a v) (xchg T)).
Proof.
  intros HT Ha.
  link_step "ModbusClient.WriteCoil" src_fn_ModbusClient_WriteCoil.
  apply run_WriteCoil; [| | | |exact Ha].
  - apply env_exec; [exact HT|split; reflexivity].
  - apply env_u16tb. split; reflexivity.
  - apply env_b2u16. split; reflexivity.
  - apply env_excmap. split; reflexivity.
Qed.

Lemma src_WriteCoils_ok base fuel T cfg tt a vs :
  transport_hyp base T -> a < 65536 -> (2000 < fuel)%nat ->
  call_with src_pure base fuel "ModbusClient.WriteCoils" (mc_fields cfg tt ++ [VN a; vbools vs])%list =
  out_err (mc_fields cfg tt) (call_out cfg (OpWriteCoils a vs) (xchg T)).
Proof.
  intros HT Ha Hfuel.
  link_step "ModbusClient.WriteCoils" src_fn_ModbusClient_WriteCoils.
  apply run_WriteCoils_at; [| | | | |exact Ha].
  - apply env_exec; [exact HT|split; reflexivity].
  - apply env_u16tb. split; reflexivity.
  - apply env_b2u16. split; reflexivity.
  - apply env_excmap. split; reflexivity.
  - intros Hlen. callee "ModbusClient.WriteCoils" "encodeBools" src_fn_encodeBools.
    apply src_encodeBools_ok; [|lia].
    apply N.le_lt_trans with 1968; [lia|reflexivity].
Qed.

Lemma src_WriteRegister_ok base fuel T cfg tt a v : transport_hyp base T -> a < 65536 -> v < 65536 ->
  call_with src_pure base fuel "ModbusClient.WriteRegister" (mc_fields cfg tt ++ [VN a; VN v])%list =
  out_err (mc_fields cfg tt) (call_out cfg (OpWriteReg a v) (xchg T)).
Proof.
  intros HT Ha Hv.
  link_step "ModbusClient.WriteRegister" src_fn_ModbusClient_WriteRegister.
  apply run_WriteRegister; [| | | |exact Ha|exact Hv].
  - apply env_exec; [exact HT|split; reflexivity].
  - apply env_u16tb. split; reflexivity.
  - apply env_b2u16. split; reflexivity.
  - apply env_excmap. split; reflexivity.
Qed.

Lemma src_WriteRegisters_ok base fuel T cfg tt a vs :
  transport_hyp base T -> a < 65536 -> N.of_nat (List.length vs) < 2 ^ 59 ->
  call_with src_pure base fuel "ModbusClient.WriteRegisters" (mc_fields cfg tt ++ [VN a; vbytes vs])%list =
  out_err (mc_fields cfg tt) (call_out cfg (OpWriteRegs 1 a vs) (xchg T)).
Proof.
  intros HT Ha Hlen.
  link_step "ModbusClient.WriteRegisters" src_fn_ModbusClient_WriteRegisters.
  apply run_WriteRegisters; [| | |exact Ha|exact Hlen].
  - apply env_wregs; [exact HT|split; reflexivity].
  - apply env_encoding. split; reflexivity.
  - apply env_u16tb. split; reflexivity.
Qed.

(* [name] is WriteUint32s, WriteFloat32s ([w] 2), WriteUint64s or WriteFloat64s ([w] 4);
   [enc], with tree [g], its encoder *)
Lemma src_wr3s_ok name enc g w :
  lookup_fn name (p_fns src_pure) = Some (wr3s_fn enc) ->
  absent name (suffix_after name (p_fns src_pure)) = true ->
  before name "ModbusClient.writeRegisters" src_fn_ModbusClient_writeRegisters ->
  before name "ModbusClient.encoding" src_fn_ModbusClient_encoding ->
  before name enc g ->
  (forall base fuel cfg v,
     call_with src_pure base fuel enc [VN (endian_sel (c_endian cfg)); VN (word_sel (c_word cfg)); VN v] =
     GOk [vbytes (enc_value cfg w v)]) ->
  forall base fuel T cfg tt a vs,
  transport_hyp base T -> a < 65536 -> N.of_nat (List.length vs) < 2 ^ 59 ->
  call_with src_pure base fuel name (mc_fields cfg tt ++ [VN a; vbytes vs])%list =
  out_err (mc_fields cfg tt) (call_out cfg (OpWriteRegs w a vs) (xchg T)).
Proof.
  intros Hl Hab B1 B2 B3 Henc base fuel T cfg tt a vs HT Ha Hlen.
  rewrite (call_env_with src_pure base name _ Hl Hab).
  apply run_wr3s; [| | |exact Ha|exact Hlen].
  - apply env_wregs; assumption.
  - apply env_encoding; assumption.
  - intros v. rewrite (env_eq _ _ _ _ _ B3). apply Henc.
Qed.

(* the same for one value: WriteUint32, WriteFloat32, WriteUint64, WriteFloat64 *)
Lemma src_wr3_ok name enc g w :
  lookup_fn name (p_fns src_pure) = Some (wr3_fn enc) ->
  absent name (suffix_after name (p_fns src_pure)) = true ->
  before name "ModbusClient.writeRegisters" src_fn_ModbusClient_writeRegisters ->
  before name "ModbusClient.encoding" src_fn_ModbusClient_encoding ->
  before name enc g ->
  (forall base fuel cfg v,
     call_with src_pure base fuel enc [VN (endian_sel (c_endian cfg)); VN (word_sel (c_word cfg)); VN v] =
     GOk [vbytes (enc_value cfg w v)]) ->
  forall base fuel T cfg tt a v,
  transport_hyp base T -> a < 65536 ->
  call_with src_pure base fuel name (mc_fields cfg tt ++ [VN a; VN v])%list =
  out_err (mc_fields cfg tt) (call_out cfg (OpWriteRegs w a [v]) (xchg T)).
Proof.
  intros Hl Hab B1 B2 B3 Henc base fuel T cfg tt a v HT Ha.
  rewrite (call_env_with src_pure base name _ Hl Hab).
  apply run_wr3; [| | |exact Ha].
  - apply env_wregs; assumption.
  - apply env_encoding; assumption.
  - intros v'. rewrite (env_eq _ _ _ _ _ B3). apply Henc.
Qed.

(* a result of the model's transport as a reply of the Go transport *)
Definition treply_of (r : result pdu) : treply :=
  match r with
  | MOk res => TOk res
  | Err ETimeout => TErr 2 true 0 0 []          (* an i/o timeout, turned into ErrRequestTimedOut by executeRequest *)
  | Err e => TErr (err_code e) true 0 0 []
  | _ => TErr other_error true 0 0 []
  end.

Lemma err_code_ne2 e : err_code e <> 2.
Proof.
  destruct e as [| | | | | |c|c| |]; try (vm_compute; discriminate).
  unfold err_code, exc_name.
  repeat match goal with |- context [if ?b then _ else _] => destruct b end; vm_compute; discriminate.
Qed.

Lemma exec_spec_treply_of req r :
  exec_spec req (treply_of r) =
  match r with
  | MOk res => exec_spec req (TOk res)
  | Err x => TErr (err_code x) true 0 0 []
  | _ => TErr other_error true 0 0 []
  end.
Proof.
  destruct r as [res|x| |]; cbn [treply_of exec_spec]; try reflexivity.
  destruct x; cbn [exec_spec]; try reflexivity;
    match goal with |- context [?c =? 2] =>
      let E := fresh "E" in
      destruct (c =? 2) eqn:E; [apply N.eqb_eq in E; exfalso; revert E; apply err_code_ne2|reflexivity]
    end.
Qed.

(* the response the model's transport reads for a request, and the transport
   oracle made of it *)
Definition transport_result (fr : framing) (txn : N) (req : pdu) (e : send) (s : list N) : result pdu :=
  fst (fst (fst (transport_exchange fr txn req e s))).

Definition model_transport (fr : framing) (txn : N) (e : send) (s : list N) : pdu -> treply :=
  fun req => treply_of (transport_result fr txn req e s).

Definition clean {A} (r : result A) : Prop :=
  match r with MOk _ | Err _ => True | _ => False end.

Lemma transport_result_eq fr txn req e s :
  transport_result fr txn req e s =
  match fr with
  | FMbap => fst (mbap_read_response (S (List.length s)) e (u16 (txn + 1)) s)
  | FRtu => fst (rtu_read_response e s)
  end.
Proof.
  unfold transport_result, transport_exchange. destruct fr; cbv zeta.
  - destruct (mbap_read_response _ e _ s) as [r rest]. reflexivity.
  - destruct (rtu_read_response e s) as [r rest]. reflexivity.
Qed.

Lemma transport_result_clean fr txn req e s : clean (transport_result fr txn req e s).
Proof.
  rewrite transport_result_eq. destruct fr.
  - pose proof (mbap_no_panic (S (List.length s)) e (u16 (txn + 1)) s) as H1.
    pose proof (mbap_no_oof (S (List.length s)) e (u16 (txn + 1)) s (Nat.lt_succ_diag_r _)) as H2.
    destruct (fst (mbap_read_response _ e _ s)); cbn [clean]; try exact I; congruence.
  - destruct (rtu_response_no_panic e s) as [H1 H2].
    destruct (fst (rtu_read_response e s)); cbn [clean]; try exact I; congruence.
Qed.

Lemma call_out_client_call fr cfg txn o e s :
  call_out cfg o (xchg (model_transport fr txn e s)) = sout_of (cr_res (client_call fr cfg txn o e s)).
Proof.
  unfold call_out, client_call.
  destruct (client_request cfg o) as [req|x| |]; try reflexivity.
  pose proof (transport_result_clean fr txn req e s) as Hc.
  unfold xchg, model_transport. rewrite exec_spec_treply_of.
  unfold transport_result in *.
  destruct (transport_exchange fr txn req e s) as [[[r writes] rest] txn'].
  cbn [fst] in *.
  destruct r as [res|x| |]; cbn [exec_spec clean] in *; try contradiction; try reflexivity.
  destruct (unit_check req res); reflexivity.
Qed.

(* the transports report i/o and framing errors: none is an exception reply's error *)
Lemma short_err_ok e : err_ok (short_err e).
Proof. destruct e; exact I. Qed.

(* case distinction on everything a [match] of the goal looks at: the readers
   below are nests of matches whose every error leaf is to be inspected *)
Ltac split_matches :=
  repeat match goal with
         | |- context [match ?x with _ => _ end] => destruct x
         end.

Lemma read_mbap_err e s x s' : read_mbap e s = (FErr x, s') -> err_ok x.
Proof.
  unfold read_mbap. cbv zeta. split_matches; intros H; inversion H; subst;
    first [exact I|apply short_err_ok].
Qed.

Lemma mbap_response_err fuel : forall e txn s x s',
  mbap_read_response fuel e txn s = (Err x, s') -> err_ok x.
Proof.
  induction fuel as [|f IH]; intros e txn s x s'; cbn [mbap_read_response]; [discriminate|].
  destruct (read_mbap e s) as [r s1] eqn:E.
  destruct r as [p t|y].
  - destruct (t =? txn); [discriminate|apply IH].
  - pose proof (read_mbap_err e s y s1 E) as Hy.
    destruct y; try (intros H; inversion H; subst; exact Hy). apply IH.
Qed.

Lemma read_rtu_err e s x s' : read_rtu e s = (Err x, s') -> err_ok x.
Proof.
  unfold read_rtu. cbv zeta. split_matches; intros H; inversion H; subst;
    first [exact I|apply short_err_ok].
Qed.

Lemma rtu_response_fst e s : fst (rtu_read_response e s) = fst (read_rtu e s).
Proof.
  unfold rtu_read_response. destruct (read_rtu e s) as [[p|y| |] s1]; try reflexivity. destruct y; reflexivity.
Qed.

Lemma rtu_response_err e s x s' : rtu_read_response e s = (Err x, s') -> err_ok x.
Proof.
  intros H. apply (f_equal fst) in H. rewrite rtu_response_fst in H.
  destruct (read_rtu e s) as [r s1] eqn:E. cbn [fst] in H. subst r. exact (read_rtu_err e s x s1 E).
Qed.

Lemma mbap_response_bytes fuel e txn s p rest : bytesb s = true ->
  mbap_read_response fuel e txn s = (MOk p, rest) -> bytesb (p_payload p) = true.
Proof.
  intros Hb H. destruct (mbap_response_inv fuel e txn s p rest Hb H) as (frames & _ & Hs & _).
  rewrite Hs in Hb. unfold mbap_frame in Hb.
  apply bytesb_app_iff in Hb as [_ Hb]. apply bytesb_app_iff in Hb as [Hb _].
  do 4 (apply bytesb_app_iff in Hb as [_ Hb]). exact Hb.
Qed.

Lemma rtu_response_bytes e s p rest : bytesb s = true ->
  rtu_read_response e s = (MOk p, rest) -> bytesb (p_payload p) = true.
Proof.
  intros Hb. unfold rtu_read_response. destruct (read_rtu e s) as [r s1] eqn:E.
  destruct r as [q|x| |]; try discriminate.
  - intros H. inversion H; subst q s1.
    destruct (read_rtu_inv e s p rest Hb E) as (b2 & data & _ & _ & _ & Hs).
    rewrite Hs in Hb. unfold rtu_frame in Hb.
    apply bytesb_app_iff in Hb as [Hb _]. apply bytesb_app_iff in Hb as [Hb _].
    apply bytesb_app_iff in Hb as [_ Hb]. exact Hb.
  - destruct x; discriminate.
Qed.

Lemma treply_of_wf r :
  (forall res, r = MOk res -> bytesb (p_payload res) = true) -> (forall x, r = Err x -> err_ok x) ->
  treply_wf (treply_of r).
Proof.
  intros Hres Herr. destruct r as [res|x| |]; cbn [treply_of]; try discriminate.
  - exact (Hres res eq_refl).
  - specialize (Herr x eq_refl). destruct x; cbn [treply_wf]; try (apply err_code_nz; exact Herr). discriminate.
Qed.

Lemma model_transport_wf fr txn e s req : bytesb s = true -> treply_wf (model_transport fr txn e s req).
Proof.
  intros Hb. unfold model_transport. rewrite transport_result_eq. apply treply_of_wf; destruct fr.
  - intros res E. destruct (mbap_read_response _ e _ s) as [r rest] eqn:E'. cbn [fst] in E. subst r.
    exact (mbap_response_bytes _ _ _ _ _ _ Hb E').
  - intros res E. destruct (rtu_read_response e s) as [r rest] eqn:E'. cbn [fst] in E. subst r.
    exact (rtu_response_bytes _ _ _ _ Hb E').
  - intros x E. destruct (mbap_read_response _ e _ s) as [r rest] eqn:E'. cbn [fst] in E. subst r.
    exact (mbap_response_err _ _ _ _ _ _ E').
  - intros x E. destruct (rtu_read_response e s) as [r rest] eqn:E'. cbn [fst] in E. subst r.
    exact (rtu_response_err _ _ _ _ E').
Qed.

Definition oracle_of (T : pdu -> treply) : fenv :=
  fun name args =>
    if String.eqb name "transport.ExecuteRequest" then
      match args with
      | [VN u; VN f; VL p] =>
          match vals_to_ns p with
          | Some l => GOk (enc_reply (T (mkpdu u f l)))
          | None => GoLite.Stuck
          end
      | _ => GoLite.Stuck
      end
    else GoLite.Stuck.

Lemma oracle_of_hyp T : (forall req, treply_wf (T req)) -> transport_hyp (oracle_of T) T.
Proof.
  intros H req. split; [|apply H].
  unfold oracle_of. rewrite String.eqb_refl. unfold vbytes. rewrite vals_to_ns_map.
  destruct req; reflexivity.
Qed.

Lemma model_transport_hyp fr txn e s : bytesb s = true ->
  transport_hyp (oracle_of (model_transport fr txn e s)) (model_transport fr txn e s).
Proof. intros Hb. apply oracle_of_hyp. intros req. apply model_transport_wf. exact Hb. Qed.
