(* The typed register readers of client.go (ReadRegisters, ReadRegister,
   ReadUint32s, ReadUint32, ReadFloat32s, ReadFloat32, ReadUint64s, ReadUint64,
   ReadFloat64s, ReadFloat64) as translated from the Go source (Gen/SrcPure.v),
   against the client model: each is readRegisters + encoding + a decoder of
   encoding.go; the one-value readers index the result of the slice readers. *)
From Coq Require Import List NArith String Lia Bool.
Import ListNotations.
From Modbus Require Import Base.Bytes Model.GoLite Gen.SrcPure Model.Crc Model.Encoding.
From Modbus Require Import Model.Wire Model.Client.
From Modbus Require Import Proofs.GoLiteP Proofs.GoLiteLinkP Proofs.SrcCrcP Proofs.SrcLinkP Proofs.SrcMiscP Proofs.SrcClientP
  Proofs.SrcClientWriteP.
Open Scope string_scope.
Open Scope N_scope.

(* the number of registers asked from readRegisters *)
Definition rr_count (w q : N) : N := if w =? 1 then q else register_count q w.

Definition dec_values (cfg : ccfg) (w : N) (data : list N) : option (list N) :=
  if w =? 1 then bytes_to_u16s (c_endian cfg) data
  else if w =? 2 then bytes_to_u32s (c_endian cfg) (c_word cfg) data
  else bytes_to_u64s (c_endian cfg) (c_word cfg) data.

(* what a typed reader makes of the outcome of readRegisters *)
Definition dec_out (cfg : ccfg) (w : N) (s : sout) : sout :=
  match s with
  | SVal (VBytes data) =>
      match dec_values cfg w data with Some r => SVal (VNums r) | None => SPanic end
  | SVal _ => SPanic      (* readRegisters returns bytes only *)
  | SCode c => SCode c
  | SPanic => SPanic
  end.

Lemma call_out_read_regs cfg w a q rt X :
  call_out cfg (OpReadRegs w a q rt) X = dec_out cfg w (rr_out cfg a (rr_count w q) rt X).
Proof.
  unfold call_out, rr_out. cbn [client_request client_validate]. fold (rr_count w q).
  destruct (req_read_regs cfg a (rr_count w q) rt) as [req|e| |]; cbn [sout_of dec_out]; try reflexivity.
  destruct (X req) as [res|c rnil ru rf rp]; [|reflexivity].
  unfold validate_read_regs.
  destruct (p_fc res =? p_fc req).
  - destruct (p_payload res) as [|bc data]; [reflexivity|].
    destruct (negb (lenN (bc :: data) =? 1 + 2 * rr_count w q)); [reflexivity|].
    destruct (negb (bc =? 2 * rr_count w q)); [reflexivity|].
    cbn [sout_of dec_out]. unfold dec_values, opt_result.
    destruct (w =? 1); [|destruct (w =? 2)].
    + destruct (bytes_to_u16s (c_endian cfg) data); reflexivity.
    + destruct (bytes_to_u32s (c_endian cfg) (c_word cfg) data); reflexivity.
    + destruct (bytes_to_u64s (c_endian cfg) (c_word cfg) data); reflexivity.
  - rewrite !sout_of_eop. reflexivity.
Qed.

Lemma rr_out_val cfg a q rt X v :
  rr_out cfg a q rt X = SVal v -> exists data, v = VBytes data /\ lenN data = 2 * q /\ q <= 125.
Proof.
  unfold rr_out. intros H.
  assert (Hq : forall req, req_read_regs cfg a q rt = MOk req -> q <= 125).
  { intros req. unfold req_read_regs.
    destruct rt; try discriminate;
      (destruct (q =? 0); [discriminate|]); (destruct (125 <? q) eqn:E; [discriminate|]); intros _; lia. }
  destruct (req_read_regs cfg a q rt) as [req|e| |]; try discriminate.
  specialize (Hq req eq_refl).
  destruct (X req) as [res|c rnil ru rf rp]; [|discriminate].
  unfold validate_read_regs in H.
  destruct (p_fc res =? p_fc req).
  - destruct (p_payload res) as [|bc data]; [discriminate|].
    destruct (lenN (bc :: data) =? 1 + 2 * q) eqn:El; cbn [negb] in H; [|discriminate].
    destruct (negb (bc =? 2 * q)); [discriminate|].
    cbn [sout_of] in H. inversion H; subst v. exists data. split; [reflexivity|]. split; [|exact Hq].
    unfold lenN in *. cbn [List.length] in El. lia.
  - rewrite sout_of_eop in H. discriminate.
Qed.

Lemma rr_out_code cfg a q rt X c :
  (forall req, treply_wf (X req)) -> rr_out cfg a q rt X = SCode c -> c <> 0.
Proof.
  intros Hwf. rewrite rr_out_eq. apply xchg_out_code; [exact Hwf| |].
  - intros e. unfold req_read_regs.
    destruct rt; try (intros H; inversion H; exact I);
      (destruct (q =? 0); [|destruct (125 <? q); [|destruct (65535 <? a + q - 1); [|discriminate]]]);
      intros H; inversion H; exact I.
  - intros req res e. unfold validate_read_regs.
    destruct (p_fc res =? p_fc req).
    + destruct (p_payload res) as [|bc data]; [intros H; inversion H; exact I|].
      destruct (negb _); [intros H; inversion H; exact I|].
      destruct (negb _); [intros H; inversion H; exact I|discriminate].
    + destruct (eop_err req res) as (e' & -> & He'). intros H. inversion H; subst. exact He'.
Qed.

Definition nums_or_code (s : sout) : Prop :=
  match s with
  | SVal (VNums _) => True
  | SVal _ => False
  | SCode c => c <> 0
  | SPanic => True
  end.

Lemma call_out_read_regs_shape cfg w a q rt X :
  (forall req, treply_wf (X req)) -> nums_or_code (call_out cfg (OpReadRegs w a q rt) X).
Proof.
  intros Hwf. rewrite call_out_read_regs.
  destruct (rr_out cfg a (rr_count w q) rt X) as [v|c|] eqn:E; cbn [dec_out nums_or_code].
  - destruct v; cbn [nums_or_code]; try exact I.
    destruct (dec_values cfg w l); exact I.
  - exact (rr_out_code _ _ _ _ _ _ Hwf E).
  - exact I.
Qed.

Lemma register_count_u16 q w : register_count q w < 65536.
Proof. unfold register_count. destruct (65535 <? q * w) eqn:E; lia. Qed.

Definition rregs_hyp (fe : fenv) (X : pdu -> treply) : Prop :=
  forall cfg tt a q rtn rt, a < 65536 -> q < 65536 -> regtype_sel rt rtn ->
    fe "ModbusClient.readRegisters" (mc_fields cfg tt ++ [VN a; VN q; VN rtn])%list =
    out_vals (mc_fields cfg tt) (rr_out cfg a q rt X).

Definition regcount_hyp (fe : fenv) : Prop :=
  forall q w, q < 65536 -> w < 65536 -> fe "registerCount" [VN q; VN w] = GOk [VN (register_count q w)].

(* the decoders of encoding.go, as src_bytesToUint16s_ok ... of Proofs/SrcLinkP.v say *)
Definition dec16_hyp (fe : fenv) (fuel : nat) : Prop :=
  forall e l, N.of_nat (List.length l) < 2 ^ 62 -> (List.length l < fuel)%nat ->
    fe "bytesToUint16s" [VN (endian_sel e); vbytes l] =
    match bytes_to_u16s e l with Some r => GOk [vbytes r] | None => GoLite.Panic end.

(* a decoder with a word order; [name] is bytesToUint32s / bytesToFloat32s /
   bytesToUint64s / bytesToFloat64s, [decf] bytes_to_u32s / bytes_to_u64s *)
Definition decw_hyp (fe : fenv) (fuel : nat) (name : string)
           (decf : endian -> wordorder -> list N -> option (list N)) : Prop :=
  forall e w l, N.of_nat (List.length l) < 2 ^ 62 -> (List.length l < fuel)%nat ->
    fe name [VN (endian_sel e); VN (word_sel w); vbytes l] =
    match decf e w l with Some r => GOk [vbytes r] | None => GoLite.Panic end.

(* a slice reader, for the one-value readers: [name] is ModbusClient.ReadRegisters /
   ReadUint32s / ... and [w] the registers per value *)
Definition typed_hyp (fe : fenv) (name : string) (w : N) (X : pdu -> treply) : Prop :=
  forall cfg tt a q rtn rt, a < 65536 -> q < 65536 -> regtype_sel rt rtn ->
    fe name (mc_fields cfg tt ++ [VN a; VN q; VN rtn])%list =
    out_vals (mc_fields cfg tt) (call_out cfg (OpReadRegs w a q rt) X).

(* The linked decoders loop over the returned bytes, one unit of fuel per
   iteration: at most 125 registers come back, 250 bytes, and any fuel above
   that will do; the statements ask for 300. *)
Lemma data_len_bounds (data : list N) q fuel :
  lenN data = 2 * q -> q <= 125 -> (300 < fuel)%nat ->
  N.of_nat (List.length data) < 2 ^ 62 /\ (List.length data < fuel)%nat.
Proof.
  unfold lenN. intros H1 H2 H3. split; [|lia].
  apply N.le_lt_trans with 250; [lia|reflexivity].
Qed.

Lemma run_ReadRegisters fe fuel cfg tt X a q rtn rt :
  rregs_hyp fe X -> encoding_hyp fe -> dec16_hyp fe fuel ->
  a < 65536 -> q < 65536 -> regtype_sel rt rtn -> (300 < fuel)%nat ->
  run_fn ge fe fuel src_fn_ModbusClient_ReadRegisters (mc_fields cfg tt ++ [VN a; VN q; VN rtn])%list =
  out_vals (mc_fields cfg tt) (call_out cfg (OpReadRegs 1 a q rt) X).
Proof.
  intros Hrr Henc Hdec Ha Hq Hrt Hfuel.
  rewrite call_out_read_regs. unfold rr_count. change (1 =? 1) with true. cbv iota.
  pose proof (Hrr cfg tt a q rtn rt Ha Hq Hrt) as Er.
  pose proof (Henc cfg tt) as Ee.
  unfold run_fn, src_fn_ModbusClient_ReadRegisters, mc_fields in *. cbn [app] in Er, Ee.
  gl_step. rewrite Er.
  destruct (rr_out cfg a q rt X) as [v|c|] eqn:Eo; cbn [out_vals dec_out app].
  - destruct (rr_out_val _ _ _ _ _ _ Eo) as (data & -> & Hlen & Hq125).
    destruct (data_len_bounds data q fuel Hlen Hq125 Hfuel) as [Hl1 Hl2].
    cbn [sval]. gl_auto. rewrite Ee. gl_auto.
    rewrite (Hdec (c_endian cfg) data Hl1 Hl2).
    unfold dec_values. change (1 =? 1) with true. cbv iota.
    destruct (bytes_to_u16s (c_endian cfg) data) as [r|]; gl_auto; reflexivity.
  - (* [rregs_hyp] does not say that a returned code is non-nil ([rr_out_code] would, given
       [treply_wf] of [X]). With code 0 the method goes on as the Go code would, decodes the nil
       slice and returns it with a nil error: again [out_vals] of [SCode 0]. *)
    gl_auto. destruct (c =? 0) eqn:Ec; gl_auto; [|reflexivity].
    apply N.eqb_eq in Ec. subst c.
    rewrite Ee. gl_auto.
    change (VL []) with (vbytes []).
    rewrite (Hdec (c_endian cfg) []) by (cbn [List.length]; first [reflexivity|lia]).
    cbn [bytes_to_u16s]. gl_auto. reflexivity.
  - gl_auto. reflexivity.
Qed.

(* The common shape of the four readers with a word order: [k] registers per
   value, decoder [dec]. That the generated trees are this one is the premise
   [lookup_fn name ... = Some (typed_reader k dec)] of src_typed_reader_ok
   (Proofs/SrcClientLinkP.v), closed by [reflexivity] in Properties/C02t.v;
   likewise for [single_reader] below. *)
Definition typed_reader (k : N) (dec : string) : fn := {|
  f_nparams := 7;
  f_zeros := [VL []; VN 0; VL []; VN 0; VN 0];
  f_outs := [0%nat; 1%nat; 2%nat; 3%nat];
  f_results := [7%nat; 8%nat];
  f_body :=
    SSeq (SSet (LVar 9) (ELit ENil))
    (SSeq (SSet (LVar 10) (EN 0))
    (SSeq (SSet (LVar 11) (EN 0))
    (SSeq (SCall "ModbusClient.readRegisters" (ECons (EVar 0) (ECons (EVar 1) (ECons (EVar 2) (ECons (EVar 3) (ECons (EVar 4) (ECons (ECall "registerCount" (ECons (EVar 5) (ECons (EN k) (ENil)))) (ECons (EVar 6) (ENil)))))))) [LVar 0; LVar 1; LVar 2; LVar 3; LVar 9; LVar 8])
    (SSeq (SIf (ECmp CNe (EVar 8) (EN 0))
    (SReturn (ENil))
    (SSkip))
    (SSeq (SCall "ModbusClient.encoding" (ECons (EVar 0) (ECons (EVar 1) (ECons (EVar 2) (ECons (EVar 3) (ENil))))) [LVar 0; LVar 1; LVar 2; LVar 3; LVar 10; LVar 11])
    (SSeq (SSet (LVar 7) (ECall dec (ECons (EVar 10) (ECons (EVar 11) (ECons (EVar 9) (ENil))))))
    (SReturn (ENil))))))))
|}.

(* [k] is 2 or 4; [decf] the decoder's model *)
Lemma run_typed_reader fe fuel cfg tt X a q rtn rt k dec decf :
  rregs_hyp fe X -> encoding_hyp fe -> regcount_hyp fe -> decw_hyp fe fuel dec decf ->
  (k =? 1) = false -> k < 65536 ->
  (forall data, decf (c_endian cfg) (c_word cfg) data = dec_values cfg k data) ->
  a < 65536 -> q < 65536 -> regtype_sel rt rtn -> (300 < fuel)%nat ->
  run_fn ge fe fuel (typed_reader k dec) (mc_fields cfg tt ++ [VN a; VN q; VN rtn])%list =
  out_vals (mc_fields cfg tt) (call_out cfg (OpReadRegs k a q rt) X).
Proof.
  intros Hrr Henc Hrc Hdec Hk1 Hk Hdv Ha Hq Hrt Hfuel.
  rewrite call_out_read_regs. unfold rr_count. rewrite Hk1.
  pose proof (Hrr cfg tt a (register_count q k) rtn rt Ha (register_count_u16 q k) Hrt) as Er.
  pose proof (Henc cfg tt) as Ee.
  unfold run_fn, typed_reader, mc_fields in *. cbn [app] in Er, Ee.
  gl_step. rewrite (Hrc q k Hq Hk). gl_step. rewrite Er.
  destruct (rr_out cfg a (register_count q k) rt X) as [v|c|] eqn:Eo; cbn [out_vals dec_out app].
  - destruct (rr_out_val _ _ _ _ _ _ Eo) as (data & -> & Hlen & Hq125).
    destruct (data_len_bounds data _ fuel Hlen Hq125 Hfuel) as [Hl1 Hl2].
    cbn [sval]. gl_auto. rewrite Ee. gl_auto.
    rewrite (Hdec (c_endian cfg) (c_word cfg) data Hl1 Hl2), Hdv.
    destruct (dec_values cfg k data) as [r|]; gl_auto; reflexivity.
  - (* code 0 is not excluded here either: see run_ReadRegisters *)
    gl_auto. destruct (c =? 0) eqn:Ec; gl_auto; [|reflexivity].
    apply N.eqb_eq in Ec. subst c.
    rewrite Ee. gl_auto.
    change (VL []) with (vbytes []).
    rewrite (Hdec (c_endian cfg) (c_word cfg) []) by (cbn [List.length]; first [reflexivity|lia]).
    rewrite Hdv. unfold dec_values. rewrite Hk1.
    destruct (k =? 2); cbn [bytes_to_u32s bytes_to_u64s]; gl_auto; reflexivity.
  - gl_auto. reflexivity.
Qed.

(* the one-value readers (ReadRegister, ReadUint32, ...): the slice reader [callee] with quantity 1 *)
Definition single_reader (callee : string) : fn := {|
  f_nparams := 6;
  f_zeros := [VN 0; VN 0; VL []];
  f_outs := [0%nat; 1%nat; 2%nat; 3%nat];
  f_results := [6%nat; 7%nat];
  f_body :=
    SSeq (SSet (LVar 8) (ELit ENil))
    (SSeq (SCall callee (ECons (EVar 0) (ECons (EVar 1) (ECons (EVar 2) (ECons (EVar 3) (ECons (EVar 4) (ECons (EN 1) (ECons (EVar 5) (ENil)))))))) [LVar 0; LVar 1; LVar 2; LVar 3; LVar 8; LVar 7])
    (SSeq (SIf (ECmp CEq (EVar 7) (EN 0))
    (SSet (LVar 6) (EIndex (EVar 8) (EN 0)))
    (SSkip))
    (SReturn (ENil))))
|}.

Lemma run_single_reader fe fuel cfg tt a rtn callee s :
  fe callee (mc_fields cfg tt ++ [VN a; VN 1; VN rtn])%list = out_vals (mc_fields cfg tt) s ->
  nums_or_code s ->
  run_fn ge fe fuel (single_reader callee) (mc_fields cfg tt ++ [VN a; VN rtn])%list =
  out_one (mc_fields cfg tt) (VN 0) s.
Proof.
  intros Ec Hs.
  unfold run_fn, single_reader, mc_fields in *. cbn [app] in Ec.
  gl_step. rewrite Ec.
  destruct s as [v|c|]; cbn [out_vals out_one nums_or_code app] in *.
  - destruct v as [|l|l|l]; try contradiction.
    cbn [sval]. gl_auto. unfold vbytes.
    destruct l as [|n l]; cbn [map nth_error]; gl_auto; reflexivity.
  - gl_auto. replace (c =? 0) with false by lia. gl_auto. reflexivity.
  - gl_auto. reflexivity.
Qed.

Lemma run_single_typed fe fuel cfg tt X a rtn rt callee w :
  typed_hyp fe callee w X -> (forall req, treply_wf (X req)) ->
  a < 65536 -> regtype_sel rt rtn ->
  run_fn ge fe fuel (single_reader callee) (mc_fields cfg tt ++ [VN a; VN rtn])%list =
  out_one (mc_fields cfg tt) (VN 0) (call_out cfg (OpReadRegs w a 1 rt) X).
Proof.
  intros Hc Hwf Ha Hrt. apply run_single_reader.
  - apply Hc; [exact Ha|lia|exact Hrt].
  - apply call_out_read_regs_shape. exact Hwf.
Qed.
