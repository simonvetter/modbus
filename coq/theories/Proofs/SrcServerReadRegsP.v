(* server.go handleTransport as translated from the Go source (Gen/SrcPure.v):
   one iteration of the request loop on function codes 3 and 4 (read holding /
   input registers) is the model's server_process followed by WriteResponse or
   Close (Proofs/SrcServerP.v: srv_iter_spec). *)
From Coq Require Import List NArith String Lia Bool.
Import ListNotations.
From Modbus Require Import Base.Bytes Model.GoLite Gen.SrcPure Model.Crc Model.Encoding.
From Modbus Require Import Model.Wire Model.Client Model.Server.
From Modbus Require Import Proofs.GoLiteP Proofs.GoLiteLinkP Proofs.SrcCrcP Proofs.SrcLinkP Proofs.SrcMiscP Proofs.SrcClientP Proofs.SrcServerP.
Open Scope string_scope.
Open Scope N_scope.

Lemma srv_iter_read_regs fe fuel W started tt ca cr w rest req :
  world_hyp fe W -> srv_callee_hyp fe -> List.length rest = 18%nat ->
  snd (w_read W w) = RdOk req -> (p_fc req = 3 \/ p_fc req = 4) ->
  srv_iter_spec fe fuel W started tt ca cr w rest req.
Proof.
  intros HW HC Hlen Hrd Hfc.
  destruct req as [u fc pl]. cbn [p_fc] in Hfc.
  apply srv_iter_by_case; try assumption. clear w rest Hlen Hrd.
  intros w1 r9 r10 r11 r12 s14 s15 s16 s17 s18 s19 s20 s21 s22 Hb.
  replace (class_of fc) with K34 by (destruct Hfc as [->| ->]; reflexivity).
  unfold server_process. cbn [p_fc p_payload p_unit].
  replace (orb (fc =? 1) (fc =? 2)) with false by (destruct Hfc as [->| ->]; reflexivity).
  replace (fc =? 5) with false by (destruct Hfc as [->| ->]; reflexivity).
  replace (fc =? 15) with false by (destruct Hfc as [->| ->]; reflexivity).
  replace (orb (fc =? 3) (fc =? 4)) with true by (destruct Hfc as [->| ->]; reflexivity).
  cbv [srv_case].
  gl_seq. gl_seq. (* var regs []uint16; var resCount int *)
  apply (len4_check fe fuel W HW). intros b0 b1 b2 b3 ->.
  cbn [bytesb forallb] in Hb. unfold is_byte in Hb. cbn [be_word skipn].
  apply (addr_qty_header fe fuel W HW HC) with (lim := 125); try lia. intros Eq Ea.
  set (addr := b0 * 256 + b1) in *. set (qty := b2 * 256 + b3) in *. clear Hb.
  unfold model_handler. cbn [p_unit].
  pose proof (handle_code fe W HW w1 ca cr (mkhreq (if fc =? 3 then HHolding else HInput) u addr qty false [] [])) as Hin.
  destruct (w_handle W w1 ca cr _) as [w2 [xb xr c]] eqn:Eh. cbn [snd hr_code hr_regs hr_bools r_err r_regs] in *.
  erewrite seq_normal.
  2:{ rewrite (exec_if_eval _ _ _ _ _ _ _ (fc =? 3)) by (gl_run; reflexivity).
      destruct (fc =? 3); gl_run; [rewrite (holding_call fe W HW _ _ _ _ _ _ false [])|rewrite (input_call fe W HW)];
        rewrite Eh; reflexivity. }
  cbn [hr_code hr_regs].
  gl_seq. (* resCount = len(regs) *)
  rewrite map_length.
  (* a result of the wrong size is a server device failure *)
  rewrite hfinish_code.
  apply (handler_done_if fe fuel W HW HC) with (v := negb (N.of_nat (List.length xr) =? qty));
    [exact Hin|gl_wrap; gl_run; reflexivity|].
  intros El.
  gl_seq. (* res = &pdu{unitId, functionCode, payload: []byte{0}} *)
  gl_seq. (* res.payload[0] = uint8(resCount * 2) *)
  (* res.payload = append(res.payload, uint16sToBytes(BIG_ENDIAN, regs)...) *)
  erewrite after_normal by (gl_run; rewrite (u16s2b_call fe HC) by lia; gl_run; reflexivity).
  apply (tail_ok fe fuel W HW).
Qed.
