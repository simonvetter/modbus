(* Proofs about Model/Opened.v: the response timeout an opened client enforces
   against a silent peer is the documented one (Spec/OpenedSpec.v), for every
   accepted configuration (property C16, enforced defaults). *)
From Modbus Require Import Base.Bytes Model.Crc Model.Encoding Model.Wire Model.Client
  Model.Config Model.Timing Model.Timed Model.Opened
  Spec.ModbusSpec Spec.ClientSpec Spec.TimedSpec Spec.ConfigSpec Spec.OpenedSpec
  Proofs.ClientRespP Proofs.ConfigP Proofs.TimedP Proofs.TimingP.

Lemma documented_timeout_nonneg s c : (0 <= cc_timeout c)%Z -> (0 <= documented_timeout s c)%Z.
Proof.
  intros H. unfold documented_timeout, fillz. destruct (cc_timeout c =? 0)%Z; [|exact H].
  destruct s; unfold default_timeout, second, ms; lia.
Qed.

Lemma opened_link_spec s rest c :
  opened_link (spec_client_eff s rest c) =
  if rtu_scheme s then
    (FRtu, mk_tm_conf (documented_timeout s c) (char_time (documented_speed s c))
                      (t35 (documented_speed s c))
                      (match s with SRtu => serial_poll_ns | _ => 0%Z end))
  else (FMbap, mk_tm_conf (documented_timeout s c) 0 0 0).
Proof. destruct s; reflexivity. Qed.

Lemma opened_cfg_spec s rest c : opened_cfg (spec_client_eff s rest c) = new_client_cfg.
Proof. reflexivity. Qed.

Lemma silent_call_spec c s rest la o t0 :
  url_scheme (cc_url c) s rest -> client_creds_ok s c ->
  silent_call c la o t0 =
  CfgOk (tm_client_call (fst (opened_link (spec_client_eff s rest c)))
                        (snd (opened_link (spec_client_eff s rest c)))
                        la new_client_cfg 0 o t0 None []).
Proof.
  intros Hu Hc. unfold silent_call. rewrite (new_client_ok c s rest Hu Hc).
  rewrite opened_cfg_spec. destruct (opened_link _) as [fr k]. reflexivity.
Qed.

(* the enforced timeout is the documented one: for every accepted
   configuration, every valid request and every state of the inter-frame
   timer, a silent peer gets the request-timed-out error, never before
   t0 + documented timeout and never after the ceiling of Spec/OpenedSpec.v *)
Lemma silent_call_documented : forall c s rest la o t0,
  url_scheme (cc_url c) s rest -> client_creds_ok s c ->
  op_wf o -> valid_op o = true -> (0 <= cc_timeout c)%Z ->
  exists r, silent_call c la o t0 = CfgOk r /\
    tmc_res r = Err ETimeout /\
    (t0 + documented_timeout s c <= tmc_finish r <= silent_ceiling s c la t0 o)%Z.
Proof.
  intros c s rest la o t0 Hu Hc Hwf V Ht.
  rewrite (silent_call_spec c s rest la o t0 Hu Hc), opened_link_spec.
  eexists; split; [reflexivity|].
  pose proof (documented_timeout_nonneg s c Ht) as HT.
  assert (Hv : (0 <= documented_speed s c)%Z) by (unfold documented_speed; lia).
  pose proof (char_time_nonneg _ Hv) as H1. pose proof (t35_nonneg _ Hv) as H35.
  unfold silent_ceiling.
  destruct (rtu_scheme s) eqn:Es; cbn [fst snd].
  - set (k := mk_tm_conf _ _ _ _).
    (* the poll period is that of the serial wrapper for rtu, none over a network *)
    assert (Hg : tm_gran k = match s with SRtu => 10000000%Z | _ => 0%Z end)
      by (destruct s; reflexivity).
    assert (Hk : tm_conf_wf k).
    { unfold tm_conf_wf. rewrite Hg. unfold k. cbn [tm_timeout tm_t1 tm_t35]. destruct s; lia. }
    destruct (tm_silence_rtu_any k la new_client_cfg 0 o t0 Hwf V Hk) as [Hr Hf].
    split; [exact Hr|]. rewrite Hg in Hf. subst k. unfold tm_rtu_read_start in Hf.
    cbn [tm_timeout tm_t1 tm_t35] in Hf. destruct s; lia.
  - destruct (tm_silence_mbap (mk_tm_conf (documented_timeout s c) 0 0 0) la new_client_cfg 0 o t0
                Hwf V HT) as [Hr Hf].
    split; [exact Hr|]. rewrite Hf. cbn. lia.
Qed.

(* the speed has no part in the enforced timeout: with a fresh inter-frame
   timer, as soon as the request has left the wire by the deadline, the
   network RTU schemes report the timeout exactly at t0 + documented timeout *)
Lemma silent_call_rtu_net_exact : forall c s rest la o t0,
  url_scheme (cc_url c) s rest -> (s = SRtuOverTcp \/ s = SRtuOverUdp) ->
  op_wf o -> valid_op o = true -> (0 <= cc_timeout c)%Z ->
  let v := documented_speed s c in
  (la + t35 v <= t0)%Z ->
  (tm_req_len new_client_cfg o * char_time v + t35 v <= documented_timeout s c)%Z ->
  exists r, silent_call c la o t0 = CfgOk r /\
    tmc_res r = Err ETimeout /\ tmc_finish r = (t0 + documented_timeout s c)%Z.
Proof.
  intros c s rest la o t0 Hu Hs Hwf V Ht v Hla Hfit.
  assert (Hc : client_creds_ok s c) by (intros Hn; destruct Hs as [-> | ->]; discriminate Hn).
  rewrite (silent_call_spec c s rest la o t0 Hu Hc), opened_link_spec.
  eexists; split; [reflexivity|].
  pose proof (documented_timeout_nonneg s c Ht) as HT.
  assert (Hv : (0 <= documented_speed s c)%Z) by (unfold documented_speed; lia).
  pose proof (char_time_nonneg _ Hv) as H1. pose proof (t35_nonneg _ Hv) as H35.
  fold v in H1, H35.
  assert (Es : rtu_scheme s = true) by (destruct Hs as [-> | ->]; reflexivity).
  rewrite Es. cbn [fst snd].
  set (k := mk_tm_conf _ _ _ _).
  assert (Hg : tm_gran k = 0%Z) by (destruct Hs as [-> | ->]; reflexivity).
  assert (Hk : tm_conf_wf k) by (unfold tm_conf_wf; rewrite Hg; unfold k; cbn; fold v; lia).
  destruct (tm_silence_rtu k la new_client_cfg 0 o t0 Hwf V Hk Hg) as [Hr Hf].
  split; [exact Hr|]. rewrite Hf. unfold tm_rtu_read_start, k.
  cbn [tm_timeout tm_t1 tm_t35 tm_gran]. fold v. lia.
Qed.
