(* The converse clause of C07 for EXCEPTION replies. A valid reply is the
   normal response or an exception response (ClientSpec.exception_reply); the
   timed call returns what the untimed client returns on the bytes that
   arrived by the deadline (TimedP), and the untimed client maps an exception
   reply to the error of its code (C02, ClientRespP). *)
From Modbus Require Import Base.Bytes Model.Crc Model.Encoding Model.Wire Model.Client
  Model.Timed Spec.ModbusSpec Spec.ClientSpec Spec.TimedSpec
  Proofs.FramingP Proofs.ClientReqP Proofs.ClientRespP Proofs.TimedP.

Lemma tm_timely_exception_mbap : forall k la cfg txn o t0 c pre post res code frames,
  op_wf o -> cfg_wf cfg -> txn < 65536 -> valid_op o = true -> (0 <= tm_timeout k)%Z ->
  code < 256 -> exception_reply cfg o res code ->
  Forall (skippable (u16 (txn + 1))) frames ->
  map snd pre = concat frames ++ spec_frame FMbap (u16 (txn + 1)) res ->
  Forall (fun p => (fst p <= t0 + tm_timeout k)%Z) pre ->
  let r := tm_client_call FMbap k la cfg txn o t0 c (pre ++ post) in
  tmc_res r = Err (if documented_exception code then EExc code else EExcUnknown code) /\
  (t0 <= tmc_finish r <= t0 + tm_timeout k)%Z.
Proof.
  intros k la cfg txn o t0 c pre post res code frames Hwf Hcfg Htx V Ht Hc Hex HF Hpre Htimes r.
  subst r. split; [|apply tm_client_time_mbap; exact Ht].
  rewrite tm_client_sim_pre_mbap by assumption. rewrite Hpre, <- app_assoc.
  apply (client_exception_mbap cfg txn o _ res code frames _ Hwf Hcfg Htx V Hc Hex HF).
Qed.

Lemma tm_timely_exception_rtu : forall k la cfg txn o t0 c pre post res code,
  op_wf o -> cfg_wf cfg -> valid_op o = true -> tm_conf_wf k -> tm_gran k = 0%Z ->
  (tm_rtu_read_start k la t0 (tm_req_len cfg o) <= t0 + tm_timeout k)%Z ->
  code < 256 -> exception_reply cfg o res code ->
  map snd pre = spec_frame FRtu 0 res ->
  Forall (fun p => (fst p <= t0 + tm_timeout k)%Z) pre ->
  tmc_res (tm_client_call FRtu k la cfg txn o t0 c (pre ++ post)) =
  Err (if documented_exception code then EExc code else EExcUnknown code).
Proof.
  intros k la cfg txn o t0 c pre post res code Hwf Hcfg V Hk Hg Hs Hc Hex Hpre Htimes.
  rewrite tm_client_sim_pre_rtu by assumption. rewrite Hpre.
  apply (client_exception_rtu cfg txn o _ res code _ Hwf Hcfg V Hc Hex).
Qed.
