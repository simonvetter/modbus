(* tcp_transport.go and rtu_transport.go inside the linked program [src_pure]:
   readMBAPFrame, readResponse, ExecuteRequest of the tcp transport, readRTUFrame,
   discard and the four methods of the rtu transport, called through [call_with
   src_pure base], equal the transport model of Model/Transport.v; only the
   external functions (socket / serial link, clock) remain, given by [base]. *)
From Coq Require Import List NArith String Lia Bool.
Import ListNotations.
From Modbus Require Import Base.Bytes Model.GoLite Gen.SrcPure Model.Crc Model.Encoding.
From Modbus Require Import Model.Wire Model.Transport.
From Modbus Require Import Proofs.GoLiteP Proofs.GoLiteLinkP Proofs.SrcCrcP Proofs.SrcLinkP Proofs.SrcMiscP Proofs.SrcClientP.
From Modbus Require Import Proofs.SrcTransportP Proofs.SrcTransportMbapP Proofs.SrcTransportTcpP
  Proofs.SrcTransportRtuFrameP Proofs.SrcTransportRtuP.
Open Scope string_scope.
Open Scope N_scope.

Ltac world_env HT := apply tworld_hyp_env; [tauto|exact HT].

Theorem src_readMBAPFrame_ok base fuel T tmo last w : tworld_hyp base T "socket" -> tworld_wf T src_codes ->
  call_with src_pure base fuel "tcpTransport.readMBAPFrame" [VN tmo; VN last; w] = out_read_mbap T tmo last w.
Proof.
  intros HT Hwf.
  link_step "tcpTransport.readMBAPFrame" src_fn_tcpTransport_readMBAPFrame.
  apply run_readMBAPFrame; [world_env HT|exact Hwf|].
  by_callee "tcpTransport.readMBAPFrame" "bytesToUint16" src_fn_bytesToUint16 src_bytesToUint16_ok.
Qed.

(* the environment gives the callee the fuel of the caller: the bound on the
   frames skipped by readResponse is the fuel of the call *)
Theorem src_readResponse_ok base fuel T tmo last w : tworld_hyp base T "socket" -> tworld_wf T src_codes ->
  call_with src_pure base fuel "tcpTransport.readResponse" [VN tmo; VN last; w] = out_read_response T fuel tmo last w.
Proof.
  intros HT Hwf.
  link_step "tcpTransport.readResponse" src_fn_tcpTransport_readResponse.
  apply run_readResponse.
  by_callee "tcpTransport.readResponse" "tcpTransport.readMBAPFrame" src_fn_tcpTransport_readMBAPFrame src_readMBAPFrame_ok.
Qed.

Theorem src_tcp_ExecuteRequest_ok base fuel T tmo last req w :
  tworld_hyp base T "socket" -> tworld_wf T src_codes -> pdu_ok req ->
  call_with src_pure base fuel "tcpTransport.ExecuteRequest" ([VN tmo; VN last] ++ pdu_args req ++ [w])%list =
  out_tcp_execute T fuel tmo last req w.
Proof.
  intros HT Hwf Hok.
  link_step "tcpTransport.ExecuteRequest" src_fn_tcpTransport_ExecuteRequest.
  apply run_tcp_ExecuteRequest; [world_env HT| | |exact Hok].
  - by_callee "tcpTransport.ExecuteRequest" "tcpTransport.assembleMBAPFrame" src_fn_tcpTransport_assembleMBAPFrame src_assembleMBAPFrame_ok.
  - by_callee "tcpTransport.ExecuteRequest" "tcpTransport.readResponse" src_fn_tcpTransport_readResponse src_readResponse_ok.
Qed.

Theorem src_readRTUFrame_ok base fuel T tmo la t35 t1 w : tworld_hyp base T "link" -> tworld_wf T src_codes ->
  call_with src_pure base fuel "rtuTransport.readRTUFrame" [VN tmo; VN la; VN t35; VN t1; w] =
  out_read_rtu T tmo la t35 t1 w.
Proof.
  intros HT Hwf.
  link_step "rtuTransport.readRTUFrame" src_fn_rtuTransport_readRTUFrame.
  apply run_readRTUFrame; [world_env HT|exact Hwf| |split; [|split]].
  - by_callee "rtuTransport.readRTUFrame" "expectedResponseLenth" src_fn_expectedResponseLenth src_expectedResponseLenth_ok.
  - by_callee "rtuTransport.readRTUFrame" "crc.init" src_fn_crc_init src_crc_init_ok.
  - by_callee "rtuTransport.readRTUFrame" "crc.add" src_fn_crc_add src_crc_add_ok.
  - by_callee "rtuTransport.readRTUFrame" "crc.isEqual" src_fn_crc_isEqual src_crc_isEqual_ok.
Qed.

Theorem src_discard_ok base fuel T w : tworld_hyp base T "rtuLink" -> tworld_wf T src_codes ->
  call_with src_pure base fuel "discard" [w] = out_discard T w.
Proof.
  intros HT Hwf.
  link_step "discard" src_fn_discard.
  apply run_discard; [world_env HT|exact Hwf].
Qed.

Theorem src_rtu_ExecuteRequest_ok base fuel T tmo la t35 t1 req w :
  tworld_hyp base T "link" -> tworld_hyp base T "rtuLink" -> tworld_wf T src_codes -> pdu_ok req ->
  call_with src_pure base fuel "rtuTransport.ExecuteRequest" ([VN tmo; VN la; VN t35; VN t1] ++ pdu_args req ++ [w])%list =
  out_rtu_execute T tmo la t35 t1 req w.
Proof.
  intros HT HT2 Hwf Hok.
  link_step "rtuTransport.ExecuteRequest" src_fn_rtuTransport_ExecuteRequest.
  apply run_rtu_ExecuteRequest; [world_env HT| | | |exact Hok].
  - by_callee "rtuTransport.ExecuteRequest" "rtuTransport.assembleRTUFrame" src_fn_rtuTransport_assembleRTUFrame src_assembleRTUFrame_ok.
  - by_callee "rtuTransport.ExecuteRequest" "rtuTransport.readRTUFrame" src_fn_rtuTransport_readRTUFrame src_readRTUFrame_ok.
  - by_callee "rtuTransport.ExecuteRequest" "discard" src_fn_discard src_discard_ok.
Qed.

Theorem src_rtu_WriteResponse_ok base fuel T tmo la t35 t1 res w : tworld_hyp base T "link" -> pdu_ok res ->
  call_with src_pure base fuel "rtuTransport.WriteResponse" ([VN tmo; VN la; VN t35; VN t1] ++ pdu_args res ++ [w])%list =
  out_rtu_write_response T tmo la t35 t1 res w.
Proof.
  intros HT Hok.
  link_step "rtuTransport.WriteResponse" src_fn_rtuTransport_WriteResponse.
  apply run_rtu_WriteResponse; [world_env HT| |exact Hok].
  by_callee "rtuTransport.WriteResponse" "rtuTransport.assembleRTUFrame" src_fn_rtuTransport_assembleRTUFrame src_assembleRTUFrame_ok.
Qed.

Theorem src_rtu_ReadRequest_ok base fuel w :
  call_with src_pure base fuel "rtuTransport.ReadRequest" [w] = out_rtu_read_request w.
Proof.
  link_step "rtuTransport.ReadRequest" src_fn_rtuTransport_ReadRequest.
  apply run_rtu_ReadRequest.
Qed.

Theorem src_rtu_Close_ok base fuel T tmo la t35 t1 w : tworld_hyp base T "link" ->
  call_with src_pure base fuel "rtuTransport.Close" [VN tmo; VN la; VN t35; VN t1; w] =
  out_close T [VN tmo; VN la; VN t35; VN t1] w.
Proof.
  intros HT.
  link_step "rtuTransport.Close" src_fn_rtuTransport_Close.
  apply run_rtu_Close. world_env HT.
Qed.

Print Assumptions src_readMBAPFrame_ok.
Print Assumptions src_readResponse_ok.
Print Assumptions src_tcp_ExecuteRequest_ok.
Print Assumptions src_readRTUFrame_ok.
Print Assumptions src_discard_ok.
Print Assumptions src_rtu_ExecuteRequest_ok.
Print Assumptions src_rtu_WriteResponse_ok.
Print Assumptions src_rtu_ReadRequest_ok.
Print Assumptions src_rtu_Close_ok.
