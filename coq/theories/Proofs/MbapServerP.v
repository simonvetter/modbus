(* The MBAP reader as the server sees it: it accepts exactly the streams that
   start with a well-formed frame (Proofs/FramingP.v, protocol id 0). *)
From Modbus Require Import Base.Bytes Model.Encoding Model.Wire Model.Server
  Spec.ModbusSpec Spec.ClientSpec Spec.ServerSpec Spec.ServerSessionSpec Proofs.FramingP.

Lemma spec_mbap_frame t p : spec_mbap t p = mbap_frame t 0 (p_unit p) (p_fc p) (p_payload p).
Proof. reflexivity. Qed.

Lemma read_spec_mbap e t p rest : t < 65536 -> lenN (p_payload p) <= 252 ->
  read_mbap e (spec_mbap t p ++ rest) = (FOk p t, rest).
Proof.
  intros Ht Hl. rewrite spec_mbap_frame, read_mbap_frame by (assumption || lia).
  destruct p; reflexivity.
Qed.

Lemma read_mbap_ok_inv e s p t rest : bytesb s = true ->
  read_mbap e s = (FOk p t, rest) ->
  s = spec_mbap t p ++ rest /\ t < 65536 /\ pdu_wf p /\ bytesb rest = true.
Proof.
  intros Hb E.
  destruct (read_mbap_inv e s _ rest Hb E)
    as [(x & Hx & _)|(t' & proto & unit & fc & payload & -> & Ht & _ & Hl & Hu & Hf & Hp & Hr & H)];
    [discriminate Hx|].
  destruct (proto =? 0) eqn:C; [|discriminate H]. injection H as -> ->.
  apply N.eqb_eq in C. subst proto.
  split; [reflexivity|]. split; [exact Ht|]. split; [|exact Hr].
  repeat split; assumption.
Qed.

(* the 7 header bytes and the function code *)
Lemma read_mbap_consumes e s p t rest :
  read_mbap e s = (FOk p t, rest) -> (length rest + 8 <= length s)%nat.
Proof. apply (read_mbap_len e s (FOk p t) rest). Qed.
