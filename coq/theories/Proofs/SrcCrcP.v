(* The linked program [src_pure] (Gen/SrcPure.v) as every Src*P.v file sees
   it: [ge], [env_of], and the tactics that turn a call into the run of a body
   ([link_step], [callee], [link_free]). Then crc.go computes the model of
   Model/Crc.v, for every input; uint16ToBytes and bytesToUint16 of encoding.go
   are here as well because crc.value and crc.isEqual call them. *)
From Coq Require Import List NArith String Lia Bool.
Import ListNotations.
From Modbus Require Import Base.Bytes Model.GoLite Gen.SrcPure Model.Crc Model.Encoding.
From Modbus Require Import Spec.ModbusSpec Proofs.CrcP Proofs.GoLiteP Proofs.GoLiteLinkP.
Open Scope N_scope.

Definition ge : genv := globals (p_globals src_pure).

Definition env_of (base : fenv) (name : string) (fuel : nat) : fenv := env_in_with src_pure base name fuel.

(* the call of [name] is the run of its tree [f] in the environment of the
   functions before it (the two [eq_refl] look [name] up in the program) *)
Ltac link_step name f := rewrite (call_env_with src_pure _ name f eq_refl eq_refl).
(* inside the body of [caller], the call of [name] is the call of the linked [name] *)
Ltac callee caller name g := rewrite (env_call_with2 src_pure _ caller name g eq_refl eq_refl).
(* for a body that calls nothing: the environment is left abstract, so that
   evaluation does not enter it *)
Ltac link_free name f :=
  link_step name f;
  match goal with |- context [env_in_with src_pure ?b name ?n] => generalize (env_in_with src_pure b name n) end;
  intros fe; change (globals (p_globals src_pure)) with ge.

Lemma src_table_eq : src_global_crcTable = crc_table.
Proof. vm_compute. reflexivity. Qed.

Lemma table_lookup i : i < 256 ->
  nth_error (map VN src_global_crcTable) (N.to_nat i) = Some (VN (tbl i)).
Proof.
  intros Hi. rewrite src_table_eq. unfold tbl.
  rewrite nth_error_map.
  rewrite (nth_error_nth' crc_table 0).
  - reflexivity.
  - change (List.length crc_table) with 256%nat. lia.
Qed.

Lemma src_crc_init_ok base fuel s : call_with src_pure base fuel "crc.init" [VN s] = Ok [VN crc_init].
Proof. link_free "crc.init"%string src_fn_crc_init. gl_eval. reflexivity. Qed.

(* The body of the range loop, cut out of the generated tree. The same is done
   for every loop, branch or case that is proved apart (u16s2b_body,
   b2u16s_parts, b2u32s_sel, srv_parts, srv_case, ...). The trap: if the Go
   source changes shape the match falls to its last branch and the definition
   is SSkip, without a word; the failure shows in the first lemma that runs
   the part, or where the part is put back into the whole ([change (f_body _)
   with _] in src_crc_add_ok). *)
Definition crc_add_loop_body : stmt :=
  Eval cbv in match f_body src_fn_crc_add with
              | SSeq _ (SSeq (SRange _ _ _ b) _) => b
              | _ => SSkip
              end.

Lemma crc_add_body_step fe fuel s inv idx blank x :
  x < 256 ->
  exec ge fe fuel [VN s; inv; idx; blank; VN x] crc_add_loop_body =
  ONormal [VN (crc_step s x); inv; VN (N.lxor x (N.land s 255)); blank; VN x].
Proof.
  intros Hx. with_strategy opaque [crc_table src_global_crcTable crc_from crc_step tbl] gl_eval_sym.
  assert (E : N.land s 255 mod 2 ^ 8 = N.land s 255).
  { rewrite land_255_mod. change (2 ^ 8) with 256. rewrite N.mod_mod by lia. reflexivity. }
  rewrite E.
  rewrite table_lookup.
  2:{ apply lxor_byte; [exact Hx|]. apply land_255_lt. }
  reflexivity.
Qed.

Lemma crc_add_loop fe fuel : forall l s inv idx blank b i,
  bytesb l = true ->
  exists idx' b',
  range_go (fun st' => exec ge fe fuel st' crc_add_loop_body) None (Some 4%nat) i (map VN l)
           [VN s; inv; idx; blank; b]
  = ONormal [VN (crc_from s l); inv; idx'; blank; b'].
Proof.
  induction l as [|x l IH]; intros s inv idx blank b i Hl.
  - exists idx, b. reflexivity.
  - cbn [bytesb forallb] in Hl. apply andb_true_iff in Hl as [Hx Hl]. unfold is_byte in Hx.
    cbn [map range_go set_opt rbind set_slot sset].
    rewrite crc_add_body_step by lia.
    apply IH. exact Hl.
Qed.

Lemma src_crc_add_ok base fuel s l : bytesb l = true ->
  call_with src_pure base fuel "crc.add" [VN s; vbytes l] = Ok [VN (crc_from s l)].
Proof.
  intros Hl. link_free "crc.add"%string src_fn_crc_add.
  destruct (crc_add_loop fe fuel l s (vbytes l) (VN 0) (VN 0) (VN 0) 0 Hl) as (idx' & b' & E).
  unfold run_fn.
  change (f_body src_fn_crc_add) with
    (SSeq (SSet (LVar 2) (EN 0)) (SSeq (SRange None (Some 4%nat) (EVar 1) crc_add_loop_body) (SReturn ENil))).
  cbn [f_nparams f_zeros f_outs f_results src_fn_crc_add]. gl_step.
  unfold vbytes in *. rewrite E. reflexivity.
Qed.

Lemma src_uint16ToBytes_ok base fuel e v :
  call_with src_pure base fuel "uint16ToBytes" [VN (endian_sel e); VN v] = Ok [vbytes (u16_to_bytes e v)].
Proof. link_free "uint16ToBytes"%string src_fn_uint16ToBytes. destruct e; gl_eval; reflexivity. Qed.

Lemma src_bytesToUint16_ok base fuel e l :
  call_with src_pure base fuel "bytesToUint16" [VN (endian_sel e); vbytes l] =
  match bytes_to_u16 e l with Some v => Ok [VN v] | None => Panic end.
Proof.
  link_free "bytesToUint16"%string src_fn_bytesToUint16.
  destruct e; destruct l as [|a [|b t]]; gl_eval; reflexivity.
Qed.

Lemma src_crc_value_ok base fuel s :
  call_with src_pure base fuel "crc.value" [VN s] = Ok [VN s; vbytes (crc_value s)].
Proof.
  link_step "crc.value"%string src_fn_crc_value. unfold run_fn, src_fn_crc_value. gl_step.
  callee "crc.value"%string "uint16ToBytes"%string src_fn_uint16ToBytes.
  rewrite (src_uint16ToBytes_ok base fuel LittleE). gl_step.
  unfold crc_value, le16, u16_to_bytes, byte_of.
  change (2 ^ (8 * 0)) with 1. change (2 ^ (8 * 1)) with 256.
  rewrite N.div_1_r. reflexivity.
Qed.

Lemma src_crc_isEqual_ok base fuel s lo hi :
  call_with src_pure base fuel "crc.isEqual" [VN s; VN lo; VN hi] = Ok [VN s; VB (crc_is_equal s lo hi)].
Proof.
  link_step "crc.isEqual"%string src_fn_crc_isEqual. unfold run_fn, src_fn_crc_isEqual. gl_step.
  callee "crc.isEqual"%string "bytesToUint16"%string src_fn_bytesToUint16.
  change (VL [VN lo; VN hi]) with (vbytes [lo; hi]). change (VN 2) with (VN (endian_sel LittleE)).
  rewrite src_bytesToUint16_ok. reflexivity.
Qed.

(* the checksum of a whole frame body, as the transports compute it:
   init; add(body); value() *)
Lemma src_crc_of_body base fuel l : bytesb l = true ->
  exists s0,
    call_with src_pure base fuel "crc.init" [VN 0] = Ok [VN s0] /\
    exists s1, call_with src_pure base fuel "crc.add" [VN s0; vbytes l] = Ok [VN s1] /\
    call_with src_pure base fuel "crc.value" [VN s1] = Ok [VN s1; vbytes (crc_bytes l)].
Proof.
  intros Hl. exists crc_init. split; [apply src_crc_init_ok|].
  exists (crc16 l). split; [apply src_crc_add_ok; exact Hl|].
  apply src_crc_value_ok.
Qed.
