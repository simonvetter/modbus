(* C05 in time: on a timed peer stream that consists of frames the client has
   to skip (foreign transaction id or protocol id) - however many, however
   timed, whole or cut by the deadline - the MBAP call keeps waiting and
   returns the timeout error exactly at its deadline. *)
From Modbus Require Import Base.Bytes Model.Crc Model.Encoding Model.Wire Model.Client
  Model.Timed Spec.ModbusSpec Spec.ClientSpec Spec.TimedSpec
  Proofs.FramingP Proofs.ClientReqP Proofs.ClientRespP Proofs.TxnP Proofs.CutP Proofs.TimedP.

Lemma call_prefix_waits : forall cfg txn o e frames k,
  op_wf o -> valid_op o = true -> Forall (skippable (u16 (txn + 1))) frames ->
  let r := client_call FMbap cfg txn o e (firstn k (concat frames)) in
  cr_res r = Err (short_err e) /\ cr_rest r = [] /\ cr_txn r = u16 (txn + 1).
Proof.
  intros cfg txn o e frames k Hwf V HF r. subst r.
  destruct (request_valid_ok cfg o Hwf V) as (req & Hreq & _).
  rewrite (call_mbap cfg txn o e _ req Hreq). cbv zeta.
  rewrite (mbap_prefix_waits e (u16 (txn + 1)) frames HF k (S (length (firstn k (concat frames)))) (Nat.lt_succ_diag_r _)).
  cbn [fst snd after_recv cr_res cr_rest cr_txn]. repeat split.
Qed.

Lemma tm_avail_prefix D s : exists n, tm_avail D s = firstn n s.
Proof.
  induction s as [|[t b] s [n IH]]; [exists 0%nat; reflexivity|]. cbn [tm_avail].
  destruct (t <=? D)%Z; [|exists 0%nat; reflexivity].
  exists (S n). cbn [firstn]. f_equal. exact IH.
Qed.

Lemma timed_keeps_waiting : forall k la cfg txn o t0 s frames,
  op_wf o -> valid_op o = true -> (0 <= tm_timeout k)%Z ->
  map snd s = concat frames -> Forall (skippable (u16 (txn + 1))) frames ->
  let r := tm_client_call FMbap k la cfg txn o t0 None s in
  tmc_res r = Err ETimeout /\ tmc_finish r = (t0 + tm_timeout k)%Z.
Proof.
  intros k la cfg txn o t0 s frames Hwf V Ht Hs HF r. subst r.
  destruct (tm_avail_prefix (t0 + tm_timeout k) s) as [n Hav].
  destruct (tm_client_call_ok FMbap k la cfg txn o t0 None s _ (tm_request cfg o Hwf V))
    as (-> & -> & _).
  cbn [tm_xchg].
  (* the untimed loop on what has arrived by the deadline waits; the timed one
     reports the same, at the deadline *)
  pose proof (mbap_exchange_sim (tm_timeout k) t0 None (u16 (txn + 1)) s Ht) as Hsim.
  cbv zeta in Hsim. rewrite Hav, <- firstn_map, Hs in Hsim. cbn [tm_end] in Hsim.
  rewrite (mbap_prefix_waits Stall (u16 (txn + 1)) frames HF n
             (S (length (firstn n (concat frames)))) (Nat.lt_succ_diag_r _)) in Hsim.
  destruct (mbap_exchange_t (tm_timeout k) t0 None (u16 (txn + 1)) s) as [[r t] rest].
  cbn [fst snd]. destruct Hsim as (-> & _ & Hto & _).
  split; [reflexivity|apply Hto; reflexivity].
Qed.
