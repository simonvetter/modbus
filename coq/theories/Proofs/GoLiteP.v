(* Tactics and generic lemmas for reasoning about GoLite programs (Model/GoLite.v):
   symbolic evaluation of straight-line code (gl_eval, gl_eval_sym, gl_step, gl_auto);
   tactics that run a function one statement at a time while the rest of the program
   stays as it is written (gl_seq, gl_guard, gl_break, gl_skip; run_body, gl_stmt,
   gl_return); rules for loops (for_go_*, range_append_loop, chunk_loop). *)
From Coq Require Import List NArith String Lia Bool.
Import ListNotations.
From Modbus Require Import Base.Bytes Model.GoLite.
Open Scope N_scope.

Ltac has_var t := match t with context [?x] => is_var x end.
Ltac closed_tm t := tryif has_var t then fail else idtac.

(* evaluate conversions and comparisons whose operands are closed numerals
   (occurrences with open operands are skipped) *)
Ltac gl_consts :=
  repeat match goal with
  | |- context [N.to_nat ?a] => closed_tm a; let r := eval vm_compute in (N.to_nat a) in change (N.to_nat a) with r
  | |- context [N.of_nat ?a] => closed_tm a; let r := eval vm_compute in (N.of_nat a) in change (N.of_nat a) with r
  | |- context [N.eqb ?a ?b] => closed_tm a; closed_tm b; let r := eval vm_compute in (N.eqb a b) in change (N.eqb a b) with r
  | |- context [N.ltb ?a ?b] => closed_tm a; closed_tm b; let r := eval vm_compute in (N.ltb a b) in change (N.ltb a b) with r
  | |- context [N.leb ?a ?b] => closed_tm a; closed_tm b; let r := eval vm_compute in (N.leb a b) in change (N.leb a b) with r
  end.

(* full symbolic evaluation: everything but N arithmetic is computed; for
   straight-line functions on lists of known shape *)
Ltac gl_cbv :=
  cbv -[N.add N.sub N.mul N.div N.modulo N.pow N.land N.lor N.lxor N.ldiff N.shiftl N.shiftr
        N.eqb N.ltb N.leb N.to_nat N.of_nat].
Ltac gl_eval := repeat (progress (gl_cbv; gl_consts)).

(* symbolic evaluation that also leaves operations on data lists and loops
   alone: for loop bodies over lists of unknown length; to keep further
   constants folded: [with_strategy opaque [c1 c2] gl_eval_sym] *)
Ltac gl_cbv_sym :=
  cbv -[N.add N.sub N.mul N.div N.modulo N.pow N.land N.lor N.lxor N.ldiff N.shiftl N.shiftr
        N.eqb N.ltb N.leb N.to_nat N.of_nat
        map nth_error upd firstn skipn List.length app repeat rev fold_left range_go for_go].
Ltac gl_eval_sym := repeat (progress (gl_cbv_sym; gl_consts)).

(* one step of the interpreter on a statement whose shape is known: unfolds the
   interpreter and the slot operations, nothing of the data *)
Ltac gl_step :=
  cbn [exec resolve resolves eval evals rbind store stores set_slot sset get_slot sget get_slots
       f_nparams f_zeros f_outs f_results f_body List.length Nat.eqb negb app].

(* evaluate as far as the known facts allow: interpreter steps, comparisons
   and arithmetic on closed numerals, boolean connectives *)
Ltac gl_auto :=
  repeat (progress (gl_step;
                    cbn [compare_v compare_n arith wrap negb andb orb ofail Bool.eqb];
                    gl_consts)).

(* the same, also computing list operations on lists of known shape *)
Ltac gl_auto_lists :=
  repeat (progress (gl_step;
                    cbn [compare_v compare_n arith wrap negb andb orb ofail Bool.eqb
                         firstn skipn nth_error map List.length app];
                    gl_consts)).

Lemma wrap_I64_ok x : x < 2 ^ 63 -> wrap I64 x = Ok x.
Proof. intros H. unfold wrap. replace (x <? 2 ^ 63) with true by lia. reflexivity. Qed.

Lemma wrap_U_eq w x : wrap (U w) x = Ok (x mod 2 ^ w).
Proof. reflexivity. Qed.

Lemma wrap_U_ok w x : x < 2 ^ w -> wrap (U w) x = Ok x.
Proof. intros H. rewrite wrap_U_eq, N.mod_small by exact H. reflexivity. Qed.

(* a conversion to a wider unsigned type *)
Lemma mod_pow2_small x k w : x < 2 ^ k -> k <= w -> x mod 2 ^ w = x.
Proof.
  intros Hx Hk. apply N.mod_small. apply N.lt_le_trans with (2 ^ k); [exact Hx|].
  apply N.pow_le_mono_r; [discriminate|exact Hk].
Qed.

Lemma arith_add_U w x y : x + y < 2 ^ w -> arith OAdd (U w) x y = Ok (x + y).
Proof. apply wrap_U_ok. Qed.

Lemma sub_U w x y : y <= x -> x < 2 ^ w -> (x + 2 ^ w - y mod 2 ^ w) mod 2 ^ w = x - y.
Proof.
  intros Hle Hlt. rewrite (N.mod_small y) by lia.
  replace (x + 2 ^ w - y) with (x - y + 1 * 2 ^ w) by lia.
  rewrite N.mod_add by lia. apply N.mod_small. lia.
Qed.

Lemma arith_sub_U w x y : y <= x -> x < 2 ^ w -> arith OSub (U w) x y = Ok (x - y).
Proof. intros Hle Hlt. cbn [arith]. rewrite sub_U by assumption. reflexivity. Qed.

Lemma sbias_small x : x < 2 ^ 63 -> sbias x = x + 2 ^ 63.
Proof. intros H. unfold sbias. apply N.mod_small. change (2 ^ 64) with (2 ^ 63 + 2 ^ 63). lia. Qed.

Lemma cmps_small op x y : x < 2 ^ 63 -> y < 2 ^ 63 -> compare_n op (sbias x) (sbias y) = compare_n op x y.
Proof. intros Hx Hy. rewrite !sbias_small by assumption. destruct op; cbn [compare_n]; lia. Qed.

(* uint32(addr) + uint32(quantity) - 1 > 0xffff, the end-address check of
   client.go and server.go *)
Lemma end_addr_cmp a q : a < 65536 -> q < 65536 -> q <> 0 ->
  (65535 <? ((a mod 2 ^ 32 + q mod 2 ^ 32) mod 2 ^ 32 + 2 ^ 32 - 1 mod 2 ^ 32) mod 2 ^ 32) =
  (65535 <? a + q - 1).
Proof. intros Ha Hq Hn. change (2 ^ 32) with 4294967296. lia. Qed.

Definition fn_ret (f : fn) (o : outcome) : res (list val) :=
  match o with
  | ONormal st | OReturn st None =>
      rbind (get_slots st (f_outs f)) (fun os =>
        rbind (get_slots st (f_results f)) (fun rs => Ok (os ++ rs)))
  | OReturn st (Some vs) =>
      rbind (get_slots st (f_outs f)) (fun os => Ok (os ++ vs))
  | OFail Panic => Panic
  | OFail OutOfFuel => OutOfFuel
  | OFail _ => Stuck
  | OBreak _ | OContinue _ => Stuck
  end.

Definition abrupt (o : outcome) : Prop := match o with ONormal _ => False | _ => True end.

Section Exec.
  Variables (ge : genv) (fe : fenv) (fuel : nat).

  Lemma run_fn_exec f args : List.length args = f_nparams f ->
    run_fn ge fe fuel f args = fn_ret f (exec ge fe fuel (args ++ f_zeros f) (f_body f)).
  Proof. intros H. unfold run_fn. rewrite H, Nat.eqb_refl. reflexivity. Qed.

  (* Sequence and conditional each come as a rule to rewrite with ([seq_normal],
     [exec_if_eval]: the first statement is run on its own, the rest of the
     program stays as it is written) and as a rule to apply when the outcome
     of the whole is the goal ([exec_seq_n], [exec_if_b]). *)
  Lemma seq_normal st a b st1 :
    exec ge fe fuel st a = ONormal st1 -> exec ge fe fuel st (SSeq a b) = exec ge fe fuel st1 b.
  Proof. intros H. cbn [exec]. rewrite H. reflexivity. Qed.

  Lemma exec_seq_n st a b st1 o :
    exec ge fe fuel st a = ONormal st1 -> exec ge fe fuel st1 b = o -> exec ge fe fuel st (SSeq a b) = o.
  Proof. intros H1 H2. rewrite (seq_normal _ _ _ _ H1). exact H2. Qed.

  Lemma seq_abrupt st a b o :
    exec ge fe fuel st a = o -> abrupt o -> exec ge fe fuel st (SSeq a b) = o.
  Proof. intros H Ho. cbn [exec]. rewrite H. destruct o; easy. Qed.

  Lemma seq_assoc st a b c :
    exec ge fe fuel st (SSeq (SSeq a b) c) = exec ge fe fuel st (SSeq a (SSeq b c)).
  Proof. cbn [exec]. destruct (exec ge fe fuel st a); reflexivity. Qed.

  (* if c { ...; break } or if c { ...; return }, then the rest: the body of
     the guard leaves the sequence *)
  Lemma seq_guard st c a b v o :
    eval ge fe st c = Ok (VB v) -> exec ge fe fuel st a = o -> abrupt o ->
    exec ge fe fuel st (SSeq (SIf c a SSkip) b) = if v then o else exec ge fe fuel st b.
  Proof. intros Hc Ha Ho. cbn [exec]. rewrite Hc. destruct v; [rewrite Ha; destruct o; easy|reflexivity]. Qed.

  Lemma seq_guard_yes st c a b o :
    eval ge fe st c = Ok (VB true) -> exec ge fe fuel st a = o -> abrupt o ->
    exec ge fe fuel st (SSeq (SIf c a SSkip) b) = o.
  Proof. apply (seq_guard st c a b true). Qed.

  Lemma seq_guard_no st c a b :
    eval ge fe st c = Ok (VB false) ->
    exec ge fe fuel st (SSeq (SIf c a SSkip) b) = exec ge fe fuel st b.
  Proof. intros Hc. cbn [exec]. rewrite Hc. reflexivity. Qed.

  Lemma seq_if st c a b r v :
    eval ge fe st c = Ok (VB v) ->
    exec ge fe fuel st (SSeq (SIf c a b) r) = exec ge fe fuel st (SSeq (if v then a else b) r).
  Proof. intros Hc. cbn [exec]. rewrite Hc. destruct v; reflexivity. Qed.

  Lemma eval_orelse st a b x y :
    eval ge fe st a = Ok (VB x) -> eval ge fe st b = Ok (VB y) ->
    eval ge fe st (EOrElse a b) = Ok (VB (x || y)).
  Proof. intros Ha Hb. cbn [eval]. rewrite Ha. destruct x; cbn [rbind orb]; [|rewrite Hb]; reflexivity. Qed.

  Lemma eval_andalso st a b x y :
    eval ge fe st a = Ok (VB x) -> eval ge fe st b = Ok (VB y) ->
    eval ge fe st (EAndAlso a b) = Ok (VB (x && y)).
  Proof. intros Ha Hb. cbn [eval]. rewrite Ha. destruct x; cbn [rbind andb]; [rewrite Hb|]; reflexivity. Qed.

  Lemma exec_set st x e v st1 :
    eval ge fe st e = Ok v -> set_slot st x v = Ok st1 -> exec ge fe fuel st (SSet (LVar x) e) = ONormal st1.
  Proof. intros H1 H2. cbn [exec resolve rbind]. rewrite H1. cbn [rbind store]. rewrite H2. reflexivity. Qed.

  Lemma exec_if_eval st c a b v :
    eval ge fe st c = Ok (VB v) ->
    exec ge fe fuel st (SIf c a b) = if v then exec ge fe fuel st a else exec ge fe fuel st b.
  Proof. intros H. cbn [exec]. rewrite H. destruct v; reflexivity. Qed.

  Lemma exec_if_b st c a b bb o :
    eval ge fe st c = Ok (VB bb) -> exec ge fe fuel st (if bb then a else b) = o ->
    exec ge fe fuel st (SIf c a b) = o.
  Proof. intros H1 H2. rewrite (exec_if_eval _ _ _ _ _ H1). destruct bb; exact H2. Qed.

  Lemma exec_if_true st c a b o :
    eval ge fe st c = Ok (VB true) -> exec ge fe fuel st a = o -> exec ge fe fuel st (SIf c a b) = o.
  Proof. apply (exec_if_b st c a b true). Qed.

  Lemma exec_if_false st c a b o :
    eval ge fe st c = Ok (VB false) -> exec ge fe fuel st b = o -> exec ge fe fuel st (SIf c a b) = o.
  Proof. apply (exec_if_b st c a b false). Qed.

  Lemma exec_if_join st c a b v sa sb :
    eval ge fe st c = Ok (VB v) -> exec ge fe fuel st a = ONormal sa -> exec ge fe fuel st b = ONormal sb ->
    exec ge fe fuel st (SIf c a b) = ONormal (if v then sa else sb).
  Proof. intros Hc Ha Hb. rewrite (exec_if_eval _ _ _ _ _ Hc). destruct v; assumption. Qed.

  Lemma evals_cons st e es v vs :
    eval ge fe st e = Ok v -> evals ge fe st es = Ok vs -> evals ge fe st (ECons e es) = Ok (v :: vs).
  Proof.
    intros He Hes.
    change (rbind (eval ge fe st e) (fun v => rbind (evals ge fe st es) (fun vs => Ok (v :: vs))) = Ok (v :: vs)).
    rewrite He, Hes. reflexivity.
  Qed.

  Lemma exec_scall st f args dests vs outs st1 :
    evals ge fe st args = Ok vs -> fe f vs = Ok outs ->
    rbind (resolves ge fe st dests) (fun rs => stores st rs outs) = Ok st1 ->
    exec ge fe fuel st (SCall f args dests) = ONormal st1.
  Proof.
    intros Ha Hf Hs. cbn [exec]. destruct (resolves ge fe st dests) as [rs| | |]; try discriminate Hs.
    cbn [rbind] in *. rewrite Ha. cbn [rbind]. rewrite Hf. cbn [rbind]. rewrite Hs. reflexivity.
  Qed.

  Lemma exec_setmulti st ls es vs st1 :
    evals ge fe st es = Ok vs -> rbind (resolves ge fe st ls) (fun rs => stores st rs vs) = Ok st1 ->
    exec ge fe fuel st (SSetMulti ls es) = ONormal st1.
  Proof.
    intros He Hs. cbn [exec]. destruct (resolves ge fe st ls) as [rs| | |]; try discriminate Hs.
    cbn [rbind] in *. rewrite He. cbn [rbind]. rewrite Hs. reflexivity.
  Qed.

  Lemma exec_for st c post body :
    exec ge fe fuel st (SFor c post body) =
    for_go fuel (fun st' => eval ge fe st' c) (fun st' => exec ge fe fuel st' body)
           (fun st' => exec ge fe fuel st' post) st.
  Proof. reflexivity. Qed.
End Exec.

(* gl_auto_lists, also on stores into a list of known shape *)
Ltac gl_run := repeat (progress (gl_auto_lists; cbn [upd])).

(* int(x) and int arithmetic that do not overflow: the bound is left to lia
   (list operations and closed comparisons are computed on the way, so that
   every conversion comes into view) *)
Ltac gl_wrap :=
  repeat (progress (gl_step; cbn [arith firstn skipn nth_error map List.length app]; gl_consts;
                    rewrite ?wrap_I64_ok by lia)).

(* Statement by statement. [gl_seq]: run the first statement. A guard whose
   body breaks or returns: [gl_guard] leaves the case distinction on its
   condition, [gl_break] and [gl_skip] are for a condition that evaluates to
   true and to false. With [using E], the equation E (a decided comparison, the
   specification of a callee) is used in the evaluation. *)
Ltac gl_seq := erewrite seq_normal by (gl_wrap; gl_run; reflexivity).
Ltac gl_guard := erewrite seq_guard by first [exact I | gl_wrap; gl_run; reflexivity].
Ltac gl_break := erewrite seq_guard_yes by first [exact I | gl_run; reflexivity].
Ltac gl_skip := erewrite seq_guard_no by (gl_run; reflexivity).
Tactic Notation "gl_seq" "using" constr(E) :=
  erewrite seq_normal by (gl_wrap; gl_run; rewrite ?E; gl_run; reflexivity).
Tactic Notation "gl_break" "using" constr(E) :=
  erewrite seq_guard_yes by first [exact I | gl_run; rewrite ?E; gl_run; reflexivity].
Tactic Notation "gl_skip" "using" constr(E) := erewrite seq_guard_no by (gl_run; rewrite ?E; gl_run; reflexivity).

(* The same for functions that compute with lengths and offsets.
   [run_body] turns a call into the run of the body on the initial state; what
   the function returns from the outcome stays folded, as [ret].
   [gl_stmt] runs the first statement, [gl_return] a guard whose body returns: the
   case distinction on its condition is left ([guard_cases]), [a && b] and
   [a || b] evaluated through their operands. Arithmetic is taken as not
   wrapping, signed comparisons as being on small numbers: the bounds are left
   to lia. *)
Ltac run_body :=
  rewrite run_fn_exec by reflexivity;
  match goal with |- fn_ret ?f _ = _ => set (ret := fn_ret f); unfold f; cbn [f_body f_zeros app] end.
Ltac gl_arith :=
  repeat (progress (gl_step; cbn [compare_v negb andb orb ofail Bool.eqb firstn skipn nth_error map List.length app];
                    rewrite ?map_length, ?repeat_length, ?N2Nat.id;
                    rewrite ?arith_add_U, ?arith_sub_U, ?wrap_U_ok, ?wrap_I64_ok, ?cmps_small by lia;
                    rewrite ?N.sub_0_r; gl_consts)).
Ltac gl_close := gl_arith; gl_auto; rewrite ?map_length; reflexivity.
Ltac gl_cond := repeat first [apply eval_andalso | apply eval_orelse]; gl_close.
Ltac gl_stmt := erewrite seq_normal by gl_close.
Ltac gl_return := erewrite seq_guard by first [exact I | gl_cond]; cbv iota.
Ltac guard_cases E := match goal with |- context [if ?c then OReturn _ _ else _] => destruct c eqn:E end.

(* a method that hands its arguments to one function of the environment and
   returns what it gets; [H] says what that function answers *)
Ltac run_one_call H :=
  match goal with |- run_fn _ _ _ ?f _ = _ => unfold run_fn, f end; gl_step; rewrite H; gl_step; reflexivity.

Lemma for_go_exit n condf bodyf postf st :
  condf st = Ok (VB false) -> for_go (S n) condf bodyf postf st = ONormal st.
Proof. intros H. cbn [for_go]. rewrite H. reflexivity. Qed.

Lemma for_go_step n condf bodyf postf st st1 st2 :
  condf st = Ok (VB true) -> bodyf st = ONormal st1 -> postf st1 = ONormal st2 ->
  for_go (S n) condf bodyf postf st = for_go n condf bodyf postf st2.
Proof. intros H1 H2 H3. cbn [for_go]. rewrite H1, H2, H3. reflexivity. Qed.

Lemma for_go_body_continue n condf bodyf postf st st1 st2 :
  condf st = Ok (VB true) -> bodyf st = OContinue st1 -> postf st1 = ONormal st2 ->
  for_go (S n) condf bodyf postf st = for_go n condf bodyf postf st2.
Proof. intros H1 H2 H3. cbn [for_go]. rewrite H1, H2, H3. reflexivity. Qed.

Lemma for_go_body_break n condf bodyf postf st st1 :
  condf st = Ok (VB true) -> bodyf st = OBreak st1 ->
  for_go (S n) condf bodyf postf st = ONormal st1.
Proof. intros H1 H2. cbn [for_go]. rewrite H1, H2. reflexivity. Qed.

Lemma for_go_body_return n condf bodyf postf st st1 vs :
  condf st = Ok (VB true) -> bodyf st = OReturn st1 vs ->
  for_go (S n) condf bodyf postf st = OReturn st1 vs.
Proof. intros H1 H2. cbn [for_go]. rewrite H1, H2. reflexivity. Qed.

Lemma for_go_body_fail n condf bodyf postf st r :
  condf st = Ok (VB true) -> bodyf st = OFail r ->
  for_go (S n) condf bodyf postf st = OFail r.
Proof. intros H1 H2. cbn [for_go]. rewrite H1, H2. reflexivity. Qed.

Lemma range_go_step bodyf xi xv i v l st st2 st3 :
  rbind (set_opt st xi (VN i)) (fun st1 => set_opt st1 xv v) = Ok st2 -> bodyf st2 = ONormal st3 ->
  range_go bodyf xi xv i (v :: l) st = range_go bodyf xi xv (i + 1) l st3.
Proof. intros H1 H2. cbn [range_go]. rewrite H1, H2. reflexivity. Qed.

(* for _, v := range vs { acc = append(acc, g(v)...) }: [mk acc x] is the
   state with the accumulator and the slot [xv] of the loop variable *)
Lemma range_append_loop (bodyf : state -> outcome) xv (mk : list N -> val -> state) (g : N -> list N) :
  (forall acc x v, set_slot (mk acc x) xv v = Ok (mk acc v)) ->
  (forall acc v, bodyf (mk acc (VN v)) = ONormal (mk (acc ++ g v)%list (VN v))) ->
  forall vs acc i x, exists x',
  range_go bodyf None (Some xv) i (map VN vs) (mk acc x) = ONormal (mk (acc ++ flat_map g vs)%list x').
Proof.
  intros Hset Hbody. induction vs as [|v vs IH]; intros acc i x.
  - exists x. cbn [map range_go flat_map]. rewrite app_nil_r. reflexivity.
  - destruct (IH (acc ++ g v)%list (i + 1) (VN v)) as (x' & E). exists x'.
    cbn [map range_go set_opt rbind]. rewrite Hset, Hbody, E.
    cbn [flat_map]. rewrite app_assoc. reflexivity.
Qed.

Lemma sget_app (l r : list val) k : sget (l ++ r) (List.length l + k) = sget r k.
Proof. induction l as [|x l IH]; [reflexivity|exact IH]. Qed.

Lemma sset_app (l r : list val) k v :
  sset (l ++ r) (List.length l + k) v = option_map (app l) (sset r k v).
Proof.
  induction l as [|x l IH]; cbn [app List.length Nat.add sset].
  - destruct (sset r k v); reflexivity.
  - rewrite IH. destruct (sset r k v); reflexivity.
Qed.

Lemma to_nat_lenN {A} (l : list A) : N.to_nat (lenN l) = List.length l.
Proof. unfold lenN. lia. Qed.

Lemma skipn_map_app {A B} (f : A -> B) (pre rest : list A) :
  skipn (List.length pre) (map f (pre ++ rest)) = map f rest.
Proof.
  rewrite map_app. rewrite skipn_app. rewrite map_length, Nat.sub_diag.
  rewrite skipn_all2 by (rewrite map_length; lia). reflexivity.
Qed.

Lemma nth_error_map_app {A B} (f : A -> B) (pre rest : list A) k :
  nth_error (map f (pre ++ rest)) (List.length pre + k) = nth_error (map f rest) k.
Proof.
  rewrite map_app. rewrite nth_error_app2 by (rewrite map_length; lia).
  rewrite map_length. f_equal. lia.
Qed.

Lemma firstn_into_middle {A} (pre body rest : list A) k : (k <= List.length body)%nat ->
  firstn (List.length pre + k) (pre ++ body ++ rest) = (pre ++ firstn k body)%list.
Proof. intros H. rewrite firstn_app_2, firstn_app_le by exact H. reflexivity. Qed.

Lemma nth_error_middle {A} (pre body rest : list A) k d : (k < List.length body)%nat ->
  nth_error (pre ++ body ++ rest) (List.length pre + k) = Some (nth k body d).
Proof.
  intros H. rewrite nth_error_app2 by lia. replace (List.length pre + k - List.length pre)%nat with k by lia.
  rewrite nth_error_app1 by exact H. apply nth_error_nth'. exact H.
Qed.

Lemma lenN_app {A} (a b : list A) : lenN (a ++ b) = lenN a + lenN b.
Proof. unfold lenN. rewrite app_length. lia. Qed.

Lemma lenN_map {A B} (f : A -> B) l : lenN (map f l) = lenN l.
Proof. unfold lenN. rewrite map_length. reflexivity. Qed.

Lemma vals_to_ns_map l : vals_to_ns (map VN l) = Some l.
Proof. induction l as [|x l IH]; cbn [map vals_to_ns]; [reflexivity|]. rewrite IH. reflexivity. Qed.

Lemma upd_map {A B} (f : A -> B) l k v :
  upd (map f l) k (f v) = option_map (map f) (upd l k v).
Proof.
  revert k; induction l as [|h t IH]; intros [|k]; cbn [map upd option_map]; try reflexivity.
  rewrite IH. destruct (upd t k v); reflexivity.
Qed.

Lemma upd_some {A} (l : list A) k v : (k < List.length l)%nat -> exists l', upd l k v = Some l'.
Proof.
  revert k; induction l as [|h t IH]; intros k Hk; [cbn in Hk; lia|].
  destruct k as [|k]; cbn [upd]; [eexists; reflexivity|].
  destruct (IH k) as [t' E]; [cbn in Hk; lia|]. rewrite E. eexists; reflexivity.
Qed.

Lemma upd_spec {A} (l : list A) : forall l' k v, upd l k v = Some l' ->
  List.length l' = List.length l /\
  forall n, nth_error l' n = if Nat.eqb n k then Some v else nth_error l n.
Proof.
  induction l as [|h t IH]; intros l' k v H; [destruct k; discriminate|].
  destruct k as [|k]; cbn [upd] in H.
  - injection H as <-. split; [reflexivity|]. intros [|n]; reflexivity.
  - destruct (upd t k v) as [t'|] eqn:E; [|discriminate]. injection H as <-.
    destruct (IH _ _ _ E) as [Hl Hn]. split; [cbn [List.length]; lia|].
    intros [|n]; [reflexivity|]. cbn [nth_error Nat.eqb]. apply Hn.
Qed.

Lemma group_cases {A} k (l : list A) : (0 < k)%nat ->
  l = [] \/ (0 < List.length l < k)%nat \/ exists c t, l = c ++ t /\ List.length c = k.
Proof.
  intros Hk. destruct l as [|x l]; [left; reflexivity|right].
  destruct (Nat.lt_ge_cases (List.length (x :: l)) k) as [H|H].
  - left. cbn [List.length] in *. lia.
  - right. exists (firstn k (x :: l)), (skipn k (x :: l)).
    split; [symmetry; apply firstn_skipn|apply firstn_length_le; exact H].
Qed.

(* A loop [for i := 0; i < len(in); i += k { out = append(out, dec(in[i:i+k])) }]
   against a model decoder [decs] that takes groups of [k] from the front and
   fails on a shorter remainder. [mk in out u i] is the state: [u] stands for
   whatever scratch slots the body leaves changed. The invariant: [in] is
   [pre ++ rest] with [i = |pre|], and [out] holds the values of [pre].
   The bound 2^62 on the length keeps [i + k], an int addition that is checked
   for overflow, below 2^63; any bound that does so for the [k] at hand would
   do, and a Go slice is shorter anyway. *)
Section ChunkLoop.
  Variables (k : nat) (dec : list N -> N) (decs : list N -> option (list N)).
  Variable mk : list N -> list N -> val -> N -> state.
  Variables (condf : state -> res val) (bodyf postf : state -> outcome).
  Hypothesis Hk : (0 < k)%nat.
  Hypothesis decs_nil : decs [] = Some [].
  Hypothesis decs_short : forall r, (0 < List.length r < k)%nat -> decs r = None.
  Hypothesis decs_group : forall c t, List.length c = k ->
    decs (c ++ t) = option_map (cons (dec c)) (decs t).
  Hypothesis Hcond : forall l a u i, condf (mk l a u i) = Ok (VB (i <? lenN l)).
  Hypothesis Hpost : forall l a u i, i + N.of_nat k < 2 ^ 63 ->
    postf (mk l a u i) = ONormal (mk l a u (i + N.of_nat k)).
  Hypothesis Hbody : forall pre c t a u, List.length c = k -> lenN (pre ++ c ++ t) < 2 ^ 62 ->
    exists u', bodyf (mk (pre ++ c ++ t) a u (lenN pre)) =
               ONormal (mk (pre ++ c ++ t) (a ++ [dec c]) u' (lenN pre)).
  Hypothesis Hshort : forall pre r a u, (0 < List.length r < k)%nat -> lenN (pre ++ r) < 2 ^ 62 ->
    bodyf (mk (pre ++ r) a u (lenN pre)) = OFail Panic.

  Lemma chunk_loop : forall n rest pre a u,
    lenN (pre ++ rest) < 2 ^ 62 -> (List.length rest < n)%nat ->
    exists u',
      for_go n condf bodyf postf (mk (pre ++ rest) a u (lenN pre)) =
      match decs rest with
      | Some r => ONormal (mk (pre ++ rest) (a ++ r) u' (lenN (pre ++ rest)))
      | None => OFail Panic
      end.
  Proof.
    induction n as [|n IH]; intros rest pre a u Hlen Hn; [lia|].
    destruct (group_cases k rest Hk) as [->|[Hr|(c & t & -> & Ec)]].
    - exists u. rewrite decs_nil, !app_nil_r. apply for_go_exit.
      rewrite Hcond, N.ltb_irrefl. reflexivity.
    - exists u. rewrite decs_short by exact Hr.
      apply for_go_body_fail; [|apply Hshort; assumption].
      rewrite Hcond, lenN_app. unfold lenN. replace (_ <? _) with true by lia. reflexivity.
    - assert (Hc : condf (mk (pre ++ c ++ t) a u (lenN pre)) = Ok (VB true)).
      { rewrite Hcond, !lenN_app. unfold lenN. replace (_ <? _) with true by lia. reflexivity. }
      destruct (Hbody pre c t a u Ec Hlen) as [u1 Hb].
      rewrite !lenN_app in Hlen. rewrite app_length in Hn. unfold lenN in Hlen.
      destruct (IH t (pre ++ c) (a ++ [dec c]) u1) as [u' E];
        [rewrite <- app_assoc, !lenN_app; unfold lenN; lia|lia|].
      assert (Hp : lenN pre + N.of_nat k < 2 ^ 63) by (unfold lenN; lia).
      exists u'. rewrite (for_go_step _ _ _ _ _ _ _ Hc Hb (Hpost _ _ _ _ Hp)).
      replace (lenN pre + N.of_nat k) with (lenN (pre ++ c)) by (rewrite lenN_app; unfold lenN; lia).
      rewrite (app_assoc pre c t), E, decs_group by exact Ec.
      destruct (decs t) as [r|]; [|reflexivity].
      cbn [option_map]. rewrite <- !app_assoc. reflexivity.
  Qed.
End ChunkLoop.
