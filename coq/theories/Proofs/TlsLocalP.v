(* Model/TlsLocal.v (property C14, the local credential's validity period):
   the configuration the rest of the model sees does not change with the
   validity period of the local key pair. Everything else about
   tls_server_conn_l / tls_client_tx_l is Proofs/TlsPolicyP.v at the oracle
   of the instant `now`, to which they unfold. *)
From Modbus Require Import Base.Bytes Model.TlsPolicy Model.TlsLocal.

Lemma tsl_conf_set_window c w : tsl_conf (tsl_set_window c w) = tsl_conf c.
Proof.
  unfold tsl_conf, tsl_set_window. cbn [tsl_url tsl_timeout tsl_max_clients tsl_own tsl_cas].
  destruct (tsl_own c) as [o|]; reflexivity.
Qed.

Lemma tcl_conf_set_window c w : tcl_conf (tcl_set_window c w) = tcl_conf c.
Proof.
  unfold tcl_conf, tcl_set_window. cbn [tcl_url_l tcl_timeout_l tcl_own tcl_roots_l].
  destruct (tcl_own c) as [o|]; reflexivity.
Qed.
