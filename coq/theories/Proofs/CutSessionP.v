(* C13, a reply cut in the middle of a session (Model/CutSession.v): whatever
   was exchanged before on the connection, the call whose reply is cut is an
   error and put exactly one request frame on the wire - the one connection of
   the handle; Close; Open then gives a second connection carrying exactly the
   next request. *)
From Modbus Require Import Base.Bytes Model.Crc Model.Encoding Model.Wire Model.Client
  Model.Handle Model.TxnHistory Model.CutSession
  Spec.ModbusSpec Spec.ClientSpec Spec.CutSpec Spec.TxnSpec Spec.CutSessionSpec
  Proofs.FramingP Proofs.ClientReqP Proofs.ClientRespP Proofs.CutP Proofs.TxnP.

Lemma reply_frame_len fr t res : length (spec_frame fr t res) = reply_len fr res.
Proof.
  destruct fr; cbn [spec_frame reply_len]; cbv zeta; unfold be16;
    repeat rewrite app_length; cbn [length]; lia.
Qed.

Lemma device_frame_spec fr cfg o res vs t :
  cfg_wf cfg -> bytesb (p_payload res) = true -> answers cfg o res vs ->
  device_frame fr t res = spec_frame fr t res.
Proof.
  intros Hcfg Hb (Hu & Hf & _). destruct fr; cbn [device_frame].
  - apply mbap_frame_spec.
  - change (spec_frame FRtu t res) with (spec_frame FRtu 0 res). apply rtu_frame_spec.
    + rewrite Hu. exact Hcfg.
    + rewrite Hf. pose proof (spec_fc_byte o). lia.
    + exact Hb.
Qed.

Lemma cs_count_lt fr txn : txn < 65536 -> cs_count fr txn < 65536.
Proof. intros H. destruct fr; cbn [cs_count]; [apply u16_lt|exact H]. Qed.

Lemma cs_count_n_lt fr n : forall txn, txn < 65536 -> cs_count_n fr txn n < 65536.
Proof.
  induction n as [|n IH]; intros txn H; cbn [cs_count_n]; [exact H|].
  apply IH, cs_count_lt, H.
Qed.

Lemma hd_call_open fr cfg h o e s :
  cfg_wf cfg -> op_wf o -> valid_op o = true ->
  hd_closed h = false -> hd_unread h = [] -> hd_txn h < 65536 ->
  let r := client_call fr cfg (hd_txn h) o e s in
  hd_call fr cfg h o e s = (r, mkhd (cs_count fr (hd_txn h)) (cr_rest r) false) /\
  cr_writes r = [spec_frame fr (u16 (hd_txn h + 1)) (spec_pdu cfg o)].
Proof.
  intros Hcfg Hwf V Hc Hu Ht r. unfold hd_call. rewrite Hc, Hu. cbn [app]. fold r. split.
  - f_equal. f_equal. unfold r. rewrite (call_txn fr cfg (hd_txn h) o e s Hwf), V.
    destruct fr; reflexivity.
  - destruct (client_transmit fr cfg (hd_txn h) o e s Hwf Hcfg Ht) as [Hw _]. exact (Hw V).
Qed.

Lemma call_answered fr cfg h c vs e :
  cfg_wf cfg -> cs_valid cfg c vs ->
  hd_closed h = false -> hd_unread h = [] -> hd_txn h < 65536 ->
  let x := hd_call fr cfg h (csc_op c) e (cs_answer fr h c) in
  cr_res (fst x) = Ok vs /\
  cr_writes (fst x) = [spec_frame fr (u16 (hd_txn h + 1)) (spec_pdu cfg (csc_op c))] /\
  snd x = mkhd (cs_count fr (hd_txn h)) [] false.
Proof.
  intros Hcfg (Hwf & V & Hb & Hans) Hc Hu Ht x. subst x. unfold cs_answer.
  rewrite (device_frame_spec fr cfg _ _ vs _ Hcfg Hb Hans).
  destruct (hd_call_open fr cfg h (csc_op c) e (spec_frame fr (u16 (hd_txn h + 1)) (csc_reply c))
              Hcfg Hwf V Hc Hu Ht) as [-> Hw]. cbn [fst snd].
  pose proof (client_complete_gen fr cfg (hd_txn h) (csc_op c) e (csc_reply c) vs [] []
                Hwf Hcfg V Hb Hans (no_frames_side fr _ Ht)) as Hok.
  cbv zeta in Hok. cbn [concat app] in Hok. rewrite app_nil_r in Hok.
  destruct Hok as [H1 H2]. rewrite H2. auto.
Qed.

Lemma call_cut fr cfg h c vs e k :
  cfg_wf cfg -> cs_valid cfg c vs ->
  hd_closed h = false -> hd_unread h = [] -> hd_txn h < 65536 ->
  (k < reply_len fr (csc_reply c))%nat ->
  let x := hd_call fr cfg h (csc_op c) e (firstn k (cs_answer fr h c)) in
  cr_res (fst x) = Err (cut_err_class fr e k) /\
  cr_writes (fst x) = [spec_frame fr (u16 (hd_txn h + 1)) (spec_pdu cfg (csc_op c))] /\
  snd x = mkhd (cs_count fr (hd_txn h)) [] false.
Proof.
  intros Hcfg (Hwf & V & Hb & Hans) Hc Hu Ht Hk x. subst x. unfold cs_answer.
  rewrite (device_frame_spec fr cfg _ _ vs _ Hcfg Hb Hans).
  destruct (hd_call_open fr cfg h (csc_op c) e (firstn k (spec_frame fr (u16 (hd_txn h + 1)) (csc_reply c)))
              Hcfg Hwf V Hc Hu Ht) as [-> Hw]. cbn [fst snd].
  rewrite <- (reply_frame_len fr (u16 (hd_txn h + 1))) in Hk.
  pose proof (client_cut_gen fr cfg (hd_txn h) (csc_op c) e (csc_reply c) vs [] k
                Hwf Hcfg V Hb Hans (no_frames_side fr _ Ht)) as Hcut.
  cbn [concat app] in Hcut. destruct (Hcut Hk) as [H1 H2]. rewrite H2. auto.
Qed.

(* the handle is left in the state call_cut starts from *)
Lemma earlier_ok fr cfg : forall pre vss h,
  cfg_wf cfg -> Forall2 (cs_valid cfg) pre vss ->
  hd_closed h = false -> hd_unread h = [] -> hd_txn h < 65536 ->
  let x := cs_earlier fr cfg h pre in
  map cr_res (fst x) = map (@Ok values) vss /\
  concat (map cr_writes (fst x)) = cs_frames fr cfg (hd_txn h) (map csc_op pre) /\
  snd x = mkhd (cs_count_n fr (hd_txn h) (length pre)) [] false.
Proof.
  induction pre as [|c t IH]; intros vss h Hcfg HF Hc Hu Ht.
  - inversion HF; subst. cbn [cs_earlier fst snd map concat cs_frames length cs_count_n].
    repeat split. destruct h as [a b d]. cbn in Hc, Hu. subst. reflexivity.
  - inversion HF as [|? vs ? vst Hv HFt]; subst.
    cbn [cs_earlier].
    destruct (call_answered fr cfg h c vs Stall Hcfg Hv Hc Hu Ht) as (H1 & H2 & H3).
    destruct (hd_call fr cfg h (csc_op c) Stall (cs_answer fr h c)) as [r h1].
    cbn [fst snd] in H1, H2, H3. subst h1.
    specialize (IH vst (mkhd (cs_count fr (hd_txn h)) [] false) Hcfg HFt eq_refl eq_refl
                  (cs_count_lt fr _ Ht)).
    cbv zeta in IH. cbn [hd_txn] in IH.
    destruct (cs_earlier fr cfg (mkhd (cs_count fr (hd_txn h)) [] false) t) as [rs h2].
    cbn [fst snd] in IH. destruct IH as (I1 & I2 & I3).
    cbn [fst snd map concat cs_frames length cs_count_n].
    rewrite H1, I1, H2, I2, I3. cbn [app]. repeat split.
Qed.

Lemma cs_frames_app fr cfg : forall a b txn,
  cs_frames fr cfg txn (a ++ b) =
  cs_frames fr cfg txn a ++ cs_frames fr cfg (cs_count_n fr txn (length a)) b.
Proof.
  induction a as [|o t IH]; intros b txn; [reflexivity|].
  cbn [app cs_frames length cs_count_n]. rewrite IH. reflexivity.
Qed.

Lemma cs_count_n_mbap n : forall txn, txn < 65536 ->
  cs_count_n FMbap txn n = (txn + N.of_nat n) mod 65536.
Proof.
  induction n as [|n IH]; intros txn Ht; cbn [cs_count_n cs_count].
  - lia.
  - rewrite IH by apply u16_lt. unfold u16. lia.
Qed.

Lemma cs_count_n_rtu n : forall txn, cs_count_n FRtu txn n = txn.
Proof. induction n as [|n IH]; intros txn; cbn [cs_count_n cs_count]; [reflexivity|apply IH]. Qed.

Section Session.
  Variables (fr : framing) (cfg : ccfg).
  Variables (pre : list cs_call) (vss : list values) (cut : cs_call) (vsc : values)
            (fresh : cs_call) (vsf : values).
  Hypothesis Hcfg : cfg_wf cfg.
  Hypothesis Hpre : Forall2 (cs_valid cfg) pre vss.
  Hypothesis Hcut : cs_valid cfg cut vsc.
  Hypothesis Hfresh : cs_valid cfg fresh vsf.

  (* what is common to the cut and the complete session: everything but the
     outcome of the last call on the first connection *)
  Lemma session_shape e k rc :
    (let h1 := mkhd (cs_count_n fr 0 (length pre)) [] false in
     let x := hd_call fr cfg h1 (csc_op cut) e (firstn k (cs_answer fr h1 cut)) in
     cr_res (fst x) = rc /\
     cr_writes (fst x) = [spec_frame fr (u16 (hd_txn h1 + 1)) (spec_pdu cfg (csc_op cut))]) ->
    let v := cut_session fr cfg pre cut e k fresh in
    csv_results v = map (@Ok values) vss ++ [rc] /\
    cut_failed (csv_closed v) /\
    csv_fresh v = Ok vsf /\
    csv_conns v = [cs_frames fr cfg 0 (map csc_op pre ++ [csc_op cut]);
                   [spec_frame fr 1 (spec_pdu cfg (csc_op fresh))]].
  Proof.
    intros Hx v. subst v. unfold cut_session.
    change (hd_open (mkhd 0 [] true)) with (mkhd 0 [] false).
    pose proof (earlier_ok fr cfg pre vss (mkhd 0 [] false) Hcfg Hpre eq_refl eq_refl eq_refl) as He.
    cbv zeta in He. cbn [hd_txn] in He.
    destruct (cs_earlier fr cfg (mkhd 0 [] false) pre) as [rs h1].
    cbn [fst snd] in He. destruct He as (E1 & E2 & E3). subst h1.
    cbv zeta in Hx.
    destruct (hd_call fr cfg (mkhd (cs_count_n fr 0 (length pre)) [] false) (csc_op cut) e
                (firstn k (cs_answer fr (mkhd (cs_count_n fr 0 (length pre)) [] false) cut)))
      as [rc0 h2].
    cbn [fst hd_txn] in Hx. destruct Hx as [X1 X2].
    destruct Hfresh as (Fwf & FV & Fb & Fans).
    destruct (handle_closed_fails fr cfg h2 (csc_op fresh) Stall [] Fwf) as (C1 & C2 & C3).
    destruct (hd_call fr cfg (hd_close h2) (csc_op fresh) Stall []) as [rx h4].
    cbn [fst snd] in C1, C2, C3. subst h4.
    rewrite hd_reopen_fresh.
    pose proof (call_answered fr cfg (mkhd 0 [] false) fresh vsf Stall Hcfg
                  (conj Fwf (conj FV (conj Fb Fans))) eq_refl eq_refl eq_refl) as Hf.
    cbv zeta in Hf. cbn [hd_txn] in Hf.
    destruct (hd_call fr cfg (mkhd 0 [] false) (csc_op fresh) Stall
                (cs_answer fr (mkhd 0 [] false) fresh)) as [rf h6].
    cbn [fst] in Hf. destruct Hf as (F1 & F2 & _).
    cbn [csv_results csv_closed csv_fresh csv_conns].
    rewrite E1, X1, F1. split; [reflexivity|]. split; [exact C1|]. split; [reflexivity|].
    rewrite E2, X2, C2, F2, app_nil_r. rewrite cs_frames_app, map_length.
    cbn [cs_frames]. change (u16 (0 + 1)) with 1. reflexivity.
  Qed.

  Lemma session_cut e k :
    (k < reply_len fr (csc_reply cut))%nat ->
    let v := cut_session fr cfg pre cut e k fresh in
    csv_results v = map (@Ok values) vss ++ [Err (cut_err_class fr e k)] /\
    cut_failed (csv_closed v) /\
    csv_fresh v = Ok vsf /\
    csv_conns v = [cs_frames fr cfg 0 (map csc_op pre ++ [csc_op cut]);
                   [spec_frame fr 1 (spec_pdu cfg (csc_op fresh))]].
  Proof.
    intros Hk. apply session_shape. cbv zeta.
    destruct (call_cut fr cfg (mkhd (cs_count_n fr 0 (length pre)) [] false) cut vsc e k
                Hcfg Hcut eq_refl eq_refl (cs_count_n_lt fr _ 0 eq_refl) Hk) as (H1 & H2 & _).
    split; [exact H1|exact H2].
  Qed.

  (* control: the peer goes away after the complete reply: the call succeeds *)
  Lemma session_complete e k :
    (reply_len fr (csc_reply cut) <= k)%nat ->
    let v := cut_session fr cfg pre cut e k fresh in
    csv_results v = map (@Ok values) vss ++ [Ok vsc] /\
    cut_failed (csv_closed v) /\
    csv_fresh v = Ok vsf /\
    csv_conns v = [cs_frames fr cfg 0 (map csc_op pre ++ [csc_op cut]);
                   [spec_frame fr 1 (spec_pdu cfg (csc_op fresh))]].
  Proof.
    intros Hk. apply session_shape. cbv zeta.
    rewrite firstn_all2.
    - destruct (call_answered fr cfg (mkhd (cs_count_n fr 0 (length pre)) [] false) cut vsc e
                  Hcfg Hcut eq_refl eq_refl (cs_count_n_lt fr _ 0 eq_refl)) as (H1 & H2 & _).
      split; [exact H1|exact H2].
    - destruct Hcut as (_ & _ & Hb & Hans).
      unfold cs_answer. rewrite (device_frame_spec fr cfg _ _ vsc _ Hcfg Hb Hans).
      rewrite reply_frame_len. exact Hk.
  Qed.
End Session.

(* MBAP, after ANY history of calls on the connection (Model/TxnHistory.v)
   that left only whole frames the next call has to pass over (or nothing)
   unread *)
Lemma cut_after_history cfg xs frames o e res vs k :
  cfg_wf cfg -> Forall (fun x => op_wf (ths_op x)) xs ->
  let st := hist_final FMbap cfg th_init xs in
  let t := th_id 0 (th_sent xs) in
  th_left st = concat frames -> Forall (skippable t) frames ->
  op_wf o -> valid_op o = true -> bytesb (p_payload res) = true -> answers cfg o res vs ->
  (k < reply_len FMbap res)%nat ->
  let r := snd (hist_step FMbap cfg st (mkthstep o (firstn k (spec_frame FMbap t res)) e)) in
  cut_failed (cr_res r) /\ (forall vs', cr_res r <> Ok vs') /\
  cr_writes r = [spec_frame FMbap t (spec_pdu cfg o)].
Proof.
  intros Hcfg Hxs st t Hl Hsk Hwf V Hb Hans Hk r.
  assert (Ht : th_txn st < 65536).
  { subst st. rewrite hist_counter by (try exact Hxs; reflexivity). lia. }
  assert (Hid : u16 (th_txn st + 1) = t).
  { subst st t. rewrite hist_counter by (try exact Hxs; reflexivity).
    unfold th_id, u16. cbn [th_txn th_init]. lia. }
  subst r. unfold hist_step. cbn [snd ths_op ths_bytes ths_end].
  rewrite Hl, <- firstn_app_2.
  set (e' := th_end_after (th_end st) e).
  assert (Hfr : th_txn st < 65536 /\ Forall (skippable (u16 (th_txn st + 1))) frames)
    by (rewrite Hid; split; assumption).
  assert (Hk' : (length (concat frames) + k <
                 length (concat frames ++ spec_frame FMbap (u16 (th_txn st + 1)) res))%nat).
  { rewrite app_length, reply_frame_len. lia. }
  rewrite <- Hid.
  pose proof (client_cut_never_ok FMbap cfg (th_txn st) o e' res vs frames _
                Hwf Hcfg V Hb Hans Hfr Hk') as Hcut.
  cbv zeta in Hcut. destruct Hcut as [H1 H2].
  split; [exact H1|]. split; [exact H2|].
  destruct (client_transmit FMbap cfg (th_txn st) o e'
              (firstn (length (concat frames) + k)
                 (concat frames ++ spec_frame FMbap (u16 (th_txn st + 1)) res)) Hwf Hcfg Ht) as [Hw _].
  exact (Hw V).
Qed.
