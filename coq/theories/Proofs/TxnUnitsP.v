(* Proofs for C05 over histories with unit-id changes between requests
   (Model/TxnUnits.v, Spec/TxnUnitsSpec.v): the connection state - counter,
   unread bytes - evolves independently of the unit id, so every call of such
   a history is the call of a single-unit history (Proofs/TxnP.v) made under
   the unit id in force. *)
From Modbus Require Import Base.Bytes Model.Crc Model.Encoding Model.Wire Model.Client
  Model.TxnHistory Model.TxnUnits Spec.ModbusSpec Spec.ClientSpec Spec.TxnSpec
  Spec.TxnUnitsSpec Proofs.FramingP Proofs.ClientReqP Proofs.ClientRespP Proofs.TxnP.

Lemma call_state_cfg cfg cfg' txn o e s : op_wf o ->
  cr_txn (client_call FMbap cfg txn o e s) = cr_txn (client_call FMbap cfg' txn o e s) /\
  cr_rest (client_call FMbap cfg txn o e s) = cr_rest (client_call FMbap cfg' txn o e s).
Proof.
  intros Hwf.
  pose proof (client_request_exact cfg o Hwf) as H1.
  pose proof (client_request_exact cfg' o Hwf) as H2.
  destruct (valid_op o).
  - rewrite (call_mbap cfg txn o e s _ H1), (call_mbap cfg' txn o e s _ H2).
    cbn [cr_txn cr_rest]. split; reflexivity.
  - unfold client_call. rewrite H1, H2. split; reflexivity.
Qed.

Lemma hist_step_state_cfg : forall cfg cfg' st x, op_wf (ths_op x) ->
  fst (hist_step FMbap cfg st x) = fst (hist_step FMbap cfg' st x).
Proof.
  intros cfg cfg' st x Hwf. cbn [hist_step fst].
  destruct (call_state_cfg cfg cfg' (th_txn st) (ths_op x)
              (th_end_after (th_end st) (ths_end x)) (th_left st ++ ths_bytes x) Hwf) as [H1 H2].
  rewrite H1, H2. reflexivity.
Qed.

Lemma thu_set_unit_same cfg : thu_set_unit cfg (c_unit cfg) = cfg.
Proof. destruct cfg. reflexivity. Qed.

Lemma thu_erase_app a b : thu_erase (a ++ b) = thu_erase a ++ thu_erase b.
Proof.
  induction a as [|x t IH]; [reflexivity|].
  destruct x; cbn [app thu_erase]; rewrite IH; reflexivity.
Qed.

Lemma thu_erase_wf xs : Forall thu_step_wf xs ->
  Forall (fun x => op_wf (ths_op x)) (thu_erase xs).
Proof.
  induction 1 as [|x t Hx _ IH]; [constructor|].
  destruct x; cbn [thu_erase]; [constructor; assumption|assumption].
Qed.

Lemma thu_unit_run_lt xs : forall u, u < 256 -> Forall thu_step_wf xs -> thu_unit_run u xs < 256.
Proof.
  induction xs as [|x t IH]; intros u Hu HF; [exact Hu|].
  inversion HF as [|? ? Hx Ht]; subst. destruct x as [c|v]; cbn [thu_unit_run].
  - apply IH; assumption.
  - apply IH; [exact Hx|exact Ht].
Qed.

(* cfg0 is free: the connection state is that of the calls alone, made under
   ANY configuration *)
Lemma histu_final_split cfg0 xs : forall cfg st, Forall thu_step_wf xs ->
  histu_final FMbap (cfg, st) xs =
  (thu_set_unit cfg (thu_unit_run (c_unit cfg) xs), hist_final FMbap cfg0 st (thu_erase xs)).
Proof.
  induction xs as [|x t IH]; intros cfg st HF.
  - cbn [histu_final thu_unit_run thu_erase hist_final]. rewrite thu_set_unit_same. reflexivity.
  - inversion HF as [|? ? Hx Ht]; subst. destruct x as [c|v].
    + cbn [histu_final histu_step fst snd thu_unit_run thu_erase hist_final].
      rewrite (hist_step_state_cfg cfg0 cfg st c Hx).
      destruct (hist_step FMbap cfg st c) as [st' r]. cbn [fst].
      apply IH. exact Ht.
    + cbn [histu_final histu_step fst snd thu_unit_run thu_erase].
      rewrite IH by exact Ht. reflexivity.
Qed.

Lemma histu_run_length fr xs : forall cs, length (histu_run fr cs xs) = length xs.
Proof.
  induction xs as [|x t IH]; intros cs; [reflexivity|].
  cbn [histu_run]. destruct (histu_step fr cs x) as [cs' r]. cbn [length]. rewrite IH. reflexivity.
Qed.

Lemma histu_run_app fr a b : forall cs,
  histu_run fr cs (a ++ b) = histu_run fr cs a ++ histu_run fr (histu_final fr cs a) b.
Proof.
  induction a as [|x t IH]; intros cs; [reflexivity|].
  cbn [app histu_run histu_final]. destruct (histu_step fr cs x) as [cs' r].
  cbn [fst app]. rewrite IH. reflexivity.
Qed.

Lemma histu_run_nth fr cs pre x post d :
  nth (length pre) (histu_run fr cs (pre ++ x :: post)) d =
  snd (histu_step fr (histu_final fr cs pre) x).
Proof.
  rewrite histu_run_app. cbn [histu_run].
  destruct (histu_step fr (histu_final fr cs pre) x) as [cs' r]. cbn [snd].
  rewrite <- (histu_run_length fr pre cs) at 1.
  rewrite nth_middle. reflexivity.
Qed.

(* unit changes alter nothing but the unit id of the requests that follow them *)
Lemma histu_call_single_unit : forall cfg st pre x post d d',
  Forall thu_step_wf pre ->
  let cfg' := thu_set_unit cfg (thu_unit_run (c_unit cfg) pre) in
  nth (length pre) (histu_run FMbap (cfg, st) (pre ++ UCall x :: post)) d =
  Some (nth (length (thu_erase pre))
          (hist_run FMbap cfg' st (thu_erase pre ++ x :: thu_erase post)) d').
Proof.
  intros cfg st pre x post d d' Hpre cfg'.
  rewrite histu_run_nth, hist_run_nth.
  rewrite (histu_final_split cfg' pre cfg st Hpre). fold cfg'.
  cbn [histu_step fst snd].
  destruct (hist_step FMbap cfg' (hist_final FMbap cfg' st (thu_erase pre)) x) as [st' r].
  reflexivity.
Qed.

(* U5: the call is that of the single-unit history under the unit id in force
   (histu_call_single_unit), where hist_request_id gives the frame *)
Lemma histu_request_id : forall cfg st pre x post d,
  cfg_wf cfg -> th_txn st < 65536 -> Forall thu_step_wf (pre ++ UCall x :: post) ->
  let u := thu_unit_run (c_unit cfg) pre in
  exists r,
    nth (length pre) (histu_run FMbap (cfg, st) (pre ++ UCall x :: post)) d = Some r /\
    (valid_op (ths_op x) = true ->
     cr_writes r = [spec_frame FMbap (th_id (th_txn st) (th_sent (thu_erase pre)))
                      (spec_pdu (thu_set_unit cfg u) (ths_op x))] /\
     p_unit (spec_pdu (thu_set_unit cfg u) (ths_op x)) = u) /\
    (valid_op (ths_op x) = false -> cr_writes r = [] /\ cr_res r = Err EParams).
Proof.
  intros cfg st pre x post d Hcfg Ht HF u.
  pose proof (thu_erase_wf _ HF) as HE. rewrite thu_erase_app in HE. cbn [thu_erase] in HE.
  apply Forall_app in HF as [Hpre _].
  rewrite (histu_call_single_unit cfg st pre x post d call_dflt Hpre). fold u.
  eexists. split; [reflexivity|].
  assert (Hcfg' : cfg_wf (thu_set_unit cfg u)).
  { unfold cfg_wf, thu_set_unit. cbn [c_unit]. apply thu_unit_run_lt; assumption. }
  destruct (hist_request_id (thu_set_unit cfg u) st (thu_erase pre) x (thu_erase post) call_dflt
              Hcfg' Ht HE) as [H1 H2].
  split; [|exact H2]. intros V. split; [exact (H1 V)|reflexivity].
Qed.

Lemma thu_calls_app a b : thu_calls (a ++ b) = thu_calls a ++ thu_calls b.
Proof.
  induction a as [|x t IH]; [reflexivity|].
  destruct x; cbn [app thu_calls]; rewrite IH; reflexivity.
Qed.

Lemma thu_erase_concrete txn0 xs :
  thu_erase (map (thu_concrete txn0) xs) = map (th_concrete txn0) (thu_calls xs).
Proof.
  induction xs as [|x t IH]; [reflexivity|].
  destruct x; cbn [map thu_concrete thu_erase thu_calls]; rewrite IH; reflexivity.
Qed.

Lemma thu_unit_run_concrete txn0 xs : forall u,
  thu_unit_run u (map (thu_concrete txn0) xs) = thu_unit_after u xs.
Proof.
  induction xs as [|x t IH]; intros u; [reflexivity|].
  destruct x; cbn [map thu_concrete thu_unit_run thu_unit_after]; apply IH.
Qed.

Lemma thu_calls_ok xs : Forall thu_sstep_ok xs -> Forall th_sstep_ok (thu_calls xs).
Proof.
  induction 1 as [|x t Hx _ IH]; [constructor|].
  destruct x; cbn [thu_calls]; [constructor; assumption|assumption].
Qed.

Lemma thu_concrete_wf txn0 xs : Forall thu_sstep_ok xs ->
  Forall thu_step_wf (map (thu_concrete txn0) xs).
Proof.
  induction 1 as [|x t Hx _ IH]; [constructor|].
  cbn [map]. constructor; [|exact IH].
  destruct x as [c|u]; cbn [thu_concrete thu_step_wf th_concrete ths_op].
  - apply Hx.
  - exact Hx.
Qed.

(* every request of every scripted history with unit changes follows the
   matching rule on the numbering of ALL requests of the connection *)
Lemma histu_frames : forall cfg txn0 pend0 e0 pre x post d,
  txn0 < 65536 -> Forall th_frame_wf pend0 -> Forall thu_sstep_ok (pre ++ SCall x :: post) ->
  let calls := thu_calls pre in
  let j := lenN calls in
  let cfg' := thu_set_unit cfg (thu_unit_after (c_unit cfg) pre) in
  let t := (txn0 + j) mod 65536 in
  let e := th_end_after (th_end_run e0 calls) (ss_end x) in
  let all := th_pending 0 pend0 calls ++ ss_frames x in
  exists r,
    nth (length pre)
      (histu_run FMbap (cfg, mkth txn0 (th_stream txn0 pend0) e0)
         (map (thu_concrete txn0) (pre ++ SCall x :: post))) d = Some r /\
    match th_take j all with
    | Some (res, rest) =>
        cr_res r = cr_res (client_call FMbap cfg' t (ss_op x) e (spec_frame FMbap (th_id txn0 j) res)) /\
        cr_rest r = th_stream txn0 rest
    | None => cr_res r = Err (short_err e) /\ cr_rest r = []
    end.
Proof.
  intros cfg txn0 pend0 e0 pre x post d Ht0 Hpend HF calls j cfg' t e all.
  pose proof (thu_calls_ok _ HF) as HC. rewrite thu_calls_app in HC. cbn [thu_calls] in HC.
  apply Forall_app in HF as [Hpre _].
  rewrite map_app. cbn [map thu_concrete].
  rewrite <- (map_length (thu_concrete txn0) pre).
  rewrite (histu_call_single_unit cfg _ _ _ _ d call_dflt (thu_concrete_wf txn0 pre Hpre)).
  rewrite thu_unit_run_concrete, !thu_erase_concrete. fold calls. fold cfg'.
  eexists. split; [reflexivity|].
  pose proof (hist_frames cfg' txn0 pend0 e0 calls x (thu_calls post) call_dflt Ht0 Hpend HC) as HH.
  cbv zeta in HH. rewrite map_app in HH. cbn [map] in HH.
  rewrite map_length. exact HH.
Qed.
