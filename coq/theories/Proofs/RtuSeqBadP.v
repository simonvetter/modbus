(* C06 over sessions on one RTU transport behind a line that damages some of
   the replies: a damaged reply the transport rejects (and, where the rejection
   triggers the resynchronisation, flushes) is not a success and leaves a clean
   line, so every later reply that arrives intact is a success with the values
   of that very reply. Used by Properties/C06e.v: rb_rejected, rb_session. *)
From Modbus Require Import Base.Bytes Model.Crc Model.Encoding Model.Wire Model.Client Model.RtuSeq
  Model.RtuSeqBad Spec.ModbusSpec Spec.ClientSpec Spec.RtuSeqSpec
  Proofs.ClientReqP Proofs.ClientRespP Proofs.RtuRecoveryP Proofs.RtuSeqP.

(* what the line delivered is rejected by the transport with error x and the
   line is clean afterwards: the rejection is one of those that trigger the
   flush, or the receiver has consumed everything (it waited in vain for the
   rest of a longer frame). 1024 bytes is the buffer of discard
   (rtu_transport.go:249-256): one flush takes no more off the line. *)
Definition rb_rejected (wire : list N) (x : err) : Prop :=
  (length wire <= 1024)%nat /\
  exists rest, rtu_read_response Stall wire = (Err x, rest) /\ (flushes x = true \/ rest = []).

(* a session: every call is one the client transmits, the device produces a
   valid reply to it delivering vs, and that reply arrives intact (outcome
   Ok vs) or is replaced by bytes the transport rejects (outcome Err x) *)
Fixpoint rb_session (cfg : ccfg) (steps : list rb_step) (outs : list (result values)) : Prop :=
  match steps with
  | [] => outs = []
  | RbCfg c :: t => cfg_wf c /\ rb_session c t outs
  | RbCall o valid wire :: t =>
      match outs with
      | [] => False
      | r :: rt =>
          op_wf o /\ valid_op o = true /\
          (exists res vs, bytesb (p_payload res) = true /\ answers cfg o res vs /\
                          valid = spec_frame FRtu 0 res /\
                          ((wire = valid /\ r = Ok vs) \/
                           (exists x, rb_rejected wire x /\ r = Err x))) /\
          rb_session cfg t rt
      end
  end.

Definition rb_demand_of (r : result values) : rb_demand :=
  match r with
  | Ok vs => RbFresh (Ok vs)
  | _ => RbNotSuccess
  end.

Lemma rb_rejected_call cfg o wire x : op_wf o -> valid_op o = true -> rb_rejected wire x ->
  cr_res (client_call FRtu cfg 0 o Stall wire) = Err x /\
  cr_rest (client_call FRtu cfg 0 o Stall wire) = [].
Proof.
  intros Hwf V (Hl & rest & Er & Hor).
  assert (Hrest : rest = []).
  { destruct Hor as [Hf|Hn]; [exact (flush_empties_line Stall wire x rest Hl Er Hf)|exact Hn]. }
  subst rest.
  unfold client_call, transport_exchange. rewrite (client_request_exact cfg o Hwf), V, Er.
  split; reflexivity.
Qed.

Lemma rtuseqbad_recovers : forall steps cfg outs,
  cfg_wf cfg -> rb_session cfg steps outs ->
  map cr_res (rtuseqbad_run cfg steps) = outs /\
  Forall (fun r => cr_rest r = []) (rtuseqbad_run cfg steps).
Proof.
  unfold rtuseqbad_run.
  induction steps as [|st t IH]; intros cfg outs Hcfg Ha; cbn [map rtuseq_run rb_line rb_session] in *.
  - subst outs. split; [reflexivity|constructor].
  - destruct st as [o valid wire|c]; cbn [rb_line rtuseq_run].
    + destruct outs as [|r rt]; [contradiction|].
      destruct Ha as (Hwf & V & (res & vs & Hb & Hans & Hvalid & Hcase) & Ht).
      rewrite (rs_device_answers cfg o wire Hwf Hcfg V). cbn [app].
      destruct (IH cfg rt Hcfg Ht) as [IH1 IH2].
      destruct Hcase as [[Hw Hr]|(x & Hrej & Hr)]; subst r.
      * subst wire valid.
        pose proof (client_complete_rtu cfg 0 o Stall res vs [] Hwf Hcfg V Hb Hans) as Hc.
        cbv zeta in Hc. rewrite app_nil_r in Hc. destruct Hc as [Hr Hrest].
        rewrite Hrest. cbn [map]. rewrite Hr, IH1. split; [reflexivity|].
        constructor; [exact Hrest|exact IH2].
      * destruct (rb_rejected_call cfg o wire x Hwf V Hrej) as [Hr Hrest].
        rewrite Hrest. cbn [map]. rewrite Hr, IH1. split; [reflexivity|].
        constructor; [exact Hrest|exact IH2].
    + destruct Ha as [Hc Ht]. apply IH; assumption.
Qed.

(* what the check asks of each call (rtuseqbad_demands, computed from the
   session alone) is what the session's outcomes say *)
Lemma rtuseqbad_demands_spec : forall steps cfg outs,
  cfg_wf cfg -> rb_session cfg steps outs ->
  rtuseqbad_demands cfg steps = map rb_demand_of outs.
Proof.
  induction steps as [|st t IH]; intros cfg outs Hcfg Ha; cbn [rtuseqbad_demands rb_session] in *.
  - subst outs. reflexivity.
  - destruct st as [o valid wire|c].
    + destruct outs as [|r rt]; [contradiction|].
      destruct Ha as (Hwf & V & (res & vs & Hb & Hans & Hvalid & Hcase) & Ht).
      cbn [map]. rewrite (IH cfg rt Hcfg Ht).
      pose proof (client_complete_rtu cfg 0 o Stall res vs [] Hwf Hcfg V Hb Hans) as Hc.
      cbv zeta in Hc. rewrite app_nil_r in Hc. destruct Hc as [Hok _].
      destruct Hcase as [[Hw Hr]|(x & Hrej & Hr)]; subst r.
      * subst wire. assert (E : list_eqb valid valid = true) by (apply list_eqb_eq; reflexivity).
        rewrite E. subst valid. rewrite Hok. reflexivity.
      * destruct (list_eqb wire valid) eqn:E; [|reflexivity].
        apply list_eqb_eq in E. subst wire valid.
        destruct (rb_rejected_call cfg o _ x Hwf V Hrej) as [Hr _].
        rewrite Hok in Hr. discriminate Hr.
    + destruct Ha as [Hc Ht]. apply IH; assumption.
Qed.

