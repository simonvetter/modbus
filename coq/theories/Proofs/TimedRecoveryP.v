(* Proofs about Model/TimedSession.v: the re-synchronisation flush in time
   (what arrives while the client keeps the line quiet is discarded; what
   arrives after the flush window is left alone), and the two-call recovery
   statement of C06 on timed streams. tm_head_after, below, is a hypothesis
   of the statements of Properties/C06c.v. *)
From Modbus Require Import Base.Bytes Model.Crc Model.Encoding Model.Wire Model.Client
  Model.Timed Model.TimedSession Spec.ModbusSpec Spec.ClientSpec Spec.TimedSpec
  Proofs.FramingP Proofs.ClientReqP Proofs.ClientRespP Proofs.TimedP.

Definition tm_head_after (D : Z) (l : list (Z * N)) : Prop :=
  match l with [] => True | (t, _) :: _ => (D < t)%Z end.

(* the horizon of every Read lies between D and D + g, wherever the Read
   starts *)
Lemma rft_drain g D n : (0 <= g)%Z -> forall cur tail later,
  (cur <= D)%Z -> Forall (fun p => (fst p <= D)%Z) tail -> (length tail <= n)%nat ->
  tm_head_after (D + g) later ->
  tm_rf_rest (read_full_t g D None n cur (tail ++ later)) = later.
Proof.
  intros Hg. induction n as [|n IH]; intros cur tail later Hc Ht Hl Hlater.
  - destruct tail; [reflexivity|cbn in Hl; lia].
  - cbn [read_full_t]. destruct (D <? cur)%Z eqn:E; [lia|].
    pose proof (tm_horizon_bounds g cur D Hg Hc) as [Hh _].
    destruct tail as [|[t b] tl].
    + cbn [app]. destruct later as [|[t b] l]; [reflexivity|].
      cbn in Hlater. destruct (t <=? tm_horizon g cur D)%Z eqn:E2; [lia|reflexivity].
    + inversion Ht as [|? ? Hhd Htl]; subst. cbn [fst] in Hhd. cbn [app].
      destruct (t <=? tm_horizon g cur D)%Z eqn:E2; [|lia]. rewrite tm_rf_cons_rest.
      apply IH; [lia|exact Htl|cbn in Hl; lia|exact Hlater].
Qed.

Lemma tm_discard_drain g now tail later : (0 <= g)%Z ->
  Forall (fun p => (fst p <= now + tm_flush_window)%Z) tail -> (length tail <= 1024)%nat ->
  tm_head_after (now + tm_flush_window + g) later ->
  snd (tm_discard g None now (tail ++ later)) = later.
Proof.
  intros Hg Ht Hl Hlater. unfold tm_discard.
  pose proof (rft_drain g (now + tm_flush_window) 1024 Hg now tail later
                ltac:(unfold tm_flush_window; lia) Ht Hl Hlater) as H.
  destruct (read_full_t _ _ _ _ _ _); exact H.
Qed.

Lemma rtu_exchange_flush k la t0 nreq s x t3 tail later : (0 <= tm_gran k)%Z ->
  tm_read_rtu (tm_gran k) (t0 + tm_timeout k) None (tm_rtu_now2 k la t0 nreq) s
    = (Err x, t3, tail ++ later) ->
  tm_resync x = true -> (length tail <= 1024)%nat ->
  Forall (fun p => (fst p <= tm_flush_end k t3)%Z) tail ->
  tm_head_after (tm_flush_end k t3 + tm_gran k) later ->
  exists t4, rtu_exchange_t k la t0 nreq None s = (Err x, t4, later) /\
             (tm_flush_start k t3 <= t4 <= tm_flush_end k t3 + tm_gran k)%Z.
Proof.
  intros Hg Hread Hx Hl Ht Hlater. unfold rtu_exchange_t. rewrite Hread, Hx.
  fold (tm_flush_start k t3).
  pose proof (tm_discard_drain (tm_gran k) (tm_flush_start k t3) tail later Hg Ht Hl Hlater) as Hd.
  pose proof (tm_discard_time (tm_gran k) None (tm_flush_start k t3) (tail ++ later) Hg) as Htime.
  destruct (tm_discard (tm_gran k) None (tm_flush_start k t3) (tail ++ later)) as [t4 rest'].
  cbn [snd] in Hd. subst rest'. exists t4. split; [reflexivity|].
  unfold tm_flush_end, tm_flush_window. lia.
Qed.

Lemma rtu_exchange_flush0 k la t0 nreq s x t3 tail later :
  tm_gran k = 0%Z ->
  tm_read_rtu 0 (t0 + tm_timeout k) None (tm_rtu_now2 k la t0 nreq) s = (Err x, t3, tail ++ later) ->
  tm_resync x = true -> (length tail <= 1024)%nat ->
  Forall (fun p => (fst p <= tm_flush_end k t3)%Z) tail -> tm_head_after (tm_flush_end k t3) later ->
  exists t4, rtu_exchange_t k la t0 nreq None s = (Err x, t4, later) /\
             (tm_flush_start k t3 <= t4 <= tm_flush_end k t3)%Z.
Proof.
  intros Hg Hread Hx Hl Ht Hlater.
  pose proof (rtu_exchange_flush k la t0 nreq s x t3 tail later) as H.
  rewrite Hg, Z.add_0_r in H. exact (H (Z.le_refl 0) Hread Hx Hl Ht Hlater).
Qed.

Lemma tm_resync_not_timeout x : tm_resync x = true -> x <> ETimeout.
Proof. intros H ->. discriminate H. Qed.

(* whatever it leaves in rt.lastActivity, the call is the call of Model/Timed.v *)
Lemma tm_rtu_call_fst k cfg o la t0 c s :
  fst (tm_rtu_call k cfg o la t0 c s) = tm_client_call FRtu k la cfg 0 o t0 c s.
Proof.
  unfold tm_rtu_call. cbv zeta. destruct (client_request cfg o); try reflexivity.
  destruct (rtu_exchange_t _ _ _ _ _ _) as [[[p|[]| |] t] rest]; reflexivity.
Qed.

Lemma tm_rtu_call_flush0 k cfg o req la t0 s x t3 tail later :
  tm_gran k = 0%Z -> client_request cfg o = Ok req ->
  tm_read_rtu 0 (t0 + tm_timeout k) None
    (tm_rtu_now2 k la t0 (Z.of_nat (length (assemble_rtu req)))) s = (Err x, t3, tail ++ later) ->
  tm_resync x = true -> (length tail <= 1024)%nat ->
  Forall (fun p => (fst p <= tm_flush_end k t3)%Z) tail -> tm_head_after (tm_flush_end k t3) later ->
  exists t4, tm_rtu_call k cfg o la t0 None s = (mk_tm_call (Err x) t4 later, t4) /\
             (tm_flush_start k t3 <= t4 <= tm_flush_end k t3)%Z.
Proof.
  intros Hg Hreq Hread Hx Hl Ht Hlater.
  destruct (rtu_exchange_flush0 k la t0 _ s x t3 tail later Hg Hread Hx Hl Ht Hlater)
    as (t4 & Hex & Hb).
  exists t4. split; [|exact Hb].
  unfold tm_rtu_call. rewrite Hreq, Hex.
  assert (Hc : tm_client_call FRtu k la cfg 0 o t0 None s = mk_tm_call (Err x) t4 later).
  { unfold tm_client_call. rewrite Hreq, Hex. reflexivity. }
  rewrite Hc. cbn [tmc_finish].
  destruct x; try reflexivity. discriminate Hx.
Qed.

(* the recovery clause of C06 on timed streams (Properties/C06c.v) *)
Lemma timed_recovery : forall k cfg o1 req1 o2 la now gap1 gap2 s x t3 tail pre post res2 vs2,
  tm_conf_wf k -> tm_gran k = 0%Z -> cfg_wf cfg ->
  client_request cfg o1 = Ok req1 ->
  op_wf o2 -> valid_op o2 = true ->
  let t0 := (now + Z.max 0 gap1)%Z in
  tm_read_rtu 0 (t0 + tm_timeout k) None
    (tm_rtu_now2 k la t0 (Z.of_nat (length (assemble_rtu req1)))) s = (Err x, t3, tail ++ pre ++ post) ->
  tm_resync x = true -> (length tail <= 1024)%nat ->
  Forall (fun p => (fst p <= tm_flush_end k t3)%Z) tail ->
  tm_head_after (tm_flush_end k t3) (pre ++ post) ->
  bytesb (p_payload res2) = true -> answers cfg o2 res2 vs2 ->
  map snd pre = spec_frame FRtu 0 res2 ->
  (forall t4, (tm_flush_start k t3 <= t4 <= tm_flush_end k t3)%Z ->
     let t02 := (t4 + Z.max 0 gap2)%Z in
     (tm_rtu_read_start k t4 t02 (tm_req_len cfg o2) <= t02 + tm_timeout k)%Z /\
     Forall (fun p => (fst p <= t02 + tm_timeout k)%Z) pre) ->
  exists t4 t5,
    (tm_flush_start k t3 <= t4 <= tm_flush_end k t3)%Z /\
    tm_rtu_session k cfg None la now s [(o1, gap1); (o2, gap2)] = [(Err x, t4); (Ok vs2, t5)].
Proof.
  intros k cfg o1 req1 o2 la now gap1 gap2 s x t3 tail pre post res2 vs2
         Hk Hg Hcfg Hreq1 Hwf2 V2 t0 Hread Hx Hl Ht Hlater Hb Hans Hpre Htimes.
  destruct (tm_rtu_call_flush0 k cfg o1 req1 la t0 s x t3 tail (pre ++ post)
              Hg Hreq1 Hread Hx Hl Ht Hlater) as (t4 & Hcall & Hb4).
  destruct (Htimes t4 Hb4) as [Hstart Hpt].
  exists t4. eexists. split; [exact Hb4|].
  cbn [tm_rtu_session]. fold t0. rewrite Hcall. cbn [tmc_res tmc_finish tmc_rest].
  set (t02 := (t4 + Z.max 0 gap2)%Z) in *.
  pose proof (tm_timely_rtu k t4 cfg 0 o2 t02 None pre post res2 vs2 Hwf2 Hcfg V2 Hk Hg Hstart
                Hb Hans Hpre Hpt) as Hok.
  rewrite (surjective_pairing (tm_rtu_call k cfg o2 t4 t02 None (pre ++ post))), tm_rtu_call_fst, Hok.
  reflexivity.
Qed.
