(* client.go, the read side, as translated from the Go source (Gen/SrcPure.v) against the client model:
   readBools and readRegisters, run one Go statement per script line up to [exec_reply_tail]
   (Proofs/SrcClientP.v), and ReadCoils / ReadDiscreteInputs / ReadCoil / ReadDiscreteInput.
   executeRequest is the exchange [X] of Proofs/SrcClientP.v; the other callees (uint16ToBytes,
   mapExceptionCodeToError, decodeBools, readBools) are hypotheses on the function environment. *)
From Coq Require Import List NArith String Lia Bool.
Import ListNotations.
From Modbus Require Import Base.Bytes Model.GoLite Gen.SrcPure Model.Crc Model.Encoding.
From Modbus Require Import Model.Wire Model.Client.
From Modbus Require Import Proofs.GoLiteP Proofs.GoLiteLinkP Proofs.SrcCrcP Proofs.SrcLinkP Proofs.SrcMiscP Proofs.SrcClientP.
Open Scope string_scope.
Open Scope N_scope.

(* the code's expectedLen against the model's 1 + bool_bytes q *)
Lemma expected_len q :
  1 + bool_bytes q = if q mod 8 =? 0 then 1 + q / 8 else 1 + q / 8 + 1.
Proof. unfold bool_bytes. destruct (q mod 8 =? 0); lia. Qed.

(* res.payload[1:] *)
Lemma slice_tail (v : val) (l : list val) :
  (if (1 <=? N.of_nat (S (List.length l))) &&
      (N.of_nat (S (List.length l)) <=? N.of_nat (S (List.length l)))
   then GOk (VL (firstn (N.to_nat (N.of_nat (S (List.length l)) - 1)) (skipn 1 (v :: l))))
   else GoLite.Panic) = GOk (VL l).
Proof.
  replace ((1 <=? N.of_nat (S (List.length l))) &&
           (N.of_nat (S (List.length l)) <=? N.of_nat (S (List.length l)))) with true by lia.
  cbn [skipn].
  replace (N.to_nat (N.of_nat (S (List.length l)) - 1)) with (List.length l) by lia.
  rewrite firstn_all. reflexivity.
Qed.

(* decodeBools is only needed at the quantity of the call, once it has passed the 2000 test *)
Lemma run_readBools_at fe fuel cfg tt X a q di :
  exec_hyp fe X -> u16tb_hyp fe -> excmap_hyp fe ->
  (q <= 2000 -> forall bs, bytesb bs = true ->
     fe "decodeBools" [VN q; vbytes bs] =
     match decode_bools (N.to_nat q) bs with Some r => GOk [vbools r] | None => GoLite.Panic end) ->
  a < 65536 -> q < 65536 ->
  run_fn ge fe fuel src_fn_ModbusClient_readBools (mc_fields cfg tt ++ [VN a; VN q; VB di])%list =
  out_vals (mc_fields cfg tt) (call_out cfg (OpReadBools di a q) X).
Proof.
  intros Hx Hu He Hd Ha Hq.
  pose proof (Hu BigE) as Hu1. cbn [endian_sel] in Hu1.
  rewrite call_out_eq. unfold client_request, req_read_bools.
  rewrite run_fn_exec by reflexivity. set (fin := fn_ret src_fn_ModbusClient_readBools).
  unfold src_fn_ModbusClient_readBools. cbn [f_nparams f_zeros f_body]. fold_reply_tail 8%nat.
  unfold mc_fields. cbn [app].
  do 5 gl_seq.  (* var req, res *pdu; var expectedLen int; mc.lock.Lock(); defer mc.lock.Unlock() *)
  (* The three argument checks, each [if ... { err = ...; return }]. case_eq, not destruct, which
     would retype the whole goal, program included. *)
  gl_guard.     (* if quantity == 0 *)
  case_eq (q =? 0); intros Eq0; [reflexivity|].
  gl_guard.     (* if quantity > 2000 *)
  case_eq (2000 <? q); intros Eq1; [reflexivity|].
  gl_guard.     (* if uint32(addr) + uint32(quantity) - 1 > 0xffff *)
  rewrite end_addr_cmp by lia.
  case_eq (65535 <? a + q - 1); intros Eq2; [reflexivity|].
  gl_seq.       (* req = &pdu{unitId: mc.unitId} *)
  (* if di { req.functionCode = fcReadDiscreteInputs } else { req.functionCode = fcReadCoils }: one state for both *)
  erewrite seq_normal with (st1 := [_; _; _; _; _; _; _; _; _; _; _; VN (if di then 2 else 1); _; _; _; _; _; _])
    by (destruct di; gl_auto; reflexivity).
  gl_seq using Hu1.  (* req.payload = uint16ToBytes(BIG_ENDIAN, addr) *)
  gl_seq using Hu1.  (* req.payload = append(req.payload, uint16ToBytes(BIG_ENDIAN, quantity)...) *)
  (* res, err = mc.executeRequest(req) and what follows: the model's validation at the
     function code of the request, the payload of the request, a return with err set,
     the method's own test of the reply *)
  eapply (exec_reply_tail fe fuel X cfg tt [VN a; VN q; VB di; VL []] [VN 0]
            (mkpdu (c_unit cfg) (if di then 2 else 1) (be16 a ++ be16 q)) _ Hx He fin).
  - intros res. reflexivity.
  - cbn [p_payload]. rewrite map_app, !be16_u16_to_bytes. reflexivity.
  - reflexivity.
  - intros [ru rf rp] Hwf. cbn [p_payload p_unit p_fc] in *. unfold frame, mc_fields. cbn [app]. cbv zeta.
    gl_seq.     (* expectedLen = 1 *)
    gl_seq.     (* expectedLen += int(quantity) / 8 *)
    (* if quantity % 8 != 0 { expectedLen++ }: one state for both, by [expected_len] *)
    erewrite seq_normal with (st1 := [_; _; _; _; _; _; _; _; _; _; _; _; _; _; _; _; _; VN (1 + bool_bytes q)])
      by (rewrite expected_len; gl_wrap; gl_run; destruct (q mod 8 =? 0); gl_wrap; gl_run; reflexivity).
    gl_guard.   (* if len(res.payload) != expectedLen { err = ErrProtocolError; return } *)
    unfold vbytes. rewrite map_length. fold (lenN rp). cbn [compare_n].
    destruct (lenN rp =? 1 + bool_bytes q) eqn:El; cbn [negb]; [|reflexivity].
    destruct rp as [|bc data]; [exfalso; unfold lenN in El; cbn [List.length] in El; lia|].
    apply bytesb_cons in Hwf as [Hbc Hdata].
    gl_guard.   (* if int(res.payload[0]) + 1 != expectedLen { err = ErrProtocolError; return } *)
    cbn [compare_n]. destruct (bc + 1 =? 1 + bool_bytes q); cbn [negb]; [|reflexivity].
    (* values = decodeBools(quantity, res.payload[1:]) *)
    cbn [exec resolve eval evals rbind get_slot sget map List.length]. rewrite slice_tail.
    cbn [rbind]. fold (vbytes data). rewrite (Hd ltac:(lia) data Hdata).
    destruct (decode_bools (N.to_nat q) data) as [r|]; reflexivity.
Qed.

Lemma run_readBools fe fuel cfg tt X a q di :
  exec_hyp fe X -> u16tb_hyp fe -> excmap_hyp fe ->
  (forall q bs, q < 65536 -> bytesb bs = true ->
     fe "decodeBools" [VN q; vbytes bs] =
     match decode_bools (N.to_nat q) bs with Some r => GOk [vbools r] | None => GoLite.Panic end) ->
  a < 65536 -> q < 65536 ->
  run_fn ge fe fuel src_fn_ModbusClient_readBools (mc_fields cfg tt ++ [VN a; VN q; VB di])%list =
  out_vals (mc_fields cfg tt) (call_out cfg (OpReadBools di a q) X).
Proof.
  intros Hx Hu He Hd Ha Hq. apply run_readBools_at; try assumption.
  intros _ bs Hbs. apply Hd; assumption.
Qed.

(* readRegisters from the argument checks on, for either function code *)
Definition rr_rest : stmt :=
  Eval cbv in match f_body src_fn_ModbusClient_readRegisters with
              | SSeq _ (SSeq _ (SSeq _ (SSeq _ (SSeq _ (SSeq _ r))))) => r
              | _ => SSkip
              end.

Lemma exec_rr_rest fe fuel cfg tt X a q rtn rt :
  exec_hyp fe X -> u16tb_hyp fe -> excmap_hyp fe ->
  a < 65536 -> q < 65536 -> rt <> BadRegType ->
  fn_ret src_fn_ModbusClient_readRegisters
    (exec ge fe fuel
       (mc_fields cfg tt ++
        [VN a; VN q; VN rtn; VL []; VN 0; VB false; VN (c_unit cfg); VN (match rt with Holding => 3 | _ => 4 end); VL [];
         VB true; VN 0; VN 0; VL []])%list rr_rest) =
  out_vals (mc_fields cfg tt) (rr_out cfg a q rt X).
Proof.
  intros Hx Hu He Ha Hq Hrt.
  pose proof (Hu BigE) as Hu1. cbn [endian_sel] in Hu1.
  rewrite rr_out_eq.
  replace (req_read_regs cfg a q rt) with
    (if q =? 0 then Err EParams else if 125 <? q then Err EParams else if 65535 <? a + q - 1 then Err EParams
     else MOk (mkpdu (c_unit cfg) (match rt with Holding => 3 | _ => 4 end) (be16 a ++ be16 q)))
    by (destruct rt; [reflexivity..|contradiction]).
  set (fc := match rt with Holding => 3 | _ => 4 end).
  set (fin := fn_ret src_fn_ModbusClient_readRegisters).
  unfold rr_rest. fold_reply_tail 8%nat. unfold mc_fields. cbn [app].
  gl_guard.     (* if quantity == 0 { err = ...; return } *)
  case_eq (q =? 0); intros Eq0; [reflexivity|].
  gl_guard.     (* if quantity > 125 *)
  case_eq (125 <? q); intros Eq1; [reflexivity|].
  gl_guard.     (* if uint32(addr) + uint32(quantity) - 1 > 0xffff *)
  rewrite end_addr_cmp by lia.
  case_eq (65535 <? a + q - 1); intros Eq2; [reflexivity|].
  gl_seq using Hu1.  (* req.payload = uint16ToBytes(BIG_ENDIAN, addr) *)
  gl_seq using Hu1.  (* req.payload = append(req.payload, uint16ToBytes(BIG_ENDIAN, quantity)...) *)
  (* res, err = mc.executeRequest(req) and what follows, as in run_readBools_at *)
  eapply (exec_reply_tail fe fuel X cfg tt [VN a; VN q; VN rtn; VL []] [] (mkpdu (c_unit cfg) fc (be16 a ++ be16 q))
            _ Hx He fin).
  - intros res. reflexivity.
  - cbn [p_payload]. rewrite map_app, !be16_u16_to_bytes. reflexivity.
  - reflexivity.
  - intros [ru rf rp] Hwf. cbn [p_payload p_unit p_fc] in *. unfold frame, mc_fields. cbn [app].
    gl_guard.   (* if len(res.payload) != 1 + 2 * int(quantity) { err = ErrProtocolError; return } *)
    unfold vbytes. rewrite map_length. fold (lenN rp). cbn [compare_n].
    destruct rp as [|bc data]; [replace (lenN [] =? 1 + 2 * q) with false by (unfold lenN; cbn [List.length]; lia); reflexivity|].
    destruct (lenN (bc :: data) =? 1 + 2 * q); cbn [negb]; [|reflexivity].
    apply bytesb_cons in Hwf as [Hbc Hdata].
    gl_guard.   (* if uint(res.payload[0]) != 2 * uint(quantity) { err = ErrProtocolError; return } *)
    cbn [compare_n]. rewrite !mod_pow2_small with (k := 32) by (change (2 ^ 32) with 4294967296; lia).
    destruct (bc =? 2 * q); cbn [negb]; [|reflexivity].
    (* bytes = res.payload[1:] *)
    cbn [exec resolve eval evals rbind get_slot sget map List.length]. rewrite slice_tail. reflexivity.
Qed.

Lemma run_readRegisters fe fuel cfg tt X a q rtn rt :
  exec_hyp fe X -> u16tb_hyp fe -> excmap_hyp fe ->
  a < 65536 -> q < 65536 -> regtype_sel rt rtn ->
  run_fn ge fe fuel src_fn_ModbusClient_readRegisters (mc_fields cfg tt ++ [VN a; VN q; VN rtn])%list =
  out_vals (mc_fields cfg tt) (rr_out cfg a q rt X).
Proof.
  intros Hx Hu He Ha Hq Hrt.
  rewrite run_fn_exec by reflexivity. set (fin := fn_ret src_fn_ModbusClient_readRegisters).
  unfold src_fn_ModbusClient_readRegisters. cbn [f_nparams f_zeros f_body].
  change (SSeq (SIf (ECmp CEq (EVar 5) (EN 0)) ?s1 ?s2) ?t) with rr_rest.
  unfold mc_fields. cbn [app].
  do 5 gl_seq.  (* var req, res *pdu; mc.lock.Lock(); defer mc.lock.Unlock(); req = &pdu{unitId: mc.unitId} *)
  (* switch regType: the two cases set req.functionCode, the default returns *)
  destruct rt; cbn [regtype_sel] in Hrt.
  - subst rtn. gl_seq. apply (exec_rr_rest fe fuel cfg tt X a q 0 Holding); first [assumption|discriminate].
  - subst rtn. gl_seq. apply (exec_rr_rest fe fuel cfg tt X a q 1 InputReg); first [assumption|discriminate].
  - erewrite seq_abrupt
      by first [exact I | gl_auto; replace (rtn =? 0) with false by lia; gl_auto; replace (rtn =? 1) with false by lia;
                          gl_auto; reflexivity].
    reflexivity.
Qed.

Definition rbools_hyp (fe : fenv) (X : pdu -> treply) : Prop :=
  forall cfg tt a q di, a < 65536 -> q < 65536 ->
    fe "ModbusClient.readBools" (mc_fields cfg tt ++ [VN a; VN q; VB di])%list =
    out_vals (mc_fields cfg tt) (call_out cfg (OpReadBools di a q) X).

(* ReadCoils ([di] false) and ReadDiscreteInputs ([di] true). That the generated
   trees are these is the premise [lookup_fn name ... = Some (bools_reader di)]
   of src_bools_reader_ok (Proofs/SrcClientLinkP.v), closed by [eq_refl] in
   Properties/C02t.v; likewise for [bool_reader] below. *)
Definition bools_reader (di : bool) : fn := {|
  f_nparams := 6;
  f_zeros := [VL []; VN 0];
  f_outs := [0%nat; 1%nat; 2%nat; 3%nat];
  f_results := [6%nat; 7%nat];
  f_body :=
    SSeq (SCall "ModbusClient.readBools" (ECons (EVar 0) (ECons (EVar 1) (ECons (EVar 2) (ECons (EVar 3) (ECons (EVar 4) (ECons (EVar 5) (ECons (EB di) (ENil)))))))) [LVar 0; LVar 1; LVar 2; LVar 3; LVar 6; LVar 7])
    (SReturn (ENil))
|}.

Lemma run_bools_reader fe fuel cfg tt X a q di :
  rbools_hyp fe X -> a < 65536 -> q < 65536 ->
  run_fn ge fe fuel (bools_reader di) (mc_fields cfg tt ++ [VN a; VN q])%list =
  out_vals (mc_fields cfg tt) (call_out cfg (OpReadBools di a q) X).
Proof.
  intros Hrb Ha Hq. pose proof (Hrb cfg tt a q di Ha Hq) as Hc.
  unfold run_fn, bools_reader, mc_fields in *. cbn [app] in Hc.
  gl_auto. rewrite Hc.
  destruct (call_out cfg (OpReadBools di a q) X) as [v|c|]; cbn [out_vals app]; gl_auto; reflexivity.
Qed.

Lemma read_bools_shape cfg di a q X : (forall req, treply_wf (X req)) ->
  match call_out cfg (OpReadBools di a q) X with
  | SVal v => exists l, v = VBools l
  | SCode c => c <> 0
  | SPanic => True
  end.
Proof.
  intros Hwf. rewrite call_out_eq.
  destruct (xchg_out _ X _) as [v|c|] eqn:E; [|apply (xchg_out_code _ _ _ _ Hwf) in E; [exact E| |]|exact I].
  - unfold xchg_out in E. destruct (client_request _ _) as [req| | |]; try discriminate.
    destruct (X req) as [res|]; [|discriminate]. cbn [client_validate] in E.
    destruct (p_fc res =? p_fc req); [|rewrite sout_of_eop in E; discriminate].
    destruct (negb _); [discriminate|]. destruct (p_payload res) as [|bc data]; [discriminate|].
    destruct (negb _); [discriminate|].
    destruct (decode_bools (N.to_nat q) data) as [r|]; [|discriminate].
    inversion E. exists r. reflexivity.
  - intros e. cbn [client_request]. unfold req_read_bools.
    destruct (q =? 0); [|destruct (2000 <? q); [|destruct (65535 <? a + q - 1); [|discriminate]]];
      intros H; inversion H; exact I.
  - intros req res e. cbn [client_validate].
    destruct (p_fc res =? p_fc req).
    + destruct (negb _); [intros H; inversion H; exact I|]. destruct (p_payload res) as [|bc data]; [discriminate|].
      destruct (negb _); [intros H; inversion H; exact I|].
      destruct (decode_bools (N.to_nat q) data); discriminate.
    + destruct (eop_err req res) as (e' & -> & He'). intros H. inversion H; subst. exact He'.
Qed.

Lemma exec_hyp_wf fe X : exec_hyp fe X -> forall req, treply_wf (X req).
Proof. intros Hx req. exact (exec_wf fe X req Hx). Qed.

(* ReadCoil ([di] false) and ReadDiscreteInput ([di] true) *)
Definition bool_reader (di : bool) : fn := {|
  f_nparams := 5;
  f_zeros := [VB false; VN 0; VL []];
  f_outs := [0%nat; 1%nat; 2%nat; 3%nat];
  f_results := [5%nat; 6%nat];
  f_body :=
    SSeq (SSet (LVar 7) (ELit ENil))
    (SSeq (SCall "ModbusClient.readBools" (ECons (EVar 0) (ECons (EVar 1) (ECons (EVar 2) (ECons (EVar 3) (ECons (EVar 4) (ECons (EN 1) (ECons (EB di) (ENil)))))))) [LVar 0; LVar 1; LVar 2; LVar 3; LVar 7; LVar 6])
    (SSeq (SIf (ECmp CEq (EVar 6) (EN 0))
    (SSet (LVar 5) (EIndex (EVar 7) (EN 0)))
    (SSkip))
    (SReturn (ENil))))
|}.

Lemma run_bool_reader fe fuel cfg tt X a di :
  rbools_hyp fe X -> (forall req, treply_wf (X req)) -> a < 65536 ->
  run_fn ge fe fuel (bool_reader di) (mc_fields cfg tt ++ [VN a])%list =
  out_one (mc_fields cfg tt) (VB false) (call_out cfg (OpReadBools di a 1) X).
Proof.
  intros Hrb Hwf Ha. pose proof (Hrb cfg tt a 1 di Ha ltac:(lia)) as Hc.
  pose proof (read_bools_shape cfg di a 1 X Hwf) as Hs.
  unfold run_fn, bool_reader, mc_fields in *. cbn [app] in Hc.
  gl_auto. rewrite Hc.
  destruct (call_out cfg (OpReadBools di a 1) X) as [v|c|]; cbn [out_vals out_one app]; gl_auto.
  - destruct Hs as [l ->]. cbn [sval]. unfold vbools.
    destruct l as [|b l]; cbn [map nth_error]; gl_auto; reflexivity.
  - replace (c =? 0) with false by lia. gl_auto. reflexivity.
  - reflexivity.
Qed.
