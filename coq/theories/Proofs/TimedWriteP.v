(* Proofs about the timed model with a blocking request Write
   (Model/TimedWrite.v): the bounds of C07 survive a peer that stops reading,
   a full link yields the request-timed-out error at the deadline, the model
   is a conservative extension of Model/Timed.v, sessions. *)
From Modbus Require Import Base.Bytes Model.Crc Model.Encoding Model.Wire Model.Client
  Model.Timed Model.TimedSession Model.TimedWrite
  Spec.ModbusSpec Spec.ClientSpec Spec.TimedSpec Spec.TimedWriteSpec
  Proofs.ClientReqP Proofs.ClientRespP Proofs.TimedP.

Lemma tm_call_w_fits fr k la cfg txn o t0 reads room c s req :
  client_request cfg o = Ok req ->
  tm_blocked reads room (Z.of_nat (length (tm_req_frame fr txn req))) = false ->
  tm_client_call_w fr k la cfg txn o t0 reads room c s =
  mk_tm_wcall (tm_client_call fr k la cfg txn o t0 c s)
    (if reads then room else (room - Z.of_nat (length (tm_req_frame fr txn req)))%Z) false.
Proof.
  intros Hreq Hb. unfold tm_client_call_w, tm_client_call. rewrite Hreq.
  destruct fr; cbn [tm_req_frame] in *.
  - unfold mbap_exchange_w, tm_write. rewrite Hb.
    destruct (mbap_exchange_t _ _ _ _ _) as [[r t] rest].
    destruct r as [res|x| |]; try reflexivity. destruct (unit_check req res); reflexivity.
  - unfold rtu_exchange_w, tm_write. rewrite Hb.
    destruct (rtu_exchange_t _ _ _ _ _ _) as [[r t] rest].
    destruct r as [res|x| |]; try reflexivity. destruct (unit_check req res); reflexivity.
Qed.

Lemma tm_call_w_local fr k la cfg txn o t0 reads room c s :
  (forall req, client_request cfg o <> Ok req) ->
  tm_client_call_w fr k la cfg txn o t0 reads room c s =
  mk_tm_wcall (tm_client_call fr k la cfg txn o t0 c s) room false.
Proof.
  intros H. unfold tm_client_call_w, tm_client_call.
  destruct (client_request cfg o) as [req|x| |]; try reflexivity. destruct (H req eq_refl).
Qed.

Lemma tm_rtu_ts_eq k la t0 : tm_rtu_ts k la t0 = Z.max t0 (la + tm_t35 k).
Proof. unfold tm_rtu_ts, tm_sleep. destruct (_ <? 0)%Z eqn:E; lia. Qed.

Lemma tm_call_w_blocked fr k la cfg txn o t0 reads room c s req :
  client_request cfg o = Ok req ->
  tm_blocked reads room (Z.of_nat (length (tm_req_frame fr txn req))) = true ->
  tm_client_call_w fr k la cfg txn o t0 reads room c s =
  mk_tm_wcall (mk_tm_call (Err ETimeout)
                 (Z.max (tm_write_start fr k la t0) (t0 + tm_timeout k)) s) 0 true.
Proof.
  intros Hreq Hb. unfold tm_client_call_w. rewrite Hreq.
  destruct fr; cbn [tm_req_frame tm_write_start] in *.
  - unfold mbap_exchange_w, tm_write. rewrite Hb. reflexivity.
  - unfold rtu_exchange_w, tm_write. rewrite Hb, tm_rtu_ts_eq. reflexivity.
Qed.

Lemma tm_call_w_cases fr k la cfg txn o t0 reads room c s :
  let w := tm_client_call_w fr k la cfg txn o t0 reads room c s in
  (tmw_blocked w = false /\ tmw_call w = tm_client_call fr k la cfg txn o t0 c s) \/
  w = mk_tm_wcall (mk_tm_call (Err ETimeout)
                     (Z.max (tm_write_start fr k la t0) (t0 + tm_timeout k)) s) 0 true.
Proof.
  cbv zeta. destruct (client_request cfg o) as [req|x| |] eqn:Hreq.
  2-4: left; rewrite tm_call_w_local by (intros req; rewrite Hreq; discriminate); split; reflexivity.
  destruct (tm_blocked reads room (Z.of_nat (length (tm_req_frame fr txn req)))) eqn:Hb.
  - right. apply (tm_call_w_blocked fr k la cfg txn o t0 reads room c s req Hreq Hb).
  - left. rewrite (tm_call_w_fits fr k la cfg txn o t0 reads room c s req Hreq Hb). split; reflexivity.
Qed.

(* T1 with the blocking Write, MBAP *)
Lemma tm_call_w_time_mbap : forall k la cfg txn o t0 reads room c s, (0 <= tm_timeout k)%Z ->
  (t0 <= tmc_finish (tmw_call (tm_client_call_w FMbap k la cfg txn o t0 reads room c s))
      <= tm_mbap_bound k t0)%Z.
Proof.
  intros k la cfg txn o t0 reads room c s Ht.
  destruct (tm_call_w_cases FMbap k la cfg txn o t0 reads room c s) as [[_ ->] | ->].
  - apply tm_client_time_mbap. exact Ht.
  - cbn [tmw_call tmc_finish tm_write_start]. unfold tm_mbap_bound. lia.
Qed.

(* T1 with the blocking Write, RTU: the same configuration-only bound *)
Lemma tm_call_w_time_rtu : forall k la cfg txn o t0 reads room c s,
  op_wf o -> tm_conf_wf k -> (la <= t0)%Z ->
  (t0 <= tmc_finish (tmw_call (tm_client_call_w FRtu k la cfg txn o t0 reads room c s))
      <= tm_rtu_bound k t0 (tm_req_len cfg o))%Z.
Proof.
  intros k la cfg txn o t0 reads room c s Hwf Hk Hla.
  destruct (tm_call_w_cases FRtu k la cfg txn o t0 reads room c s) as [[_ ->] | ->].
  - apply tm_client_time_rtu; assumption.
  - cbn [tmw_call tmc_finish tm_write_start].
    pose proof (tm_req_len_nonneg cfg o) as Hn.
    destruct Hk as (Ht & H1 & H35 & Hg). unfold tm_rtu_bound.
    pose proof (Z.mul_nonneg_nonneg _ _ Hn H1). lia.
Qed.

Lemma tm_call_w_time : forall fr k la cfg txn o t0 reads room c s,
  op_wf o -> tm_conf_wf k -> (la <= t0)%Z ->
  (t0 <= tmc_finish (tmw_call (tm_client_call_w fr k la cfg txn o t0 reads room c s))
      <= tm_call_bound fr k cfg o t0)%Z.
Proof.
  intros [] k la cfg txn o t0 reads room c s Hwf Hk Hla; cbn [tm_call_bound].
  - apply tm_call_w_time_mbap. apply Hk.
  - apply tm_call_w_time_rtu; assumption.
Qed.

Lemma tm_peer_reads : forall fr k la cfg txn o t0 room c s,
  tm_client_call_w fr k la cfg txn o t0 true room c s =
  mk_tm_wcall (tm_client_call fr k la cfg txn o t0 c s) room false.
Proof.
  intros fr k la cfg txn o t0 room c s.
  destruct (client_request cfg o) as [req|x| |] eqn:Hreq.
  2-4: apply tm_call_w_local; intros req; rewrite Hreq; discriminate.
  apply (tm_call_w_fits fr k la cfg txn o t0 true room c s req Hreq). reflexivity.
Qed.

Lemma tm_silent_any_room_mbap : forall k la cfg txn o t0 reads room,
  op_wf o -> valid_op o = true -> (0 <= tm_timeout k)%Z ->
  tmw_call (tm_client_call_w FMbap k la cfg txn o t0 reads room None []) =
  mk_tm_call (Err ETimeout) (t0 + tm_timeout k) [].
Proof.
  intros k la cfg txn o t0 reads room Hwf V Ht.
  destruct (tm_call_w_cases FMbap k la cfg txn o t0 reads room None []) as [[_ ->] | ->].
  - apply tm_silent_call_mbap; assumption.
  - cbn [tmw_call tm_write_start]. f_equal. lia.
Qed.

Lemma tm_silent_any_room_rtu : forall k la cfg txn o t0 reads room,
  op_wf o -> valid_op o = true -> tm_conf_wf k -> tm_gran k = 0%Z ->
  let r := tmw_call (tm_client_call_w FRtu k la cfg txn o t0 reads room None []) in
  tmc_res r = Err ETimeout /\ (t0 + tm_timeout k <= tmc_finish r)%Z /\ tmc_rest r = [].
Proof.
  intros k la cfg txn o t0 reads room Hwf V Hk Hg. cbv zeta.
  destruct (tm_call_w_cases FRtu k la cfg txn o t0 reads room None []) as [[_ ->] | ->].
  - rewrite tm_silent_call_rtu by assumption.
    cbn [tmc_res tmc_finish tmc_rest]. repeat split; lia.
  - cbn [tmw_call tmc_res tmc_finish tmc_rest]. repeat split; lia.
Qed.

Lemma tm_rtu_call_txn k la cfg txn txn' o t0 c s :
  tm_client_call FRtu k la cfg txn o t0 c s = tm_client_call FRtu k la cfg txn' o t0 c s.
Proof. reflexivity. Qed.

(* rt.lastActivity as left by a call is never later than the return of the
   call: the next call of a session starts with la <= t0 again *)
Lemma tm_next_la_le : forall fr k la cfg txn o t0 reads room c s,
  op_wf o -> tm_conf_wf k -> (la <= t0)%Z ->
  let w := tm_client_call_w fr k la cfg txn o t0 reads room c s in
  (tm_next_la fr k cfg o la t0 c s (tmw_blocked w) <= tmc_finish (tmw_call w))%Z.
Proof.
  intros fr k la cfg txn o t0 reads room c s Hwf Hk Hla. cbv zeta.
  pose proof (tm_call_w_time fr k la cfg txn o t0 reads room c s Hwf Hk Hla) as [Hlo _].
  destruct fr; cbn [tm_next_la]; [lia|].
  destruct (tm_call_w_cases FRtu k la cfg txn o t0 reads room c s) as [[Hbl Hcall] | Hw];
    [rewrite Hbl, Hcall in *|rewrite Hw; cbn [tmw_blocked tmw_call tmc_finish tm_write_start]; lia].
  clear Hcall Hbl.
  unfold tm_rtu_call. rewrite (tm_rtu_call_txn k la cfg 0 txn o t0 c s).
  destruct (client_request cfg o) as [req|x| |] eqn:Hreq; cbn [snd]; try lia.
  destruct (tm_client_call_ok FRtu k la cfg txn o t0 c s req Hreq) as (_ & Hf & _).
  cbn [tm_xchg] in Hf. rewrite Hf.
  set (nreq := Z.of_nat (length (assemble_rtu req))) in *.
  assert (Hn : (0 <= nreq)%Z) by (unfold nreq; lia).
  pose proof (rtu_exchange_time k la t0 nreq c s Hk Hn) as Hge.
  destruct (rtu_exchange_t k la t0 nreq c s) as [[r t] rest]. cbn [fst snd]. destruct Hge as [Hge _].
  destruct Hk as (Ht & H1 & H35 & Hg).
  pose proof (Z.mul_nonneg_nonneg _ _ Hn H1).
  unfold tm_rtu_read_start in Hge. rewrite tm_rtu_ts_eq.
  destruct r as [p|x| |]; cbn [snd]; try lia.
  destruct x; cbn [snd]; lia.
Qed.

Lemma tm_session_w_time fr k cfg : tm_conf_wf k -> forall calls la txn room now rest,
  Forall (fun cl => op_wf (fst (fst cl))) calls -> (la <= now)%Z ->
  Forall (fun p => (tws_start (snd p) <= tws_finish (snd p)
                    <= tm_call_bound fr k cfg (fst (fst (fst p))) (tws_start (snd p)))%Z)
    (combine calls (tm_session_w fr k cfg la txn room now rest calls)).
Proof.
  intros Hk. induction calls as [|[[o reads] s] cs IH]; intros la txn room now rest Hops Hla;
    cbn [tm_session_w combine]; [constructor|].
  inversion Hops as [|x l Ho Hcs]; subst. cbn [fst] in Ho.
  set (s' := rest ++ tm_shift now s).
  pose proof (tm_call_w_time fr k la cfg txn o now reads room None s' Ho Hk Hla) as Hb.
  pose proof (tm_next_la_le fr k la cfg txn o now reads room None s' Ho Hk Hla) as Hl.
  cbv zeta in Hl.
  constructor.
  - cbn [fst snd tws_start tws_finish]. exact Hb.
  - apply IH; [exact Hcs|exact Hl].
Qed.

Lemma tm_session_w_length fr k cfg : forall calls la txn room now rest,
  length (tm_session_w fr k cfg la txn room now rest calls) = length calls.
Proof.
  induction calls as [|[[o reads] s] cs IH]; intros; cbn [tm_session_w length]; [reflexivity|].
  f_equal. apply IH.
Qed.

Lemma tm_dead_peer_mbap : forall k cfg, (0 <= tm_timeout k)%Z -> forall ops la txn room now,
  Forall op_wf ops -> Forall (fun o => valid_op o = true) ops ->
  Forall (fun st => tws_res st = Err ETimeout /\
                    tws_finish st = (tws_start st + tm_timeout k)%Z)
    (tm_session_w FMbap k cfg la txn room now [] (tm_dead_calls ops)).
Proof.
  intros k cfg Ht. induction ops as [|o ops IH]; intros la txn room now Hwf Hv;
    cbn [tm_dead_calls map tm_session_w]; [constructor|].
  inversion Hwf as [|x l Ho Hos]; subst. inversion Hv as [|x l Vo Vos]; subst.
  cbn [app tm_shift map].
  rewrite (tm_silent_any_room_mbap k la cfg txn o now false room Ho Vo Ht).
  cbn [tmc_res tmc_finish tmc_rest]. constructor.
  - cbn [tws_res tws_finish tws_start]. split; reflexivity.
  - apply IH; assumption.
Qed.

Lemma tm_dead_peer_rtu : forall k cfg, tm_conf_wf k -> tm_gran k = 0%Z -> forall ops la txn room now,
  Forall op_wf ops -> Forall (fun o => valid_op o = true) ops ->
  Forall (fun st => tws_res st = Err ETimeout /\
                    (tws_start st + tm_timeout k <= tws_finish st)%Z)
    (tm_session_w FRtu k cfg la txn room now [] (tm_dead_calls ops)).
Proof.
  intros k cfg Hk Hg. induction ops as [|o ops IH]; intros la txn room now Hwf Hv;
    cbn [tm_dead_calls map tm_session_w]; [constructor|].
  inversion Hwf as [|x l Ho Hos]; subst. inversion Hv as [|x l Vo Vos]; subst.
  cbn [app tm_shift map].
  destruct (tm_silent_any_room_rtu k la cfg txn o now false room Ho Vo Hk Hg) as (H1 & H2 & H3).
  rewrite H3. constructor.
  - cbn [tws_res tws_finish tws_start]. split; assumption.
  - apply IH; assumption.
Qed.
