(* A served connection dropped for a protocol error gives its slot back by
   steps of the server alone (Model/SlotsDrop.v): whatever the stream of the
   peer was, and whatever the peer does afterwards, the active list loses
   exactly that connection and a later connection is served. *)
From Coq Require Import List Arith Bool NArith Lia Permutation.
Import ListNotations.
From Modbus Require Import Base.Bytes Model.Wire Model.Server Model.Slots Proofs.SlotsP
  Model.SlotsVisit Proofs.SlotsVisitP Model.SlotsDrop.
Local Open Scope nat_scope.

(* the EvClosed that drop_session leaves out is the final idle expiry on a peer
   that stays silent after its bytes *)
Lemma drop_session_events {St} (h : handler St) : forall fuel st s,
  server_session h fuel st Stall s =
  flat_map drop_event_events (drop_session h fuel st s) ++
  (if drop_dropped (drop_session h fuel st s) then [] else [EvClosed]).
Proof.
  induction fuel as [|f IH]; intros st s; cbn [server_session drop_session].
  - reflexivity.
  - destruct (read_mbap Stall s) as [[req txn|e] rest].
    + destruct (server_process h st req) as [[st' calls] act]. destruct act as [res|].
      * cbn [flat_map drop_event_events drop_dropped existsb is_drop orb].
        rewrite IH. unfold drop_dropped. rewrite <- !app_assoc. reflexivity.
      * cbn [flat_map drop_event_events drop_dropped existsb is_drop orb app].
        rewrite !app_nil_r. reflexivity.
    + destruct e; reflexivity.
Qed.

Lemma answered_request_goes_on {St} (h : handler St) f st s req txn rest st' calls res :
  read_mbap Stall s = (FOk req txn, rest) ->
  server_process h st req = (st', calls, Respond res) ->
  drop_session h (S f) st s = DAnswered calls (assemble_mbap txn res) :: drop_session h f st' rest.
Proof. intros Hr Hp. cbn [drop_session]. rewrite Hr, Hp. reflexivity. Qed.

Lemma req_steps {A} s c (l : list A) : run s (map (fun _ => Req c) l) = s.
Proof.
  induction l as [|x t IH]; [reflexivity|].
  cbn [map]. unfold run in *. cbn [fold_left]. rewrite step_req. exact IH.
Qed.

Lemma drop_labels_cons s c e t :
  run s (drop_labels c (e :: t)) =
  run (if is_drop e then run s (departure c ProtocolError) else s) (drop_labels c t).
Proof.
  unfold drop_labels. cbn [flat_map]. rewrite slots_run_app. f_equal.
  destruct e as [calls frame|calls|]; cbn [drop_event_labels is_drop];
    rewrite ?slots_run_app, ?req_steps; reflexivity.
Qed.

Lemma labels_of_removed s c evs : stat s c = Removed -> run s (drop_labels c evs) = s.
Proof.
  intros Hr. induction evs as [|e t IH]; [reflexivity|]. rewrite drop_labels_cons.
  rewrite departure_noop by congruence.
  destruct (is_drop e); exact IH.
Qed.

Lemma dropped_frees s c evs : Inv s -> stat s c = Serving -> drop_dropped evs = true ->
  let s1 := run s (drop_labels c evs) in
  Permutation (clients s) (c :: clients s1) /\ stat s1 c = Removed /\ closed s1 c = true /\
  started s1 = started s /\ listening s1 = listening s /\ acceptors s1 = acceptors s /\ maxc s1 = maxc s /\
  (forall x, x <> c -> stat s1 x = stat s x).
Proof.
  intros I Hs. induction evs as [|e t IH]; intros Hd; [discriminate|].
  cbn zeta. rewrite drop_labels_cons. destruct (is_drop e) eqn:He.
  - (* the first drop does it; what follows finds the connection removed *)
    pose proof (departure_frees s c ProtocolError I Hs ltac:(discriminate)) as D. cbn zeta in D.
    rewrite labels_of_removed by apply D. exact D.
  - apply IH. unfold drop_dropped in *. cbn [existsb] in Hd. rewrite He in Hd. exact Hd.
Qed.

Lemma dropped_then_served s c d evs : Inv s -> started s = true -> (0 < acceptors s)%nat ->
  stat s c = Serving -> drop_dropped evs = true -> stat s d = Fresh ->
  let s1 := run s (drop_labels c evs ++ arrival d) in
  stat s1 d = Serving /\ In d (clients s1) /\ ~ In c (clients s1) /\
  length (clients s1) = length (clients s).
Proof.
  intros I Hst Ha Hs Hd Hf. cbn zeta. rewrite slots_run_app.
  destruct (dropped_frees s c evs I Hs Hd) as (D1 & D2 & D3 & D4 & D5 & D6 & D7 & D8).
  cbn zeta in *. pose proof (inv_run (drop_labels c evs) s I) as I1.
  set (s1 := run s (drop_labels c evs)) in *.
  assert (Hne : d <> c) by (intros ->; congruence).
  assert (Hlen : length (clients s) = S (length (clients s1))) by (apply Permutation_length in D1; exact D1).
  assert (Hst1 : started s1 = true) by (rewrite D4; exact Hst).
  assert (Ha1 : 0 < acceptors s1) by (rewrite D6; exact Ha).
  assert (Hf1 : stat s1 d = Fresh) by (rewrite D8 by exact Hne; exact Hf).
  destruct (arrival_eff s1 d I1 Hst1 Ha1 Hf1) as (_ & _ & _ & _ & _ & A6 & _).
  cbn zeta in *. pose proof (inv_bound s I) as Hb.
  destruct A6 as [Ec Es]; [rewrite D7; lia|].
  assert (Hnc : ~ In c (clients s1)) by (apply not_client; [exact I1|rewrite D2; reflexivity]).
  rewrite Ec. repeat split.
  - exact Es.
  - apply in_elt.
  - intros Hin. apply in_app_or in Hin as [Hin|[Hin|[]]]; [exact (Hnc Hin)|congruence].
  - rewrite app_length, Hlen. apply Nat.add_1_r.
Qed.
