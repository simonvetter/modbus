(* Proofs about Model/RoleMix.v (property C15, histories of sessions in ONE
   process that runs a tcp+tls server and a plain tcp server side by side).
   The handshake oracle, the verification oracle and the clock are section
   variables; what crypto/tls documents (tls_srv_documented) is an explicit
   premise of the lemmas that need it. *)
From Modbus Require Import Base.Bytes Model.Utf8 Model.Der Model.Role Model.Config Model.TlsPolicy
  Model.RoleSeq Model.RoleMix Spec.RoleSpec Proofs.RoleP Proofs.TlsPolicyP Proofs.RoleSeqP.

Section RoleMixProofs.
  Variable hs : tls_policy -> tls_peer -> option tls_session.
  Variable verifies : option (list tls_cert) -> tls_usage -> N -> list N -> list tls_cert -> Prop.
  Variable now : N.

  Definition mix_one (srvs : list tls_srv_conf) (x : nat * tls_peer) : option (list N) :=
    match nth_error srvs (fst x) with
    | Some c => mix_conn_role hs c (snd x)
    | None => None
    end.

  Lemma mix_serve_map srvs conns :
    mix_serve_sessions hs srvs conns = map (mix_one srvs) conns.
  Proof.
    induction conns as [|[k p] l IH]; cbn [mix_serve_sessions map]; [reflexivity|].
    rewrite IH. reflexivity.
  Qed.

  Lemma mix_serve_nth srvs conns i :
    nth_error (mix_serve_sessions hs srvs conns) i = option_map (mix_one srvs) (nth_error conns i).
  Proof. rewrite mix_serve_map. apply nth_error_map. Qed.

  Lemma mix_serve_at srvs earlier x later :
    nth_error (mix_serve_sessions hs srvs (earlier ++ x :: later)) (length earlier) = Some (mix_one srvs x).
  Proof. rewrite mix_serve_map. apply nth_error_map_middle. Qed.

  Lemma mix_conn_role_plain c eff peer :
    tls_new_server c = CfgOk eff -> se_transport eff = TTcp ->
    mix_conn_role hs c peer = Some [].
  Proof. intros En Ht. unfold mix_conn_role. rewrite En, Ht. reflexivity. Qed.

  Lemma mix_conn_role_tls c eff peer :
    tls_new_server c = CfgOk eff -> se_transport eff = TTcpOverTls ->
    mix_conn_role hs c peer = tls_start_tls hs c peer.
  Proof. intros En Ht. unfold mix_conn_role. rewrite En, Ht. reflexivity. Qed.

  Lemma mix_part srvs k c conns :
    nth_error srvs k = Some c ->
    mix_part_of k conns (mix_serve_sessions hs srvs conns) = map (mix_conn_role hs c) (mix_conns_of k conns).
  Proof.
    intros Hk. induction conns as [|[j p] l IH]; [reflexivity|].
    cbn [mix_serve_sessions mix_part_of mix_conns_of].
    destruct (Nat.eqb j k) eqn:Ej; [|exact IH].
    apply Nat.eqb_eq in Ej. subst j. rewrite Hk, IH. reflexivity.
  Qed.

  Lemma mix_role_origin srvs conns i role :
    tls_srv_documented hs verifies now ->
    nth_error (mix_serve_sessions hs srvs conns) i = Some (Some role) ->
    exists k peer c eff,
      nth_error conns i = Some (k, peer) /\ nth_error srvs k = Some c /\ tls_new_server c = CfgOk eff /\
      ((se_transport eff = TTcp /\ role = []) \/
       (se_transport eff = TTcpOverTls /\
        exists leaf more, tpe_chain peer = leaf :: more /\ role = extract_role (tlc_exts leaf))).
  Proof.
    intros Hdoc. rewrite mix_serve_nth.
    destruct (nth_error conns i) as [[k peer]|]; [|discriminate].
    cbn [option_map]. unfold mix_one. cbn [fst snd].
    destruct (nth_error srvs k) as [c|] eqn:Hk; [|discriminate].
    unfold mix_conn_role. destruct (tls_new_server c) as [eff|e] eqn:En; [|discriminate].
    destruct (se_transport eff) eqn:Ht; try discriminate.
    - intros [= Hr]. exists k, peer, c, eff.
      split; [reflexivity|]. split; [exact Hk|]. split; [exact En|].
      left. split; [exact Ht|]. symmetry. exact Hr.
    - intros [= Hs]. exists k, peer, c, eff.
      split; [reflexivity|]. split; [exact Hk|]. split; [exact En|].
      right. split; [exact Ht|].
      exact (start_tls_leaf hs verifies now c peer role Hdoc Hs).
  Qed.
End RoleMixProofs.
