(* tcp_transport.go and rtu_transport.go as translated from the Go source
   (Gen/SrcPure.v): vocabulary of the statements. The socket / serial link and
   the clock are external functions over the state of the world
   (Model/Transport.v). *)
From Coq Require Import List NArith String Lia Bool.
Import ListNotations.
From Modbus Require Import Base.Bytes Model.GoLite Gen.SrcPure Model.Crc Model.Encoding.
From Modbus Require Import Model.Wire Model.Transport Replay.SrcReplayLib.
From Modbus Require Import Proofs.GoLiteP Proofs.GoLiteLinkP Proofs.SrcCrcP Proofs.SrcLinkP Proofs.SrcMiscP Proofs.SrcClientP.
Open Scope string_scope.
Open Scope N_scope.

Definition src_codes : tcodes := {|
  c_timedout := code_of "ErrRequestTimedOut";
  c_badcrc := code_of "ErrBadCRC";
  c_short := code_of "ErrShortFrame";
  c_proto := code_of "ErrProtocolError";
  c_unkproto := code_of "ErrUnknownProtocolId";
  c_ueof := N.of_nat (List.length src_error_codes) + 3
|}.
Definition src_eof : N := N.of_nat (List.length src_error_codes) + 4.

(* a frame pointer: nil flag and the three fields *)
Definition enc_opdu (p : option pdu) : list val :=
  match p with
  | None => [VB true; VN 0; VN 0; VL []]
  | Some q => [VB false; VN (p_unit q); VN (p_fc q); vbytes (p_payload q)]
  end.

(* the external functions of a transport whose socket / link field is [x] are the world functions *)
Definition tworld_hyp (fe : fenv) (T : tworld) (x : string) : Prop :=
  (forall w, fe "time.Now" [w] = GOk [fst (t_now T w); VN (snd (t_now T w))]) /\
  (forall w d, fe "time.Sleep" [w; VN d] = GOk [t_sleep T w d]) /\
  (forall w t, fe (x ++ ".SetDeadline") [w; VN t] = GOk [fst (t_setdl T w t); VN (snd (t_setdl T w t))]) /\
  (forall w bs, fe (x ++ ".Write") [w; vbytes bs] =
                let '(w', n, e) := t_write T w bs in GOk [w'; VN n; VN e]) /\
  (forall w n, fe (x ++ ".ReadFull") [w; VN n] =
               let '(w', got, e) := t_readfull T w n in GOk [w'; vbytes got; VN e]) /\
  (forall w, fe (x ++ ".Close") [w] = GOk [fst (t_close T w); VN (snd (t_close T w))]).

Fixpoint unvn (l : list val) : list N :=
  match l with
  | VN n :: t => n :: unvn t
  | _ :: t => 0 :: unvn t
  | [] => []
  end.
Lemma unvn_map l : unvn (map VN l) = l.
Proof. induction l as [|x t IH]; cbn [map unvn]; [reflexivity|rewrite IH; reflexivity]. Qed.

(* a function environment made of the world functions: the hypothesis is satisfiable *)
Definition world_base (T : tworld) : fenv := fun name args =>
  let is s := String.eqb name s in
  if is "time.Now" then
    match args with [w] => GOk [fst (t_now T w); VN (snd (t_now T w))] | _ => Stuck end
  else if is "time.Sleep" then
    match args with [w; VN d] => GOk [t_sleep T w d] | _ => Stuck end
  else if orb (is "socket.SetDeadline") (orb (is "link.SetDeadline") (is "rtuLink.SetDeadline")) then
    match args with [w; VN t] => GOk [fst (t_setdl T w t); VN (snd (t_setdl T w t))] | _ => Stuck end
  else if orb (is "socket.Write") (orb (is "link.Write") (is "rtuLink.Write")) then
    match args with
    | [w; VL l] => let '(w', n, e) := t_write T w (unvn l) in GOk [w'; VN n; VN e]
    | _ => Stuck
    end
  else if orb (is "socket.ReadFull") (orb (is "link.ReadFull") (is "rtuLink.ReadFull")) then
    match args with
    | [w; VN n] => let '(w', got, e) := t_readfull T w n in GOk [w'; vbytes got; VN e]
    | _ => Stuck
    end
  else if orb (is "socket.Close") (orb (is "link.Close") (is "rtuLink.Close")) then
    match args with [w] => GOk [fst (t_close T w); VN (snd (t_close T w))] | _ => Stuck end
  else Stuck.

Lemma world_base_hyp T x : x = "socket" \/ x = "link" \/ x = "rtuLink" -> tworld_hyp (world_base T) T x.
Proof.
  intros [H|[H|H]]; subst x; unfold tworld_hyp, world_base; cbn [append String.eqb Ascii.eqb Bool.eqb orb];
    repeat split; intros; try reflexivity;
    unfold vbytes; rewrite unvn_map; reflexivity.
Qed.

Lemma env_ext p base caller x : absent x (p_fns p) = true ->
  forall fuel args, env_in_with p base caller fuel x args = base x args.
Proof. intros H. apply env_base, absent_prefix, H. Qed.

Lemma tworld_hyp_env base T x caller fuel : x = "socket" \/ x = "link" \/ x = "rtuLink" ->
  tworld_hyp base T x -> tworld_hyp (env_in_with src_pure base caller fuel) T x.
Proof.
  intros Hx (H1 & H2 & H3 & H4 & H5 & H6).
  destruct Hx as [-> | [-> | ->]]; cbn [append] in *; repeat split; intros;
    rewrite env_ext by reflexivity; auto.
Qed.

(* the hypothesis of a run lemma about the callee [name], inside the caller *)
Ltac by_callee caller name g lem := hnf; intros; callee caller name g; apply lem; try assumption.

Section EvalBytes.
  Variable fe : fenv.

  Lemma eval_len_b st a l : eval ge fe st a = GOk (vbytes l) -> eval ge fe st (ELen a) = GOk (VN (lenN l)).
  Proof. intros H. cbn [eval]. rewrite H. unfold vbytes, lenN. cbn [rbind]. rewrite map_length. reflexivity. Qed.

  (* a[lo:hi] *)
  Lemma eval_slice_b st a lo hi l x y :
    eval ge fe st a = GOk (vbytes l) -> eval ge fe st lo = GOk (VN x) -> eval ge fe st hi = GOk (VN y) ->
    x <= y -> y <= lenN l ->
    eval ge fe st (ESlice a lo hi) = GOk (vbytes (firstn (N.to_nat (y - x)) (skipn (N.to_nat x) l))).
  Proof.
    intros Ha Hlo Hhi H1 H2. cbn [eval]. rewrite Ha, Hlo, Hhi. unfold vbytes, lenN in *. cbn [rbind].
    rewrite map_length.
    replace ((x <=? y) && (y <=? N.of_nat (List.length l))) with true by lia.
    rewrite skipn_map, firstn_map. reflexivity.
  Qed.

  Lemma eval_slice0_b st a hi l y :
    eval ge fe st a = GOk (vbytes l) -> eval ge fe st hi = GOk (VN y) -> y <= lenN l ->
    eval ge fe st (ESlice a (EN 0) hi) = GOk (vbytes (firstn (N.to_nat y) l)).
  Proof.
    intros Ha Hhi Hy.
    rewrite (eval_slice_b st a (EN 0) hi l 0 y Ha eq_refl Hhi); [|lia|exact Hy].
    rewrite N.sub_0_r. reflexivity.
  Qed.

  (* uint8(a[i]) *)
  Lemma eval_u8_index st a i l k x :
    eval ge fe st a = GOk (vbytes l) -> eval ge fe st i = GOk (VN k) -> nth_error l (N.to_nat k) = Some x -> x < 256 ->
    eval ge fe st (EConv (U 8) (EIndex a i)) = GOk (VN x).
  Proof.
    intros Ha Hi Hn Hx. cbn [eval]. rewrite Ha, Hi. unfold vbytes. cbn [rbind].
    rewrite nth_error_map, Hn. cbn [option_map rbind]. rewrite wrap_U_ok by exact Hx. reflexivity.
  Qed.

  Lemma eval_index_b st a i l k x :
    eval ge fe st a = GOk (vbytes l) -> eval ge fe st i = GOk (VN k) -> nth_error l (N.to_nat k) = Some x ->
    eval ge fe st (EIndex a i) = GOk (VN x).
  Proof.
    intros Ha Hi Hn. cbn [eval]. rewrite Ha, Hi. unfold vbytes. cbn [rbind].
    rewrite nth_error_map, Hn. reflexivity.
  Qed.

  Lemma eval_app_b st a b l m :
    eval ge fe st a = GOk (vbytes l) -> eval ge fe st b = GOk (vbytes m) ->
    eval ge fe st (EAppendSlice a b) = GOk (vbytes (l ++ m)).
  Proof. intros Ha Hb. cbn [eval]. rewrite Ha, Hb. unfold vbytes. cbn [rbind]. rewrite map_app. reflexivity. Qed.

  Lemma eval_sub64 st a b x y :
    eval ge fe st a = GOk (VN x) -> eval ge fe st b = GOk (VN y) -> y <= x -> x < 2 ^ 64 ->
    eval ge fe st (EBin OSub (U 64) a b) = GOk (VN (x - y)).
  Proof.
    intros Ha Hb Hle Hlt. cbn [eval]. rewrite Ha, Hb. cbn [rbind].
    rewrite (arith_sub_U 64 x y Hle Hlt). reflexivity.
  Qed.

  Lemma eval_cmps_gt st a b x y :
    eval ge fe st a = GOk (VN x) -> eval ge fe st b = GOk (VN y) -> x < 2 ^ 63 -> y < 2 ^ 63 ->
    eval ge fe st (ECmpS CGt a b) = GOk (VB (y <? x)).
  Proof.
    intros Ha Hb Hx Hy. cbn [eval]. rewrite Ha, Hb. cbn [rbind].
    rewrite (cmps_small CGt x y Hx Hy). reflexivity.
  Qed.

  (* b = b[0:o] ++ read ++ b[o+len(read):len(b)]: what io.ReadFull(x, b[o:o+n])
     leaves in b, [k] the slot of what was read *)
  Definition splice_e (b : nat) (o : N) (k : nat) : expr :=
    EAppendSlice (EAppendSlice (ESlice (EVar b) (EN 0) (EN o)) (EVar k))
                 (ESlice (EVar b) (EBin OAdd (U 64) (EN o) (ELen (EVar k))) (ELen (EVar b))).

  Lemma eval_splice st b o k buf got :
    get_slot st b = GOk (vbytes buf) -> get_slot st k = GOk (vbytes got) ->
    o + lenN got <= lenN buf -> lenN buf < 2 ^ 64 ->
    eval ge fe st (splice_e b o k) =
    GOk (vbytes (firstn (N.to_nat o) buf ++ got ++ skipn (N.to_nat o + List.length got) buf)).
  Proof.
    intros Hb Hk Hle Hlt. unfold splice_e.
    assert (Hadd : eval ge fe st (EBin OAdd (U 64) (EN o) (ELen (EVar k))) = GOk (VN (o + lenN got))).
    { cbn [eval rbind]. rewrite Hk. unfold vbytes. cbn [rbind arith]. rewrite map_length.
      fold (lenN got). rewrite wrap_U_ok by lia. reflexivity. }
    rewrite (eval_app_b st _ _ (firstn (N.to_nat (o - 0)) (skipn (N.to_nat 0) buf) ++ got)
               (firstn (N.to_nat (lenN buf - (o + lenN got))) (skipn (N.to_nat (o + lenN got)) buf))).
    - rewrite N.sub_0_r. change (N.to_nat 0) with 0%nat. cbn [skipn]. rewrite <- app_assoc.
      replace (N.to_nat (o + lenN got)) with (N.to_nat o + List.length got)%nat by (unfold lenN; lia).
      rewrite (firstn_all2 (n := N.to_nat (lenN buf - (o + lenN got)))); [reflexivity|].
      rewrite skipn_length. unfold lenN in *. lia.
    - eapply eval_app_b.
      + eapply eval_slice_b; [exact Hb|reflexivity|reflexivity|lia|lia].
      + exact Hk.
    - eapply eval_slice_b; [exact Hb|exact Hadd|apply eval_len_b; exact Hb|exact Hle|lia].
  Qed.

  (* x.Read(b), io.ReadFull(x, b): the translated call passes len(b) - 0 *)
  Lemma exec_read_call fuel st name wv b dests w buf outs st1 :
    get_slot st wv = GOk w -> get_slot st b = GOk (vbytes buf) -> lenN buf < 2 ^ 64 ->
    fe name [w; VN (lenN buf)] = GOk outs ->
    rbind (resolves ge fe st dests) (fun rs => stores st rs outs) = GOk st1 ->
    exec ge fe fuel st
      (SCall name (ECons (EVar wv) (ECons (EBin OSub (U 64) (ELen (EVar b)) (EN 0)) ENil)) dests) = ONormal st1.
  Proof.
    intros Hw Hb Hlt Hf Hs. eapply exec_scall; [|exact Hf|exact Hs].
    eapply evals_cons; [exact Hw|]. eapply evals_cons; [|reflexivity].
    rewrite <- (N.sub_0_r (lenN buf)).
    eapply eval_sub64; [apply eval_len_b; exact Hb|reflexivity|lia|exact Hlt].
  Qed.

  Lemma exec_splice fuel st b o k buf got st1 :
    get_slot st b = GOk (vbytes buf) -> get_slot st k = GOk (vbytes got) ->
    o + lenN got <= lenN buf -> lenN buf < 2 ^ 64 ->
    set_slot st b (vbytes (firstn (N.to_nat o) buf ++ got ++ skipn (N.to_nat o + List.length got) buf)) = GOk st1 ->
    exec ge fe fuel st (SSet (LVar b) (splice_e b o k)) = ONormal st1.
  Proof. intros Hb Hk Hle Hlt Hs. eapply exec_set; [|exact Hs]. apply eval_splice; assumption. Qed.
End EvalBytes.

(* make([]byte, n) *)
Lemma vbytes_zeros n : VL (repeat (VN 0) n) = vbytes (repeat 0 n).
Proof. unfold vbytes. induction n as [|n IH]; cbn [repeat map]; congruence. Qed.

(* what each function returns: the fields of the receiver, then the result of
   the model function (Model/Transport.v) *)

Definition out_read_mbap (T : tworld) (tmo last : N) (w : val) : GoLite.res (list val) :=
  let '(w', p, txn, e) := t_read_mbap T src_codes w in
  GOk ([VN tmo; VN last; w'] ++ enc_opdu p ++ [VN txn; VN e])%list.

Definition out_read_response (T : tworld) (fuel : nat) (tmo last : N) (w : val) : GoLite.res (list val) :=
  match t_read_response T src_codes fuel last w with
  | Some (w', p, e) => GOk ([VN tmo; VN last; w'] ++ enc_opdu p ++ [VN e])%list
  | None => GoLite.OutOfFuel
  end.

Definition out_tcp_read_request (T : tworld) (tmo last : N) (w : val) : GoLite.res (list val) :=
  let '(last', w', p, e) := t_tcp_read_request T src_codes tmo last w in
  GOk ([VN tmo; VN last'; w'] ++ enc_opdu p ++ [VN e])%list.

Definition out_tcp_write_response (T : tworld) (tmo last : N) (res : pdu) (w : val) : GoLite.res (list val) :=
  let '(w', e) := t_tcp_write_response T last res w in GOk [VN tmo; VN last; w'; VN e].

Definition out_tcp_execute (T : tworld) (fuel : nat) (tmo last : N) (req : pdu) (w : val) : GoLite.res (list val) :=
  match t_tcp_execute T src_codes fuel tmo last req w with
  | Some (last', w', p, e) => GOk ([VN tmo; VN last'; w'] ++ enc_opdu p ++ [VN e])%list
  | None => GoLite.OutOfFuel
  end.

Definition out_close (T : tworld) (fields : list val) (w : val) : GoLite.res (list val) :=
  GOk (fields ++ [fst (t_close T w); VN (snd (t_close T w))])%list.

Definition out_read_rtu (T : tworld) (tmo la t35 t1 : N) (w : val) : GoLite.res (list val) :=
  let '(w', p, e) := t_read_rtu T src_codes w in
  GOk ([VN tmo; VN la; VN t35; VN t1; w'] ++ enc_opdu p ++ [VN e])%list.

Definition out_discard (T : tworld) (w : val) : GoLite.res (list val) := GOk [t_discard T w].

Definition out_rtu_execute (T : tworld) (tmo la t35 t1 : N) (req : pdu) (w : val) : GoLite.res (list val) :=
  let '(la', w', p, e) := t_rtu_execute T src_codes tmo la t35 t1 req w in
  GOk ([VN tmo; VN la'; VN t35; VN t1; w'] ++ enc_opdu p ++ [VN e])%list.

Definition out_rtu_write_response (T : tworld) (tmo la t35 t1 : N) (res : pdu) (w : val) : GoLite.res (list val) :=
  let '(la', w', e) := t_rtu_write_response T la t1 res w in
  GOk [VN tmo; VN la'; VN t35; VN t1; w'; VN e].

(* (the method does not mention its receiver: the translated function has the world as its only parameter) *)
Definition out_rtu_read_request (w : val) : GoLite.res (list val) :=
  GOk ([w] ++ enc_opdu None ++ [VN other_error])%list.

Definition pdu_args (p : pdu) : list val := [VN (p_unit p); VN (p_fc p); vbytes (p_payload p)].

Definition asm_mbap_hyp (fe : fenv) : Prop :=
  forall txn unit fc payload, N.of_nat (List.length payload) < 2 ^ 62 ->
    fe "tcpTransport.assembleMBAPFrame" [VN txn; VN unit; VN fc; vbytes payload] =
    GOk [vbytes (assemble_mbap txn (mkpdu unit fc payload))].
Definition asm_rtu_hyp (fe : fenv) : Prop :=
  forall unit fc payload, bytesb (unit :: fc :: payload) = true ->
    fe "rtuTransport.assembleRTUFrame" [VN unit; VN fc; vbytes payload] =
    GOk [vbytes (assemble_rtu (mkpdu unit fc payload))].
Definition erl_hyp (fe : fenv) : Prop :=
  forall fc b2, fc < 256 -> b2 < 256 -> fe "expectedResponseLenth" [VN fc; VN b2] = erl_expected fc b2.
Definition crc_hyp (fe : fenv) : Prop :=
  (forall s, fe "crc.init" [VN s] = GOk [VN crc_init]) /\
  (forall s l, bytesb l = true -> fe "crc.add" [VN s; vbytes l] = GOk [VN (crc_from s l)]) /\
  (forall s lo hi, fe "crc.isEqual" [VN s; VN lo; VN hi] = GOk [VN s; VB (crc_is_equal s lo hi)]).
Definition read_mbap_hyp (fe : fenv) (T : tworld) : Prop :=
  forall tmo last w, fe "tcpTransport.readMBAPFrame" [VN tmo; VN last; w] = out_read_mbap T tmo last w.
Definition read_response_hyp (fe : fenv) (T : tworld) (rfuel : nat) : Prop :=
  forall tmo last w, fe "tcpTransport.readResponse" [VN tmo; VN last; w] = out_read_response T rfuel tmo last w.
Definition read_rtu_hyp (fe : fenv) (T : tworld) : Prop :=
  forall tmo la t35 t1 w,
    fe "rtuTransport.readRTUFrame" [VN tmo; VN la; VN t35; VN t1; w] = out_read_rtu T tmo la t35 t1 w.
Definition discard_hyp (fe : fenv) (T : tworld) : Prop := forall w, fe "discard" [w] = out_discard T w.

(* a frame the assemblers accept *)
Definition pdu_ok (p : pdu) : Prop :=
  bytesb (p_unit p :: p_fc p :: p_payload p) = true /\ N.of_nat (List.length (p_payload p)) < 2 ^ 62.

(* the interpreter on the linked program agrees with the model on concrete worlds *)

Definition sw (e : send) : tworld := stream_world e 2 src_eof (c_ueof src_codes).
Definition good_frame : list N := [0; 7; 0; 0; 0; 5; 9; 3; 2; 0xab; 0xcd] ++ [1; 2].
Definition tests_mbap : list (send * list N) :=
  [(Stall, good_frame); (Stall, [0; 7; 0; 0; 0; 0; 9; 3]); (Closed, [0; 7; 0; 0; 0; 1; 9; 3]);
   (Closed, [0; 7; 0; 1; 0; 3; 9; 3; 2; 5]); (Reset, [0; 7; 0; 0; 1; 0; 9]); (Closed, [0; 7; 0; 0; 0; 255; 9]);
   (Closed, [0; 7; 0]); (Closed, []); (Stall, [0; 7; 0; 0; 0; 5; 9; 3; 2])].

Example sanity_read_mbap :
  forallb (fun c => res_eqb (call_with src_pure (world_base (sw (fst c))) 50 "tcpTransport.readMBAPFrame"
                               [VN 1000; VN 7; vbytes (snd c)])
                            (out_read_mbap (sw (fst c)) 1000 7 (vbytes (snd c)))) tests_mbap = true.
Proof. vm_compute. reflexivity. Qed.

Definition frame2 : list N := [0; 8; 0; 0; 0; 4; 9; 3; 2; 0x11].
Definition tests_resp : list (send * list N) :=
  [(Stall, good_frame); (Stall, (good_frame ++ frame2)%list); (Stall, (frame2 ++ good_frame)%list);
   (Closed, ([0; 8; 0; 5; 0; 2; 1; 1] ++ frame2 ++ good_frame)%list); (Closed, frame2); (Reset, []);
   (Stall, ([0; 7; 0; 0; 0; 0; 9] ++ good_frame)%list)].

Example sanity_read_response :
  forallb (fun c => res_eqb (call_with src_pure (world_base (sw (fst c))) 50 "tcpTransport.readResponse"
                               [VN 1000; VN 7; vbytes (snd c)])
                            (out_read_response (sw (fst c)) 50 1000 7 (vbytes (snd c)))) tests_resp = true.
Proof. vm_compute. reflexivity. Qed.

Example sanity_read_response_fuel :
  res_eqb (call_with src_pure (world_base (sw Stall)) 2 "tcpTransport.readResponse"
             [VN 1000; VN 7; vbytes (frame2 ++ frame2 ++ good_frame)%list])
          (out_read_response (sw Stall) 2 1000 7 (vbytes (frame2 ++ frame2 ++ good_frame)%list)) = true.
Proof. vm_compute. reflexivity. Qed.

Example sanity_tcp_read_request :
  forallb (fun c => res_eqb (call_with src_pure (world_base (sw (fst c))) 50 "tcpTransport.ReadRequest"
                               [VN 1000; VN 3; vbytes (snd c)])
                            (out_tcp_read_request (sw (fst c)) 1000 3 (vbytes (snd c)))) tests_mbap = true.
Proof. vm_compute. reflexivity. Qed.

Definition req1 : pdu := mkpdu 9 3 [0; 1; 0; 2].

Example sanity_tcp_write_response :
  res_eqb (call_with src_pure (world_base (sw Stall)) 50 "tcpTransport.WriteResponse"
             ([VN 1000; VN 65535] ++ pdu_args req1 ++ [vbytes good_frame])%list)
          (out_tcp_write_response (sw Stall) 1000 65535 req1 (vbytes good_frame)) = true.
Proof. vm_compute. reflexivity. Qed.

Example sanity_tcp_execute :
  forallb (fun c => res_eqb (call_with src_pure (world_base (sw (fst c))) 50 "tcpTransport.ExecuteRequest"
                               ([VN 1000; VN 6] ++ pdu_args req1 ++ [vbytes (snd c)])%list)
                            (out_tcp_execute (sw (fst c)) 50 1000 6 req1 (vbytes (snd c)))) tests_resp = true.
Proof. vm_compute. reflexivity. Qed.

Example sanity_tcp_execute_wrap :
  res_eqb (call_with src_pure (world_base (sw Stall)) 50 "tcpTransport.ExecuteRequest"
             ([VN 1000; VN 65535] ++ pdu_args req1 ++ [vbytes ([0; 0; 0; 0; 0; 4; 9; 3; 2; 0x11])])%list)
          (out_tcp_execute (sw Stall) 50 1000 65535 req1 (vbytes [0; 0; 0; 0; 0; 4; 9; 3; 2; 0x11])) = true.
Proof. vm_compute. reflexivity. Qed.

Example sanity_tcp_close :
  res_eqb (call_with src_pure (world_base (sw Stall)) 50 "tcpTransport.Close" [VN 1000; VN 6; vbytes [1]])
          (out_close (sw Stall) [VN 1000; VN 6] (vbytes [1])) = true.
Proof. vm_compute. reflexivity. Qed.

Definition rtu_ok : list N := assemble_rtu (mkpdu 9 3 [4; 1; 2; 3; 4]).
Definition rtu_exc : list N := assemble_rtu (mkpdu 9 0x83 [2]).
Definition rtu_wr : list N := assemble_rtu (mkpdu 9 16 [0; 1; 0; 2]).
Definition tests_rtu : list (send * list N) :=
  [(Stall, rtu_ok); (Stall, (rtu_ok ++ [7; 7])%list); (Closed, rtu_exc); (Reset, rtu_wr);
   (Stall, []); (Closed, []); (Reset, []); (Stall, [9]); (Closed, [9; 3]); (Closed, [9; 3; 4; 1; 2]);
   (Stall, [9; 3; 4; 1; 2]); (Reset, [9; 3; 4; 1; 2]); (Closed, [9; 3; 4]); (Stall, [9; 99; 4; 1; 2; 3]);
   (Stall, [9; 3; 252; 1]); (Stall, [9; 3; 255; 1]); (Stall, (removelast rtu_ok ++ [0])%list);
   (Stall, (9 :: 3 :: 251 :: repeat 5 260)%list)].

Example sanity_read_rtu :
  forallb (fun c => res_eqb (call_with src_pure (world_base (sw (fst c))) 300 "rtuTransport.readRTUFrame"
                               [VN 1000; VN 5; VN 35; VN 10; vbytes (snd c)])
                            (out_read_rtu (sw (fst c)) 1000 5 35 10 (vbytes (snd c)))) tests_rtu = true.
Proof. vm_compute. reflexivity. Qed.

Example sanity_discard :
  res_eqb (call_with src_pure (world_base (sw Stall)) 50 "discard" [vbytes (repeat 5 1500)])
          (out_discard (sw Stall) (vbytes (repeat 5 1500))) = true.
Proof. vm_compute. reflexivity. Qed.

Example sanity_rtu_execute_stream :
  forallb (fun c => res_eqb (call_with src_pure (world_base (sw (fst c))) 300 "rtuTransport.ExecuteRequest"
                               ([VN 1000; VN 5; VN 35; VN 10] ++ pdu_args req1 ++ [vbytes (snd c)])%list)
                            (out_rtu_execute (sw (fst c)) 1000 5 35 10 req1 (vbytes (snd c)))) tests_rtu = true.
Proof. vm_compute. reflexivity. Qed.

(* with a running clock: the silent peer; lastActivity before / after now *)
Definition cw : tworld := clock_world (c_timedout src_codes).
Definition tests_clock : list (N * N) := [(100, 1000); (5000, 1000); (990, 1000); (0, 0); (965, 1000); (966, 1000)].

Example sanity_rtu_execute_clock :
  forallb (fun c => res_eqb (call_with src_pure (world_base cw) 300 "rtuTransport.ExecuteRequest"
                               ([VN 1000000; VN (fst c); VN 35; VN 10] ++ pdu_args req1 ++ [mkclock (snd c) []])%list)
                            (out_rtu_execute cw 1000000 (fst c) 35 10 req1 (mkclock (snd c) []))) tests_clock = true.
Proof. vm_compute. reflexivity. Qed.

Example sanity_rtu_write_response :
  res_eqb (call_with src_pure (world_base cw) 300 "rtuTransport.WriteResponse"
             ([VN 1000000; VN 7; VN 35; VN 10] ++ pdu_args req1 ++ [mkclock 500 []])%list)
          (out_rtu_write_response cw 1000000 7 35 10 req1 (mkclock 500 [])) = true.
Proof. vm_compute. reflexivity. Qed.

Example sanity_rtu_read_request :
  res_eqb (call_with src_pure (world_base cw) 300 "rtuTransport.ReadRequest" [mkclock 500 []])
          (out_rtu_read_request (mkclock 500 [])) = true.
Proof. vm_compute. reflexivity. Qed.

Example sanity_rtu_close :
  res_eqb (call_with src_pure (world_base cw) 300 "rtuTransport.Close" [VN 1; VN 2; VN 3; VN 4; mkclock 500 []])
          (out_close cw [VN 1; VN 2; VN 3; VN 4] (mkclock 500 [])) = true.
Proof. vm_compute. reflexivity. Qed.
