(* Proofs for C05: replies are matched to requests by transaction id - in the
   single exchange, by the counter over any history, and over histories in
   which the peer delivers whole frames (the matching rule th_take of
   Spec/TxnSpec.v). *)
From Modbus Require Import Base.Bytes Model.Crc Model.Encoding Model.Wire Model.Client
  Model.TxnHistory Spec.ModbusSpec Spec.ClientSpec Spec.TxnSpec
  Proofs.FramingP Proofs.ClientReqP Proofs.ClientRespP.

Lemma exchange_mbap txn req e s :
  transport_exchange FMbap txn req e s =
  (fst (mbap_read_response (S (length s)) e (u16 (txn + 1)) s),
   [assemble_mbap (u16 (txn + 1)) req],
   snd (mbap_read_response (S (length s)) e (u16 (txn + 1)) s),
   u16 (txn + 1)).
Proof.
  unfold transport_exchange.
  destruct (mbap_read_response (S (length s)) e (u16 (txn + 1)) s) as [r rest]. reflexivity.
Qed.

(* T1: a reply that is returned stood in the stream at a frame boundary,
   behind frames the reader has to skip, under the id of the request *)
Lemma exchange_reply_matches : forall txn req e s p w rest t',
  bytesb s = true ->
  transport_exchange FMbap txn req e s = (Ok p, w, rest, t') ->
  t' = u16 (txn + 1) /\ w = [spec_frame FMbap t' req] /\
  exists frames,
    Forall (skippable t') frames /\
    s = concat frames ++ spec_frame FMbap t' p ++ rest /\
    lenN (p_payload p) <= 252.
Proof.
  intros txn req e s p w rest t' Hb H. rewrite exchange_mbap in H.
  destruct (mbap_read_response (S (length s)) e (u16 (txn + 1)) s) as [r rest0] eqn:E.
  cbn [fst snd] in H. injection H as -> <- -> <-.
  split; [reflexivity|]. split; [rewrite mbap_frame_spec; reflexivity|].
  destruct (mbap_response_inv _ _ _ _ _ _ Hb E) as (frames & HF & Hs & Hl).
  exists frames. split; [exact HF|]. split; [|exact Hl].
  rewrite spec_frame_mbap. exact Hs.
Qed.

Lemma exchange_skips : forall txn req e frames rest,
  Forall (skippable (u16 (txn + 1))) frames ->
  transport_exchange FMbap txn req e (concat frames ++ rest) =
  transport_exchange FMbap txn req e rest.
Proof. intros txn req e frames rest HF. rewrite !exchange_mbap, mbap_skips by exact HF. reflexivity. Qed.

Lemma exchange_waits : forall txn req e frames tail,
  Forall (skippable (u16 (txn + 1))) frames -> (length tail < 7)%nat ->
  transport_exchange FMbap txn req e (concat frames ++ tail) =
  (Err (short_err e), [assemble_mbap (u16 (txn + 1)) req], [], u16 (txn + 1)).
Proof. intros txn req e frames tail HF Ht. rewrite exchange_mbap, mbap_waits by assumption. reflexivity. Qed.

Lemma call_mbap cfg txn o e s req : client_request cfg o = Ok req ->
  let R := mbap_read_response (S (length s)) e (u16 (txn + 1)) s in
  client_call FMbap cfg txn o e s =
  mkcall (after_recv cfg o req (fst R)) [assemble_mbap (u16 (txn + 1)) req] (snd R)
         (u16 (txn + 1)).
Proof.
  intros Hreq R. subst R. unfold client_call. rewrite Hreq, exchange_mbap.
  destruct (mbap_read_response (S (length s)) e (u16 (txn + 1)) s) as [r rest].
  cbn [fst snd]. destruct r as [res|x| |]; cbn [after_recv]; try reflexivity.
  destruct (unit_check req res); reflexivity.
Qed.

Lemma call_waits : forall cfg txn o e frames tail,
  op_wf o -> valid_op o = true ->
  Forall (skippable (u16 (txn + 1))) frames -> (length tail < 7)%nat ->
  let r := client_call FMbap cfg txn o e (concat frames ++ tail) in
  cr_res r = Err (short_err e) /\ cr_rest r = [] /\ cr_txn r = u16 (txn + 1).
Proof.
  intros cfg txn o e frames tail Hwf V HF Ht r. subst r.
  destruct (request_valid_ok cfg o Hwf V) as (req & Hreq & _).
  unfold client_call. rewrite Hreq, (exchange_waits txn req e frames tail HF Ht).
  cbn [cr_res cr_rest cr_txn]. repeat split.
Qed.

(* some result, for nth on lists of results *)
Definition call_dflt : call_result := mkcall Panic [] [] 0.

Lemma th_id_lt txn0 i : th_id txn0 i < 65536.
Proof. unfold th_id. lia. Qed.

Lemma th_id_succ txn0 j : u16 ((txn0 + j) mod 65536 + 1) = th_id txn0 j.
Proof. unfold u16, th_id. lia. Qed.

Lemma th_id_eq txn0 i j : th_id txn0 i = th_id txn0 j <-> i mod 65536 = j mod 65536.
Proof. unfold th_id. split; intros H; lia. Qed.

Lemma call_txn fr cfg txn o e s : op_wf o ->
  cr_txn (client_call fr cfg txn o e s) =
  match fr with
  | FMbap => if valid_op o then u16 (txn + 1) else txn
  | FRtu => txn
  end.
Proof.
  intros Hwf. unfold client_call. rewrite (client_request_exact cfg o Hwf).
  destruct (valid_op o).
  - unfold transport_exchange. destruct fr.
    + destruct (mbap_read_response _ _ _ _) as [r rest].
      destruct r as [res|x| |]; try reflexivity.
      destruct (unit_check _ res); reflexivity.
    + destruct (rtu_read_response _ _) as [r rest].
      destruct r as [res|x| |]; try reflexivity.
      destruct (unit_check _ res); reflexivity.
  - destruct fr; reflexivity.
Qed.

Lemma hist_run_length fr cfg xs : forall st, length (hist_run fr cfg st xs) = length xs.
Proof.
  induction xs as [|x t IH]; intros st; [reflexivity|].
  cbn [hist_run hist_step length]. rewrite IH. reflexivity.
Qed.

Lemma hist_run_app fr cfg a b : forall st,
  hist_run fr cfg st (a ++ b) = hist_run fr cfg st a ++ hist_run fr cfg (hist_final fr cfg st a) b.
Proof.
  induction a as [|x t IH]; intros st; [reflexivity|].
  cbn [app hist_run hist_final hist_step fst]. rewrite IH. reflexivity.
Qed.

Lemma hist_run_nth fr cfg st pre x post d :
  nth (length pre) (hist_run fr cfg st (pre ++ x :: post)) d =
  snd (hist_step fr cfg (hist_final fr cfg st pre) x).
Proof.
  rewrite hist_run_app. cbn [hist_run hist_step snd].
  rewrite <- (hist_run_length fr cfg pre st) at 1.
  rewrite nth_middle. reflexivity.
Qed.

Lemma th_sent_app a b : th_sent (a ++ b) = th_sent a + th_sent b.
Proof. unfold th_sent. rewrite filter_app. apply lenN_app. Qed.

Lemma th_sent_all_valid xs : Forall (fun x => valid_op (ths_op x) = true) xs -> th_sent xs = lenN xs.
Proof.
  unfold th_sent. induction 1 as [|x t Hx _ IH]; [reflexivity|].
  cbn [filter]. rewrite Hx. unfold lenN in *. cbn [length]. lia.
Qed.

Lemma hist_counter cfg xs : forall st,
  Forall (fun x => op_wf (ths_op x)) xs -> th_txn st < 65536 ->
  th_txn (hist_final FMbap cfg st xs) = (th_txn st + th_sent xs) mod 65536.
Proof.
  induction xs as [|x t IH]; intros st HF Ht.
  - cbn [hist_final]. unfold th_sent. cbn. lia.
  - inversion HF as [|? ? Hx Ht']; subst.
    cbn [hist_final hist_step fst]. rewrite IH; [|exact Ht'|].
    + cbn [th_txn]. rewrite (call_txn FMbap) by exact Hx.
      change (x :: t) with ([x] ++ t). rewrite th_sent_app.
      unfold th_sent at 2. cbn [filter].
      destruct (valid_op (ths_op x)); unfold lenN, u16; cbn [length]; lia.
    + cbn [th_txn]. rewrite (call_txn FMbap) by exact Hx.
      destruct (valid_op (ths_op x)); unfold u16; lia.
Qed.

Lemma hist_request_id : forall cfg st pre x post d,
  cfg_wf cfg -> th_txn st < 65536 ->
  Forall (fun x => op_wf (ths_op x)) (pre ++ x :: post) ->
  let r := nth (length pre) (hist_run FMbap cfg st (pre ++ x :: post)) d in
  (valid_op (ths_op x) = true ->
   cr_writes r = [spec_frame FMbap (th_id (th_txn st) (th_sent pre)) (spec_pdu cfg (ths_op x))]) /\
  (valid_op (ths_op x) = false -> cr_writes r = [] /\ cr_res r = Err EParams).
Proof.
  intros cfg st pre x post d Hcfg Ht HF r. subst r.
  rewrite hist_run_nth. cbn [hist_step snd].
  apply Forall_app in HF as [Hpre Hx]. inversion Hx as [|? ? Hx' _]; subst.
  pose proof (hist_counter cfg pre st Hpre Ht) as Hc.
  assert (Hlt : th_txn (hist_final FMbap cfg st pre) < 65536) by (rewrite Hc; lia).
  destruct (client_transmit FMbap cfg (th_txn (hist_final FMbap cfg st pre)) (ths_op x)
              (th_end_after (th_end (hist_final FMbap cfg st pre)) (ths_end x))
              (th_left (hist_final FMbap cfg st pre) ++ ths_bytes x) Hx' Hcfg Hlt) as [H1 H2].
  split; intros V.
  - rewrite (H1 V). rewrite Hc, th_id_succ. reflexivity.
  - destruct (H2 V) as (Hw & Hr & _). split; assumption.
Qed.

Lemma th_bytes_frame txn0 f : th_frame_wf f ->
  exists t proto unit fc payload,
    th_bytes txn0 f = mbap_frame t proto unit fc payload /\
    t < 65536 /\ proto < 65536 /\ lenN payload <= 252 /\
    match f with
    | ThReply i res => t = th_id txn0 i /\ proto = 0 /\ res = mkpdu unit fc payload
    | ThForeign _ _ _ => proto <> 0
    end.
Proof.
  destruct f as [i [unit fc payload]|t proto [unit fc payload]]; cbn [th_frame_wf p_payload].
  - intros Hl. exists (th_id txn0 i), 0, unit, fc, payload.
    split; [reflexivity|]. pose proof (th_id_lt txn0 i). repeat split; try lia.
  - intros (Ht & Hp & Hp0 & Hl). exists t, proto, unit, fc, payload.
    split; [reflexivity|]. repeat split; assumption.
Qed.

Lemma th_skippable txn0 j f : th_frame_wf f -> th_accepts j f = false ->
  skippable (th_id txn0 j) (th_bytes txn0 f).
Proof.
  intros Hwf Ha. destruct (th_bytes_frame txn0 f Hwf) as (t & proto & unit & fc & payload & Hb & Ht & Hp & Hl & Hk).
  rewrite Hb. apply skippable_frame. exists t, proto, unit, fc, payload.
  split; [reflexivity|]. repeat split; try assumption.
  destruct f as [i res|t' proto' res]; cbn [th_accepts] in Ha.
  - destruct Hk as (-> & -> & _). right. rewrite th_id_eq. lia.
  - left. exact Hk.
Qed.

Lemma th_passed_skippable txn0 j fs :
  Forall th_frame_wf fs -> Forall (fun f => th_accepts j f = false) fs ->
  Forall (skippable (th_id txn0 j)) (map (th_bytes txn0) fs).
Proof.
  intros Hwf Hsk. apply Forall_map. rewrite Forall_forall in *.
  intros f Hin. apply th_skippable; [apply Hwf|apply Hsk]; exact Hin.
Qed.

Lemma th_stream_app txn0 a b : th_stream txn0 (a ++ b) = th_stream txn0 a ++ th_stream txn0 b.
Proof. unfold th_stream. rewrite map_app, concat_app. reflexivity. Qed.

Lemma th_stream_cons txn0 f t : th_stream txn0 (f :: t) = th_bytes txn0 f ++ th_stream txn0 t.
Proof. reflexivity. Qed.

Lemma th_take_skip j f t : th_accepts j f = false -> th_take j (f :: t) = th_take j t.
Proof. destruct f; cbn [th_accepts th_take]; [intros ->|]; reflexivity. Qed.

Lemma th_take_view j pend :
  match th_take j pend with
  | Some (res, rest) =>
      exists skipped i,
        pend = skipped ++ ThReply i res :: rest /\ i mod 65536 = j mod 65536 /\
        Forall (fun f => th_accepts j f = false) skipped
  | None => Forall (fun f => th_accepts j f = false) pend
  end.
Proof.
  induction pend as [|f t IH]; [constructor|].
  destruct (th_accepts j f) eqn:A.
  - destruct f as [i r|]; [|discriminate A]. cbn [th_accepts] in A. cbn [th_take]. rewrite A.
    exists [], i. split; [reflexivity|]. split; [lia|constructor].
  - rewrite (th_take_skip j f t A). destruct (th_take j t) as [[res rest]|].
    + destruct IH as (sk & i & -> & Hi & Hsk). exists (f :: sk), i.
      split; [reflexivity|]. split; [exact Hi|]. constructor; [exact A|exact Hsk].
    + constructor; [exact A|exact IH].
Qed.

Lemma th_take_some j pend res rest : th_take j pend = Some (res, rest) <->
  exists skipped i,
    pend = skipped ++ ThReply i res :: rest /\ i mod 65536 = j mod 65536 /\
    Forall (fun f => th_accepts j f = false) skipped.
Proof.
  split.
  - intros E. pose proof (th_take_view j pend) as H. rewrite E in H. exact H.
  - intros (sk & i & -> & Hi & Hsk). induction Hsk as [|f sk Hf _ IH].
    + cbn [app th_take]. replace (i mod 65536 =? j mod 65536) with true by lia. reflexivity.
    + cbn [app]. rewrite th_take_skip by exact Hf. exact IH.
Qed.

Lemma th_take_none j pend : th_take j pend = None <-> Forall (fun f => th_accepts j f = false) pend.
Proof.
  pose proof (th_take_view j pend) as H. split.
  - intros E. rewrite E in H. exact H.
  - intros HF. destruct (th_take j pend) as [[res rest]|]; [|reflexivity].
    (* the frame taken is accepted *)
    destruct H as (sk & i & -> & Hi & _). apply Forall_app in HF as [_ HF].
    inversion HF as [|? ? Hf _]; subst. cbn [th_accepts] in Hf. lia.
Qed.

Lemma th_take_wf j pend res rest : Forall th_frame_wf pend ->
  th_take j pend = Some (res, rest) -> Forall th_frame_wf rest /\ lenN (p_payload res) <= 252.
Proof.
  intros HF E. apply th_take_some in E as (sk & i & -> & _).
  apply Forall_app in HF as [_ HF]. inversion HF as [|? ? Hf Ht]; subst.
  split; [exact Ht|exact Hf].
Qed.

Lemma th_next_wf j pend : Forall th_frame_wf pend -> Forall th_frame_wf (th_next j pend).
Proof.
  intros HF. unfold th_next. destruct (th_take j pend) as [[res rest]|] eqn:E; [|constructor].
  apply (th_take_wf j pend res rest HF E).
Qed.

Lemma th_next_incl j pend f : In f (th_next j pend) -> In f pend.
Proof.
  unfold th_next. destruct (th_take j pend) as [[res rest]|] eqn:E; [|intros []].
  apply th_take_some in E as (sk & i & Hall & _). intros H. rewrite Hall.
  apply in_or_app. right. right. exact H.
Qed.

Lemma th_pending_incl pre : forall j pend f,
  In f (th_pending j pend pre) -> In f pend \/ In f (concat (map ss_frames pre)).
Proof.
  induction pre as [|x t IH]; intros j pend f H; [left; exact H|].
  cbn [th_pending] in H. apply IH in H as [H|H].
  - apply th_next_incl in H. apply in_app_or in H as [H|H]; [left; exact H|].
    right. cbn [map concat]. apply in_or_app. left. exact H.
  - right. cbn [map concat]. apply in_or_app. right. exact H.
Qed.

(* the receive loop on a stream of whole frames follows the matching rule *)
Lemma mbap_take txn0 j e all : Forall th_frame_wf all ->
  let s := th_stream txn0 all in
  mbap_read_response (S (length s)) e (th_id txn0 j) s =
  match th_take j all with
  | Some (res, rest) => (Ok res, th_stream txn0 rest)
  | None => (Err (short_err e), [])
  end.
Proof.
  intros HF s. subst s. pose proof (th_take_view j all) as H.
  destruct (th_take j all) as [[[unit fc payload] rest]|].
  - destruct H as (sk & i & -> & Hi & Hsk).
    apply Forall_app in HF as [Hwf HF]. inversion HF as [|? ? Hl _]; subst.
    rewrite th_stream_app, th_stream_cons. cbn [th_bytes].
    replace (th_id txn0 i) with (th_id txn0 j) by (apply th_id_eq; lia).
    apply (mbap_response_frame e _ (map (th_bytes txn0) sk));
      [apply th_passed_skippable; assumption|apply th_id_lt|exact Hl].
  - rewrite <- (app_nil_r (th_stream txn0 all)).
    apply (mbap_waits e _ (map (th_bytes txn0) all));
      [apply th_passed_skippable; assumption|cbn [length]; lia].
Qed.

Lemma call_lone cfg txn o e res req : client_request cfg o = Ok req ->
  txn < 65536 -> lenN (p_payload res) <= 252 ->
  client_call FMbap cfg txn o e (spec_frame FMbap (u16 (txn + 1)) res) =
  mkcall (after_recv cfg o req (Ok res)) [assemble_mbap (u16 (txn + 1)) req] [] (u16 (txn + 1)).
Proof.
  intros Hreq Ht Hl. rewrite (call_mbap cfg txn o e _ req Hreq).
  destruct res as [unit fc payload]. cbn [p_payload] in Hl.
  pose proof (mbap_response_frame e (u16 (txn + 1)) [] unit fc payload []) as H.
  cbn [concat app] in H. rewrite app_nil_r in H. rewrite spec_frame_mbap.
  cbn [p_unit p_fc p_payload].
  rewrite H; [reflexivity|constructor|unfold u16; lia|exact Hl].
Qed.

Lemma hist_step_frames : forall cfg txn0 j pend e x,
  txn0 < 65536 -> Forall th_frame_wf pend -> th_sstep_ok x ->
  let t := (txn0 + j) mod 65536 in
  let e' := th_end_after e (ss_end x) in
  let all := pend ++ ss_frames x in
  let sr := hist_step FMbap cfg (mkth t (th_stream txn0 pend) e) (th_concrete txn0 x) in
  fst sr = mkth ((txn0 + (j + 1)) mod 65536) (th_stream txn0 (th_next j all)) e' /\
  match th_take j all with
  | Some (res, rest) =>
      cr_res (snd sr) = cr_res (client_call FMbap cfg t (ss_op x) e' (spec_frame FMbap (th_id txn0 j) res)) /\
      cr_rest (snd sr) = th_stream txn0 rest
  | None => cr_res (snd sr) = Err (short_err e') /\ cr_rest (snd sr) = []
  end.
Proof.
  intros cfg txn0 j pend e x Ht0 Hpend (Hwf & V & Hfr) t e' all sr. subst sr.
  destruct (request_valid_ok cfg (ss_op x) Hwf V) as (req & Hreq & _).
  assert (Hall : Forall th_frame_wf all) by (apply Forall_app; split; assumption).
  cbn [hist_step th_concrete th_txn th_left th_end ths_op ths_bytes ths_end fst snd].
  fold e'. rewrite <- th_stream_app. fold all.
  assert (Hid : u16 (t + 1) = th_id txn0 j) by apply th_id_succ.
  rewrite (call_mbap cfg t (ss_op x) e' _ req Hreq). rewrite !Hid.
  rewrite (mbap_take txn0 j e' all Hall).
  cbn [cr_txn cr_rest cr_res]. unfold th_next.
  destruct (th_take j all) as [[res rest]|] eqn:E; cbn [fst snd].
  - split; [f_equal; unfold th_id; lia|].
    destruct (th_take_wf j all res rest Hall E) as [_ Hl].
    rewrite <- Hid.
    rewrite (call_lone cfg t (ss_op x) e' res req Hreq) by (assumption || (unfold t; lia)).
    split; reflexivity.
  - split; [f_equal; unfold th_id; lia|split; reflexivity].
Qed.

Lemma th_end_run_snoc e pre x : th_end_run e (pre ++ [x]) = th_end_after (th_end_run e pre) (ss_end x).
Proof. unfold th_end_run. rewrite fold_left_app. reflexivity. Qed.

Lemma hist_final_frames cfg txn0 pre : forall j pend e,
  txn0 < 65536 -> Forall th_frame_wf pend -> Forall th_sstep_ok pre ->
  hist_final FMbap cfg (mkth ((txn0 + j) mod 65536) (th_stream txn0 pend) e)
    (map (th_concrete txn0) pre) =
  mkth ((txn0 + (j + lenN pre)) mod 65536) (th_stream txn0 (th_pending j pend pre))
       (th_end_run e pre) /\
  Forall th_frame_wf (th_pending j pend pre).
Proof.
  induction pre as [|x t IH]; intros j pend e Ht0 Hpend Hpre.
  - cbn [map hist_final th_pending th_end_run fold_left]. unfold lenN. cbn [length].
    split; [f_equal; f_equal; lia|exact Hpend].
  - inversion Hpre as [|? ? Hx Ht]; subst.
    cbn [map hist_final th_pending].
    destruct (hist_step_frames cfg txn0 j pend e x Ht0 Hpend Hx) as [Hst _].
    cbv zeta in Hst. rewrite Hst.
    assert (Hn : Forall th_frame_wf (th_next j (pend ++ ss_frames x))).
    { apply th_next_wf. apply Forall_app. split; [exact Hpend|]. apply Hx. }
    destruct (IH (j + 1) (th_next j (pend ++ ss_frames x)) (th_end_after e (ss_end x)) Ht0 Hn Ht)
      as [H1 H2].
    rewrite H1. split; [|exact H2].
    rewrite lenN_cons. unfold th_end_run. cbn [fold_left].
    f_equal. f_equal. lia.
Qed.

Lemma hist_frames : forall cfg txn0 pend0 e0 pre x post d,
  txn0 < 65536 -> Forall th_frame_wf pend0 -> Forall th_sstep_ok (pre ++ x :: post) ->
  let j := lenN pre in
  let t := (txn0 + j) mod 65536 in
  let e := th_end_after (th_end_run e0 pre) (ss_end x) in
  let all := th_pending 0 pend0 pre ++ ss_frames x in
  let r := nth (length pre)
             (hist_run FMbap cfg (mkth txn0 (th_stream txn0 pend0) e0)
                (map (th_concrete txn0) (pre ++ x :: post))) d in
  match th_take j all with
  | Some (res, rest) =>
      cr_res r = cr_res (client_call FMbap cfg t (ss_op x) e (spec_frame FMbap (th_id txn0 j) res)) /\
      cr_rest r = th_stream txn0 rest
  | None => cr_res r = Err (short_err e) /\ cr_rest r = []
  end.
Proof.
  intros cfg txn0 pend0 e0 pre x post d Ht0 Hpend HF j t e all r. subst r.
  apply Forall_app in HF as [Hpre Hx]. inversion Hx as [|? ? Hx' _]; subst.
  rewrite map_app. cbn [map].
  rewrite <- (map_length (th_concrete txn0) pre), hist_run_nth.
  replace (mkth txn0) with (mkth ((txn0 + 0) mod 65536)) by (f_equal; lia).
  destruct (hist_final_frames cfg txn0 pre 0 pend0 e0 Ht0 Hpend Hpre) as [Hfin Hwf].
  rewrite Hfin.
  exact (proj2 (hist_step_frames cfg txn0 (0 + lenN pre) _ _ x Ht0 Hwf Hx')).
Qed.

(* P is what the history lemma says of the result when a frame was taken *)
Lemma th_take_ok txn0 j all (r : call_result) e vs (P : pdu -> Prop) :
  match th_take j all with
  | Some (res, rest) => P res /\ cr_rest r = th_stream txn0 rest
  | None => cr_res r = Err (short_err e) /\ cr_rest r = []
  end ->
  cr_res r = Ok vs ->
  exists skipped i res rest,
    all = skipped ++ ThReply i res :: rest /\ i mod 65536 = j mod 65536 /\
    th_id txn0 i = th_id txn0 j /\ Forall (fun f => th_accepts j f = false) skipped /\
    P res /\ cr_rest r = th_stream txn0 rest.
Proof.
  intros HH H. destruct (th_take j all) as [[res rest]|] eqn:E.
  - destruct HH as [Hres Hrest]. apply th_take_some in E as (sk & i & Hall & Hi & Hsk).
    exists sk, i, res, rest. split; [exact Hall|]. split; [exact Hi|].
    split; [apply th_id_eq; exact Hi|]. split; [exact Hsk|]. split; [exact Hres|exact Hrest].
  - destruct HH as [Hres _]. rewrite Hres in H. discriminate H.
Qed.

(* a request that succeeds consumed a reply built for a request with the same
   number modulo 2^16, found behind frames the rule passes over *)
Lemma hist_no_misattribution : forall cfg txn0 pend0 e0 pre x post d vs,
  txn0 < 65536 -> Forall th_frame_wf pend0 -> Forall th_sstep_ok (pre ++ x :: post) ->
  let j := lenN pre in
  let r := nth (length pre)
             (hist_run FMbap cfg (mkth txn0 (th_stream txn0 pend0) e0)
                (map (th_concrete txn0) (pre ++ x :: post))) d in
  cr_res r = Ok vs ->
  exists skipped i res rest,
    th_pending 0 pend0 pre ++ ss_frames x = skipped ++ ThReply i res :: rest /\
    i mod 65536 = j mod 65536 /\
    th_id txn0 i = th_id txn0 j /\
    Forall (fun f => th_accepts j f = false) skipped /\
    cr_res (client_call FMbap cfg ((txn0 + j) mod 65536) (ss_op x)
              (th_end_after (th_end_run e0 pre) (ss_end x))
              (spec_frame FMbap (th_id txn0 j) res)) = Ok vs /\
    cr_rest r = th_stream txn0 rest.
Proof.
  intros cfg txn0 pend0 e0 pre x post d vs Ht0 Hpend HF j r H. subst r.
  pose proof (hist_frames cfg txn0 pend0 e0 pre x post d Ht0 Hpend HF) as HH.
  cbv zeta in HH. fold j in HH.
  destruct (th_take_ok txn0 j _ _ _ vs _ HH H) as (sk & i & res & rest & H1 & H2 & H3 & H4 & H5 & H6).
  exists sk, i, res, rest. rewrite <- H5. repeat split; assumption.
Qed.
