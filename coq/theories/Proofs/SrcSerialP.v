(* serial.go (serialPortWrapper) as translated from the Go source
   (Gen/SrcPure.v) computes the wrapper model of Model/Transport.v
   ([t_serial_read]) on every world. *)
From Coq Require Import List NArith String Lia Bool.
Import ListNotations.
From Modbus Require Import Base.Bytes Model.GoLite Gen.SrcPure Model.Wire Model.Transport.
From Modbus Require Import Proofs.GoLiteP Proofs.GoLiteLinkP Proofs.SrcCrcP Proofs.SrcMiscP Proofs.SrcClientP
  Proofs.SrcTransportP Proofs.SrcWrapP Proofs.SrcWrapRunP.
Open Scope string_scope.
Open Scope N_scope.

Lemma run_serial_Write fe fuel T deadline buf w : port_hyp fe T ->
  run_fn ge fe fuel src_fn_serialPortWrapper_Write [VN deadline; vbytes buf; w] = out_serial_write T deadline buf w.
Proof.
  intros (_ & _ & Hwr & _).
  unfold run_fn, src_fn_serialPortWrapper_Write, out_serial_write.
  gl_step. rewrite Hwr.
  destruct (t_write T w buf) as [[w1 n] e].
  gl_step. reflexivity.
Qed.

Lemma run_serial_SetDeadline fe fuel deadline d w :
  run_fn ge fe fuel src_fn_serialPortWrapper_SetDeadline [VN deadline; VN d; w] = out_serial_setdl d w.
Proof.
  unfold run_fn, src_fn_serialPortWrapper_SetDeadline, out_serial_setdl.
  gl_step. reflexivity.
Qed.

Lemma run_serial_Close fe fuel T deadline w : port_hyp fe T ->
  run_fn ge fe fuel src_fn_serialPortWrapper_Close [VN deadline; w] = out_serial_close T deadline w.
Proof.
  intros (_ & _ & _ & Hcl). run_one_call Hcl.
Qed.

Lemma run_serial_Read fe fuel T deadline buf w : port_hyp fe T -> tread_wf T -> lenN buf < 2 ^ 32 ->
  run_fn ge fe fuel src_fn_serialPortWrapper_Read [VN deadline; vbytes buf; w] = out_serial_read T deadline buf w.
Proof.
  intros (Hnow & Hrd & _) Hwf Hlen.
  run_body. unfold out_serial_read, t_serial_read.
  change (c_timedout src_codes) with 4. change src_ser_tmo with 23.
  (* if time.Now().After(spw.deadline) *)
  pose proof (Hnow w) as Hn. destruct (t_now T w) as [w0 now]. cbn [fst snd] in Hn.
  rewrite seq_assoc.
  erewrite seq_normal by (gl_step; rewrite Hn; gl_close).
  gl_return. guard_cases Ed; [reflexivity|].
  (* cnt, err = spw.port.Read(rxbuf) *)
  pose proof (Hwf w0 (lenN buf)) as Hw. pose proof (Hrd w0 (lenN buf)) as Hc.
  destruct (t_readfull T w0 (lenN buf)) as [[w1 got] e]. destruct Hw as [_ Hle].
  rewrite seq_assoc.
  erewrite seq_normal by (eapply exec_read_call; [reflexivity|reflexivity|lia|exact Hc|reflexivity]).
  rewrite seq_assoc.
  erewrite seq_normal by (eapply exec_splice; [reflexivity|reflexivity|exact Hle|lia|reflexivity]).
  gl_stmt. rewrite map_length.
  (* if err != nil && os.IsTimeout(err) { err = nil } *)
  erewrite seq_normal by (eapply exec_if_join; gl_cond).
  destruct (_ && _); reflexivity.
Qed.

Print Assumptions run_serial_Read.
Print Assumptions run_serial_Write.
Print Assumptions run_serial_SetDeadline.
Print Assumptions run_serial_Close.
