(* server.go handleTransport inside the linked program [src_pure]: one iteration
   of the loop for every request (the per-class lemmas put together), and the
   function called through [call_with src_pure base], the callee hypotheses
   discharged by the lemmas about the linked callees. The transport and the
   handler are the external functions of the base environment. *)
From Coq Require Import List NArith String Lia Bool.
Import ListNotations.
From Modbus Require Import Base.Bytes Model.GoLite Gen.SrcPure Model.Crc Model.Encoding.
From Modbus Require Import Model.Wire Model.Client Model.Server.
From Modbus Require Import Proofs.GoLiteP Proofs.GoLiteLinkP Proofs.SrcCrcP Proofs.SrcLinkP Proofs.SrcMiscP Proofs.SrcClientP.
From Modbus Require Import Proofs.SrcServerP.
From Modbus Require Proofs.SrcServerReadBitsP Proofs.SrcServerReadRegsP Proofs.SrcServerWriteSingleP
                    Proofs.SrcServerWriteMultiP Proofs.SrcServerLoopP.
Open Scope string_scope.
Open Scope N_scope.

Lemma srv_iteration fe fuel W started tt ca cr w rest req :
  world_hyp fe W -> srv_callee_hyp fe -> List.length rest = 18%nat -> snd (w_read W w) = RdOk req ->
  srv_iter_spec fe fuel W started tt ca cr w rest req.
Proof.
  intros HW HC Hlen Hrd.
  assert (Hfc : (p_fc req = 1 \/ p_fc req = 2) \/ (p_fc req = 3 \/ p_fc req = 4) \/
                (p_fc req = 5 \/ p_fc req = 6) \/ (p_fc req = 15 \/ p_fc req = 16) \/
                (p_fc req <> 1 /\ p_fc req <> 2 /\ p_fc req <> 3 /\ p_fc req <> 4 /\
                 p_fc req <> 5 /\ p_fc req <> 6 /\ p_fc req <> 15 /\ p_fc req <> 16)) by lia.
  destruct Hfc as [H|[H|[H|[H|(N1 & N2 & N3 & N4 & N5 & N6 & N15 & N16)]]]].
  - apply SrcServerReadBitsP.srv_iter_read_bits; assumption.
  - apply SrcServerReadRegsP.srv_iter_read_regs; assumption.
  - apply SrcServerWriteSingleP.srv_iter_write_single; assumption.
  - apply SrcServerWriteMultiP.srv_iter_write_multi; assumption.
  - apply SrcServerLoopP.srv_iter_unsupported; assumption.
Qed.

(* the external functions are not functions of the program: the body of
   handleTransport finds them in the base environment *)
Lemma world_hyp_linked base fuel W : world_hyp base W ->
  world_hyp (env_of base "ModbusServer.handleTransport" fuel) W.
Proof.
  intros (Hread & Hcoils & Hdisc & Hhold & Hinp & Hwrite & Hclose & Hherr).
  assert (E : forall f a, absent f (prefix_before "ModbusServer.handleTransport" (p_fns src_pure)) = true ->
              env_of base "ModbusServer.handleTransport" fuel f a = base f a)
    by (intros f a Hf; apply env_base; exact Hf).
  unfold world_hyp.
  do 7 (split; [intros; rewrite E by reflexivity; auto|]).
  exact Hherr.
Qed.

(* the internal callees are the linked functions, whose lemmas ask for fuel
   above the sizes that the server lets through *)
Lemma srv_callee_hyp_linked base fuel : (2000 < fuel)%nat ->
  srv_callee_hyp (env_of base "ModbusServer.handleTransport" fuel).
Proof.
  intros Hfuel. unfold srv_callee_hyp, env_of.
  split; [|split; [|split; [|split; [|split; [|split]]]]].
  - intros e v. callee "ModbusServer.handleTransport" "uint16ToBytes" src_fn_uint16ToBytes.
    apply src_uint16ToBytes_ok.
  - intros e l. callee "ModbusServer.handleTransport" "bytesToUint16" src_fn_bytesToUint16.
    apply src_bytesToUint16_ok.
  - intros l Hl. callee "ModbusServer.handleTransport" "encodeBools" src_fn_encodeBools.
    apply src_encodeBools_ok; [|lia].
    apply N.le_lt_trans with 2000; [lia|reflexivity].
  - intros q bs Hq Hbs. callee "ModbusServer.handleTransport" "decodeBools" src_fn_decodeBools.
    apply src_decodeBools_ok; [lia|lia|exact Hbs].
  - intros l Hl. callee "ModbusServer.handleTransport" "bytesToUint16s" src_fn_bytesToUint16s.
    apply (src_bytesToUint16s_ok base fuel BigE l); [|lia].
    apply N.le_lt_trans with 254; [lia|reflexivity].
  - intros vs Hvs. callee "ModbusServer.handleTransport" "uint16sToBytes" src_fn_uint16sToBytes.
    apply (src_uint16sToBytes_ok base fuel BigE vs).
    apply N.le_lt_trans with 125; [lia|reflexivity].
  - intros v Hv. callee "ModbusServer.handleTransport" "mapErrorToExceptionCode" src_fn_mapErrorToExceptionCode.
    apply src_mapErrorToExceptionCode_ok. exact Hv.
Qed.

Lemma handleTransport_link base fuel args :
  call_with src_pure base fuel "ModbusServer.handleTransport" args =
  run_fn ge (env_of base "ModbusServer.handleTransport" fuel) fuel src_fn_ModbusServer_handleTransport args.
Proof.
  exact (call_env_with src_pure base "ModbusServer.handleTransport" src_fn_ModbusServer_handleTransport
           eq_refl eq_refl fuel args).
Qed.

Theorem src_handleTransport_ok base fuel W started tt ca cr w : world_hyp base W -> (2000 < fuel)%nat ->
  call_with src_pure base fuel "ModbusServer.handleTransport" [started; tt; VN ca; VN cr; w] =
  match srv_loop W ca cr fuel w with Some w' => GOk [started; tt; w'] | None => GoLite.OutOfFuel end.
Proof.
  intros HW Hfuel. rewrite handleTransport_link.
  pose proof (world_hyp_linked base fuel W HW) as HW'.
  apply (SrcServerLoopP.run_handleTransport _ fuel W started tt ca cr HW').
  intros w0 rest req Hlen Hrd.
  apply srv_iteration; [exact HW'|exact (srv_callee_hyp_linked base fuel Hfuel)|exact Hlen|exact Hrd].
Qed.

Print Assumptions src_handleTransport_ok.
