(* Proofs for C18 across the life cycle of the client handle
   (Model/HeapLife.v): the frame rule of Proofs/HeapP.v carried over to
   histories with Close() and Open() among the request calls. *)
From Coq Require Import Arith Lia List.
From Modbus Require Import Base.Bytes Base.Trace Model.Crc Model.Encoding Model.Wire Model.Client Model.Heap
  Model.HeapLife Spec.AliasSpec Proofs.HeapP.
Local Open Scope nat_scope.

(* a request call on a closed handle: only the request builders ran *)
Lemma closed_call_frame gr cfg txn o left h :
  hp_keeps (length h) h (snd (hl_call_closed gr cfg txn o left h)) /\
  (forall v, hr_res (fst (hl_call_closed gr cfg txn o left h)) <> Ok v) /\
  hr_writes (fst (hl_call_closed gr cfg txn o left h)) = [] /\
  hr_rest (fst (hl_call_closed gr cfg txn o left h)) = left /\
  hr_txn (fst (hl_call_closed gr cfg txn o left h)) = txn.
Proof.
  unfold hl_call_closed.
  destruct (fr_request (length h) (length h) gr cfg o h (le_n _) (le_n _)) as [K1 _].
  destruct (hp_request false gr cfg o h) as [[q|x| |] h1|h1]; cbn [hp_heap_of] in K1;
    cbn [fst snd hr_res hr_writes hr_rest hr_txn]; (split; [exact K1|split; [discriminate|repeat split]]).
Qed.

Definition hl_inv (c : hl_client) : Prop :=
  Forall (hs_in 0 (length (hl_heap c))) (hl_results c).

Lemma life_step_frame gr fr c ev :
  hp_keeps (length (hl_heap c)) (hl_heap c) (hl_heap (fst (hl_step gr fr c ev))) /\
  (hl_inv c -> hl_inv (fst (hl_step gr fr c ev))).
Proof.
  unfold hl_inv. destruct ev as [xs|cfg o e chunk| |]; cbn [hl_step];
    try (split; [apply keeps_refl|exact id]).
  - cbn [fst hl_heap hl_results]. assert (K := keeps_app _ (hl_heap c) [xs] (le_n _)).
    split; [exact K|]. exact (results_grow 0 _ _ [] _ K (Forall_nil _)).
  - destruct (hl_closed c).
    + pose proof (closed_call_frame gr cfg (hl_txn c) o (hl_left c) (hl_heap c)) as [K _].
      destruct (hl_call_closed gr cfg (hl_txn c) o (hl_left c) (hl_heap c)) as [r h'].
      cbn [fst snd hl_heap hl_results] in *. split; [exact K|].
      exact (results_grow 0 _ _ [] _ K (Forall_nil _)).
    + pose proof (call_frame gr fr cfg (hl_txn c) o (hl_end_after (hl_end c) e)
                    (hl_left c ++ chunk) (hl_heap c)) as [K Q].
      destruct (hp_call gr fr cfg (hl_txn c) o (hl_end_after (hl_end c) e)
                  (hl_left c ++ chunk) (hl_heap c)) as [r h'].
      cbn [fst snd hl_heap hl_results] in *. split; [exact K|]. exact (results_grow _ _ _ _ _ K Q).
Qed.

Lemma life_run_frame gr fr evs c :
  hp_keeps (length (hl_heap c)) (hl_heap c) (hl_heap (hl_run gr fr c evs)).
Proof. apply (fold_frame hl_heap). intros c' ev. apply life_step_frame. Qed.

Lemma life_run_inv gr fr evs c : hl_inv c -> hl_inv (hl_run gr fr c evs).
Proof. apply run_keeps. intros c' ev. apply life_step_frame. Qed.
