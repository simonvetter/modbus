(* Proofs about long-lived connections to a peer that is alive
   (Model/TimedSteady.v): a call that gets its timely reply leaves nothing
   unread behind, the transaction counter stays a 16-bit value for ever, and
   so EVERY call of a session of ANY length is answered - the counter going
   round does not turn a valid reply into a timeout. *)
From Modbus Require Import Base.Bytes Model.Crc Model.Encoding Model.Wire Model.Client
  Model.Timed Model.TimedSession Model.TimedWrite Model.TimedSteady
  Spec.ModbusSpec Spec.ClientSpec Spec.TimedSpec Spec.TimedWriteSpec Spec.TimedSteadySpec
  Proofs.ClientReqP Proofs.ClientRespP Proofs.TimedP Proofs.TimedWriteP.

(* so the next call of the session starts on a clean connection *)
Lemma tm_timely_mbap_clean : forall k la cfg txn o t0 c pre res vs frames,
  op_wf o -> cfg_wf cfg -> txn < 65536 -> valid_op o = true -> (0 <= tm_timeout k)%Z ->
  bytesb (p_payload res) = true -> answers cfg o res vs ->
  Forall (skippable (u16 (txn + 1))) frames ->
  map snd pre = concat frames ++ spec_frame FMbap (u16 (txn + 1)) res ->
  Forall (fun p => (fst p <= t0 + tm_timeout k)%Z) pre ->
  tmc_rest (tm_client_call FMbap k la cfg txn o t0 c pre) = [].
Proof.
  intros k la cfg txn o t0 c pre res vs frames Hwf Hcfg Htx V Ht Hb Hans HF Hpre Htimes.
  destruct (tm_client_sim_mbap k la cfg txn o t0 c pre Ht) as [_ Hrest].
  rewrite (tm_avail_all _ pre Htimes) in Hrest.
  pose proof (client_complete_mbap cfg txn o (tm_end (t0 + tm_timeout k) c pre) res vs frames []
                Hwf Hcfg Htx V Hb Hans HF) as [_ Hr].
  rewrite app_nil_r, <- Hpre in Hr. rewrite Hr in Hrest.
  (* the unread rest is a part of the stream, so all of it has arrived by the deadline *)
  destruct (tm_client_rest_suffix_mbap k la cfg txn o t0 c pre) as [p Hp].
  rewrite Hp in Htimes. apply Forall_app in Htimes as [_ Hall].
  rewrite (tm_avail_all _ _ Hall) in Hrest.
  apply map_eq_nil in Hrest. exact Hrest.
Qed.

Lemma tm_timely_call_mbap k la cfg txn o t0 pre res vs frames :
  op_wf o -> cfg_wf cfg -> txn < 65536 -> valid_op o = true -> (0 <= tm_timeout k)%Z ->
  bytesb (p_payload res) = true -> answers cfg o res vs ->
  Forall (skippable (u16 (txn + 1))) frames ->
  map snd pre = concat frames ++ spec_frame FMbap (u16 (txn + 1)) res ->
  Forall (fun p => (fst p <= t0 + tm_timeout k)%Z) pre ->
  exists t, tm_client_call FMbap k la cfg txn o t0 None pre = mk_tm_call (Ok vs) t [] /\
            (t0 <= t <= t0 + tm_timeout k)%Z.
Proof.
  intros Hwf Hcfg Htx V Ht Hb Hans HF Hpre Htimes.
  pose proof (tm_timely_mbap k la cfg txn o t0 None pre [] res vs frames Hwf Hcfg Htx V Ht Hb Hans
                HF Hpre Htimes) as Hok.
  cbv zeta in Hok. rewrite app_nil_r in Hok. destruct Hok as [Hres Htime].
  pose proof (tm_timely_mbap_clean k la cfg txn o t0 None pre res vs frames Hwf Hcfg Htx V Ht Hb Hans
                HF Hpre Htimes) as Hrest.
  destruct (tm_client_call FMbap k la cfg txn o t0 None pre) as [r t rest].
  cbn [tmc_res tmc_finish tmc_rest] in *. subst r rest. exists t. split; [reflexivity|exact Htime].
Qed.

Lemma tm_shift_at now d l : tm_shift now (tm_at d l) = tm_at (now + d) l.
Proof. unfold tm_shift, tm_at. rewrite map_map. reflexivity. Qed.

Lemma tm_at_snd d l : map snd (tm_at d l) = l.
Proof. unfold tm_at. rewrite map_map. cbn [snd]. apply map_id. Qed.

Lemma tm_at_times d l D : (d <= D)%Z -> Forall (fun p : Z * N => (fst p <= D)%Z) (tm_at d l).
Proof.
  intros H. apply Forall_forall. intros x Hin. unfold tm_at in Hin.
  apply in_map_iff in Hin as [b [<- _]]. exact H.
Qed.

Lemma tm_foreign_skippable id off res : id < 65536 -> 0 < off < 65536 ->
  lenN (p_payload res) <= 252 ->
  skippable id (assemble_mbap (u16 (id + off)) res).
Proof.
  intros Hid Hoff Hl. exists (u16 (id + off)), 0, (p_unit res), (p_fc res), (p_payload res).
  rewrite mbap_frame_spec. unfold spec_frame, u16.
  repeat split; lia.
Qed.

Lemma tm_next_txn_u16 cfg o txn : txn < 65536 -> tm_next_txn cfg o txn < 65536.
Proof.
  intros H. unfold tm_next_txn, u16. destruct (client_request cfg o); lia.
Qed.

(* for every value the 16-bit transaction counter has when the session
   starts, hence also across its wrap-around(s); a silence in between costs
   one request-timed-out and nothing else *)
Lemma tm_steady_session_mbap k cfg : cfg_wf cfg -> (0 <= tm_timeout k)%Z ->
  forall l la txn room now, txn < 65536 -> Forall (tm_item_wf k cfg) l ->
  Forall2 (tm_step_ok k cfg) l
    (tm_session_w FMbap k cfg la txn room now [] (tm_steady_calls FMbap cfg txn l)).
Proof.
  intros Hcfg Ht. induction l as [|[[o res] a] l IH]; intros la txn room now Htx Hl;
    cbn [tm_steady_calls tm_session_w]; [constructor|].
  inversion Hl as [|x y Hit Hl']; subst.
  destruct Hit as (Hwf & V & Hb & Hlen & [vs Hans] & Ha).
  cbn [app]. rewrite tm_peer_reads. cbn [tmw_call tmw_room tmw_blocked tm_next_la].
  pose proof (tm_next_txn_u16 cfg o txn Htx) as Hnext.
  assert (Hid : u16 (txn + 1) < 65536) by (unfold u16; lia).
  destruct a as [d| |off]; cbn [tm_steady_stream tm_reply_frame tm_act_wf] in *.
  - (* the reply, d after the start of the call *)
    rewrite tm_shift_at.
    destruct (tm_timely_call_mbap k la cfg txn o now (tm_at (now + d) (assemble_mbap (u16 (txn + 1)) res))
                res vs [] Hwf Hcfg Htx V Ht Hb Hans (Forall_nil _)) as (t & -> & Htime).
    { rewrite tm_at_snd, mbap_frame_spec. reflexivity. }
    { apply tm_at_times. lia. }
    cbn [tmc_res tmc_finish tmc_rest].
    constructor; [|apply IH; assumption].
    cbn [tm_step_ok tws_res tws_start tws_finish]. split; [exists vs; split; [assumption|reflexivity]|exact Htime].
  - (* silence *)
    cbn [tm_shift map].
    rewrite (tm_silent_call_mbap k la cfg txn o now Hwf V Ht).
    cbn [tmc_res tmc_finish tmc_rest].
    constructor; [|apply IH; assumption].
    cbn [tm_step_ok tws_res tws_start tws_finish]. split; reflexivity.
  - (* a frame with a foreign id, then the reply *)
    rewrite tm_shift_at.
    set (fo := assemble_mbap (u16 (u16 (txn + 1) + off)) res).
    destruct (tm_timely_call_mbap k la cfg txn o now (tm_at (now + 0) (fo ++ assemble_mbap (u16 (txn + 1)) res))
                res vs [fo] Hwf Hcfg Htx V Ht Hb Hans) as (t & -> & Htime).
    { constructor; [|constructor]. apply tm_foreign_skippable; assumption. }
    { rewrite tm_at_snd, mbap_frame_spec. cbn [concat]. rewrite app_nil_r. reflexivity. }
    { apply tm_at_times. lia. }
    cbn [tmc_res tmc_finish tmc_rest].
    constructor; [|apply IH; assumption].
    cbn [tm_step_ok tws_res tws_start tws_finish]. split; [exists vs; split; [assumption|reflexivity]|exact Htime].
Qed.

Lemma tm_steady_alive_mbap : forall k cfg, cfg_wf cfg -> (0 <= tm_timeout k)%Z ->
  forall l la txn room now, txn < 65536 -> Forall (tm_item_wf k cfg) l ->
  Forall (fun it => snd it <> PaSilent) l ->
  Forall (fun st => exists vs, tws_res st = Ok vs)
    (tm_session_w FMbap k cfg la txn room now [] (tm_steady_calls FMbap cfg txn l)).
Proof.
  intros k cfg Hcfg Ht l la txn room now Htx Hl Hns.
  pose proof (tm_steady_session_mbap k cfg Hcfg Ht l la txn room now Htx Hl) as H2.
  clear Hl. revert Hns. induction H2 as [|[[o res] a] st l' sts Hst _ IH]; intros Hns; [constructor|].
  inversion Hns as [|x y Ha Hns']; subst. cbn [snd] in Ha.
  constructor; [|apply IH; exact Hns'].
  destruct a as [d| |off]; [|destruct (Ha eq_refl)|];
    cbn [tm_step_ok] in Hst; destruct Hst as [[vs [_ Hr]] _]; exists vs; exact Hr.
Qed.

Lemma tm_steady_ids_spec : forall cfg l txn,
  Forall (fun it => op_wf (fst (fst it)) /\ valid_op (fst (fst it)) = true) l ->
  tm_steady_ids cfg txn l = map (fun i => u16 (txn + 1 + N.of_nat i)) (seq 0 (length l)).
Proof.
  intros cfg. induction l as [|[[o res] a] l IH]; intros txn Hl;
    cbn [tm_steady_ids length seq map]; [reflexivity|].
  inversion Hl as [|x y [Hwf V] Hl']; subst. cbn [fst] in Hwf, V.
  unfold tm_next_txn. rewrite (tm_request cfg o Hwf V). cbn [app].
  f_equal; [f_equal; lia|].
  rewrite IH by exact Hl'. rewrite <- seq_shift, map_map.
  apply map_ext. intros i. unfold u16. lia.
Qed.
