(* The transport model (Model/Transport.v) run on a world that is a byte
   stream ([stream_world]) computes the framing model of Model/Wire.v:
   readMBAPFrame / readResponse / readRTUFrame / discard. Model level only
   (no GoLite evaluation). *)
From Coq Require Import List NArith Lia Bool.
Import ListNotations.
From Modbus Require Import Base.Bytes Model.Crc Model.Wire Model.GoLite Model.Transport.
Open Scope N_scope.

Fixpoint distinctb (l : list N) : bool :=
  match l with
  | [] => true
  | x :: t => andb (negb (existsb (N.eqb x) t)) (distinctb t)
  end.

Fixpoint all_ne (l : list N) : Prop :=
  match l with
  | [] => True
  | x :: t => fold_right (fun y P => x <> y /\ P) True t /\ all_ne t
  end.

Lemma existsb_false_ne x t :
  existsb (N.eqb x) t = false -> fold_right (fun y P => x <> y /\ P) True t.
Proof.
  induction t as [|y t IH]; cbn [existsb fold_right]; intros H; [exact I|].
  apply orb_false_iff in H as [H1 H2]. split; [|exact (IH H2)].
  apply N.eqb_neq; exact H1.
Qed.

Lemma distinctb_all_ne l : distinctb l = true -> all_ne l.
Proof.
  induction l as [|x t IH]; cbn [distinctb all_ne]; intros H; [exact I|].
  apply andb_true_iff in H as [H1 H2]. split; [|exact (IH H2)].
  apply existsb_false_ne. apply negb_true_iff; exact H1.
Qed.

Lemma unbytes_map s : bytesb s = true -> unbytes (map VN s) = s.
Proof.
  induction s as [|a s IH]; cbn [map unbytes]; intros H; [reflexivity|].
  change (bytesb (a :: s)) with (andb (is_byte a) (bytesb s)) in H.
  apply andb_true_iff in H as [H1 H2]. unfold is_byte in H1.
  rewrite (IH H2). f_equal. apply N.mod_small. lia.
Qed.

Lemma unbytes_bytes l : bytesb (unbytes l) = true.
Proof.
  induction l as [|v l IH]; [reflexivity|].
  destruct v as [n|b|l']; cbn [unbytes];
    match goal with |- bytesb (?x :: ?t) = true =>
      change (andb (is_byte x) (bytesb t) = true) end;
    rewrite IH; unfold is_byte; lia.
Qed.

Lemma read_full_full n s : (n <= length s)%nat -> read_full n s = RFull (firstn n s) (skipn n s).
Proof. intros H. unfold read_full. destruct (Nat.leb_spec n (length s)); [reflexivity|lia]. Qed.

Lemma read_full_short n s : (length s < n)%nat -> read_full n s = RShort s.
Proof. intros H. unfold read_full. destruct (Nat.leb_spec n (length s)); [lia|reflexivity]. Qed.

Lemma read_mbap_bytes e s : bytesb s = true -> bytesb (snd (read_mbap e s)) = true.
Proof.
  intros H. unfold read_mbap, read_full.
  pose proof (bytesb_skipn 7 s H) as H7.
  destruct (Nat.leb 7 (length s)); [|reflexivity].
  generalize dependent (skipn 7 s). intros rest H7.
  destruct (firstn 7 s) as [|t1 [|t0 [|p1 [|p0 [|l1 [|l0 [|unit [|x hdr]]]]]]]];
    try exact H7.
  destruct (260 <? _); [exact H7|].
  destruct (_ <=? 1); [exact H7|].
  destruct (Nat.leb _ (length rest)); [|reflexivity].
  pose proof (bytesb_skipn (N.to_nat (l1 * 256 + l0 - 1)) rest H7) as H8.
  destruct (negb _); [exact H8|].
  destruct (firstn _ rest); exact H8.
Qed.

Lemma read_rtu_bytes e s : bytesb s = true -> bytesb (snd (read_rtu e s)) = true.
Proof.
  intros H. unfold read_rtu, read_full.
  pose proof (bytesb_skipn 3 s H) as H3.
  destruct (Nat.leb 3 (length s)); [|destruct s; reflexivity].
  generalize dependent (skipn 3 s). intros rest H3.
  destruct (firstn 3 s) as [|u [|fc [|b2 [|x hdr]]]]; try exact H3.
  destruct (expected_len fc b2) as [n|]; [|exact H3].
  destruct (256 <? _); [exact H3|].
  destruct (Nat.leb _ (length rest)).
  - pose proof (bytesb_skipn (N.to_nat (n + 2)) rest H3) as H4.
    destruct (skipn (N.to_nat n) _) as [|lo [|hi [|z tl]]]; try exact H4.
    destruct (crc_is_equal _ _ _); exact H4.
  - destruct e; [reflexivity|destruct rest; reflexivity|reflexivity].
Qed.

(* the errors after which ExecuteRequest flushes the link *)
Definition flushes (x : err) : bool :=
  match x with EBadCRC | EProtocol | EShortFrame => true | _ => false end.

Lemma rtu_read_response_eq e s :
  rtu_read_response e s =
  let '(r, s') := read_rtu e s in
  (r, if match r with Err x => flushes x | _ => false end then skipn 1024 s' else s').
Proof.
  unfold rtu_read_response. destruct (read_rtu e s) as [[q|x| |] s']; try reflexivity.
  destruct x; reflexivity.
Qed.

Lemma mbap_read_response_S f e txn s :
  mbap_read_response (S f) e txn s =
  match read_mbap e s with
  | (FErr EUnknownProto, s') => mbap_read_response f e txn s'
  | (FErr x, s') => (Err x, s')
  | (FOk p t, s') => if t =? txn then (Wire.Ok p, s') else mbap_read_response f e txn s'
  end.
Proof. reflexivity. Qed.

Lemma t_read_response_S T C f last w :
  t_read_response T C (S f) last w =
  let '(w1, p, txn, e) := t_read_mbap T C w in
  if e =? c_unkproto C then t_read_response T C f last w1
  else if negb (e =? 0) then Some (w1, p, e)
  else if negb (last =? txn) then t_read_response T C f last w1
  else Some (w1, p, 0).
Proof. reflexivity. Qed.

Section Stream.
  Variables (C : tcodes) (e : send) (sc ceof : N).
  Hypothesis codes_distinct :
    distinctb [0; 1; sc; ceof; c_ueof C; c_proto C; c_unkproto C; c_badcrc C; c_short C] = true.

  Definition SW := stream_world e sc ceof (c_ueof C).

  (* the class of an error value; [code_table] below lists the values that
     occur, and [code_ok_class] says that the two agree on them *)
  Definition err_class (c : N) : err :=
    if c =? sc then ETimeout
    else if c =? c_proto C then EProtocol
    else if c =? c_unkproto C then EUnknownProto
    else if c =? c_badcrc C then EBadCRC
    else if c =? c_short C then EShortFrame
    else EIO.

  Ltac codes :=
    let D := fresh "D" in
    pose proof (distinctb_all_ne _ codes_distinct) as D; cbn [all_ne fold_right] in D; decompose [and] D; clear D.

  (* decide the comparisons between two distinct (or two identical) codes *)
  Ltac code_eqb :=
    repeat match goal with
           | |- context [N.eqb ?a ?b] =>
               first [ rewrite (N.eqb_refl a)
                     | let E := fresh "E" in
                       destruct (N.eqb_spec a b) as [E|E]; [exfalso; congruence | clear E] ]
           end.

  (* the error values a stream world hands out or the transports make up, each
     with its class: the three i/o errors are told apart only here *)
  Definition code_table : list (N * err) :=
    [(sc, ETimeout); (1, EIO); (ceof, EIO); (c_ueof C, EIO); (c_proto C, EProtocol);
     (c_unkproto C, EUnknownProto); (c_badcrc C, EBadCRC); (c_short C, EShortFrame)].

  Definition code_ok (c : N) (x : err) : Prop := In (c, x) code_table.

  (* membership of a row that is in the table as written *)
  Ltac in_table := unfold code_ok, code_table; cbn [In]; repeat (first [left; reflexivity | right]).

  Lemma code_ok_class c x :
    code_ok c x ->
    c <> 0 /\ err_class c = x /\
    (c =? c_badcrc C) || (c =? c_proto C) || (c =? c_short C) = flushes x.
  Proof.
    unfold code_ok, code_table, err_class. cbn [In]. intros Hin. codes.
    destruct Hin as [E|[E|[E|[E|[E|[E|[E|[E|[]]]]]]]]]; injection E as <- <-;
      (split; [congruence|]); code_eqb; split; reflexivity.
  Qed.

  Lemma ec_unkproto_inv c : err_class c = EUnknownProto -> c = c_unkproto C.
  Proof.
    unfold err_class.
    repeat match goal with
           | |- context [N.eqb ?a ?b] => destruct (N.eqb_spec a b)
           end; intros H; try discriminate H; assumption.
  Qed.

  Definition short_code (got : list N) : N :=
    match e, got with
    | Stall, _ => sc
    | Reset, _ => 1
    | Closed, [] => ceof
    | Closed, _ => c_ueof C
    end.

  Lemma short_code_ok got : code_ok (short_code got) (short_err e).
  Proof. unfold short_code, short_err. destruct e; [|destruct got|]; in_table. Qed.

  Lemma short_code_nz got : short_code got <> 0.
  Proof. exact (proj1 (code_ok_class _ _ (short_code_ok got))). Qed.

  Ltac fin := cbn [fst snd]; repeat split; try in_table.

  Lemma now_SW w : t_now SW w = (w, 0).
  Proof. reflexivity. Qed.
  Lemma setdl_SW w d : t_setdl SW w d = (w, 0).
  Proof. reflexivity. Qed.

  Lemma rf_stream s n :
    bytesb s = true ->
    t_readfull SW (vbytes s) n =
    match read_full (N.to_nat n) s with
    | RFull got rest => (vbytes rest, got, 0)
    | RShort got => (vbytes [], got, short_code got)
    end.
  Proof.
    intros H. unfold SW, stream_world, vbytes, short_code. cbn [t_readfull].
    rewrite (unbytes_map s H). reflexivity.
  Qed.

  Lemma rf_full s n :
    bytesb s = true -> (N.to_nat n <= length s)%nat ->
    t_readfull SW (vbytes s) n = (vbytes (skipn (N.to_nat n) s), firstn (N.to_nat n) s, 0).
  Proof. intros H L. rewrite (rf_stream s n H), (read_full_full _ _ L). reflexivity. Qed.

  Lemma rf_short s n :
    bytesb s = true -> (length s < N.to_nat n)%nat ->
    t_readfull SW (vbytes s) n = (vbytes [], s, short_code s).
  Proof. intros H L. rewrite (rf_stream s n H), (read_full_short _ _ L). reflexivity. Qed.

  Theorem stream_world_wf : tworld_wf SW C.
  Proof.
    unfold tworld_wf. split.
    - intros w bs. unfold SW, stream_world. cbn [t_write]. apply N.le_refl.
    - intros w n. unfold SW, stream_world. cbn [t_readfull].
      set (s := match w with VL l => unbytes l | _ => [] end).
      assert (Hs : bytesb s = true).
      { subst s. destruct w; [reflexivity|reflexivity|apply unbytes_bytes]. }
      fold (short_code s).
      unfold read_full. destruct (Nat.leb_spec (N.to_nat n) (length s)) as [L|L].
      + assert (Hl : lenN (firstn (N.to_nat n) s) = n).
        { unfold lenN. rewrite (firstn_length_le s L). lia. }
        repeat split.
        * apply bytesb_firstn; exact Hs.
        * lia.
        * intros _; exact Hl.
        * intros E0. exfalso. codes. congruence.
      + assert (Hl : lenN s < n) by (unfold lenN; lia).
        pose proof (short_code_nz s) as Hnz.
        repeat split.
        * exact Hs.
        * lia.
        * intros E0. exfalso. exact (Hnz E0).
        * intros E0. lia.
        * assert (Hp : s <> [] -> 0 < lenN s).
          { destruct s; [congruence|]. intros _. unfold lenN. cbn [length]. lia. }
          codes. unfold short_code. destruct e; [congruence| |congruence].
          destruct s; [congruence|]. intros _. apply Hp. discriminate.
  Qed.

  Theorem t_read_mbap_stream s :
    bytesb s = true ->
    let '(w', p, txn, c) := t_read_mbap SW C (vbytes s) in
    w' = vbytes (snd (read_mbap e s)) /\
    match fst (read_mbap e s) with
    | FOk q t => p = Some q /\ txn = t /\ c = 0
    | FErr x => p = None /\ code_ok c x
    end.
  Proof.
    intros Hs. unfold t_read_mbap, read_mbap.
    change (N.to_nat 7) with 7%nat.
    destruct (Nat.leb_spec 7 (length s)) as [L|L].
    2:{ rewrite (rf_short s 7 Hs) by (change (N.to_nat 7) with 7%nat; lia).
        rewrite (read_full_short 7 s) by lia.
        pose proof (short_code_nz s) as Hnz.
        destruct (N.eqb_spec (short_code s) 0) as [E0|E0]; [contradiction|].
        cbn [negb fst snd]. repeat split. apply short_code_ok. }
    rewrite (rf_full s 7 Hs) by (change (N.to_nat 7) with 7%nat; lia).
    rewrite (read_full_full 7 s L).
    change (N.to_nat 7) with 7%nat.
    pose proof (bytesb_skipn 7 s Hs) as Hr.
    destruct s as [|t1 [|t0 [|p1 [|p0 [|l1 [|l0 [|unit rest]]]]]]];
      try (exfalso; cbn [length] in L; lia).
    clear L Hs. cbn [firstn skipn nth] in *.
    change (0 =? 0) with true. cbn [negb].
    set (len := l1 * 256 + l0).
    destruct (N.ltb_spec 254 len) as [G1|G1].
    { replace (260 <? len - 1 + 7) with true by (symmetry; apply N.ltb_lt; lia).
      fin. }
    replace (260 <? len - 1 + 7) with false by (symmetry; apply N.ltb_ge; lia).
    destruct (N.leb_spec len 1) as [G2|G2].
    { fin. }
    destruct (Nat.leb_spec (N.to_nat (len - 1)) (length rest)) as [L|L].
    2:{ rewrite (rf_short rest (len - 1) Hr L), (read_full_short _ rest L).
        pose proof (short_code_nz rest) as Hnz.
        destruct (N.eqb_spec (short_code rest) 0) as [E0|E0]; [contradiction|].
        cbn [negb fst snd]. repeat split. apply short_code_ok. }
    rewrite (rf_full rest (len - 1) Hr L), (read_full_full _ rest L).
    change (0 =? 0) with true. cbn [negb].
    destruct (negb (p1 * 256 + p0 =? 0)).
    { fin. }
    destruct (N.to_nat (len - 1)) as [|k] eqn:Ek; [lia|].
    destruct rest as [|fc rest]; [cbn [length] in L; lia|].
    cbn [firstn skipn nth tl fst snd]. repeat split; reflexivity.
  Qed.

  Theorem t_read_response_stream fuel last s :
    bytesb s = true ->
    match mbap_read_response fuel e last s with
    | (Wire.Ok q, s') => t_read_response SW C fuel last (vbytes s) = Some (vbytes s', Some q, 0)
    | (Wire.Err x, s') =>
        exists c, t_read_response SW C fuel last (vbytes s) = Some (vbytes s', None, c) /\ code_ok c x
    | (Wire.OutOfFuel, _) => t_read_response SW C fuel last (vbytes s) = None
    | (Wire.Panic, _) => False
    end.
  Proof.
    revert s. induction fuel as [|f IH]; intros s Hs; [reflexivity|].
    rewrite mbap_read_response_S, t_read_response_S.
    pose proof (t_read_mbap_stream s Hs) as H.
    pose proof (read_mbap_bytes e s Hs) as Hb.
    destruct (t_read_mbap SW C (vbytes s)) as [[[w' p] txn] c].
    destruct (read_mbap e s) as [fr s'].
    cbn [fst snd] in H, Hb. destruct H as [Hw H]. subst w'.
    destruct fr as [q t|x].
    - destruct H as (Hp & Ht & Hc). subst p txn c.
      replace (0 =? c_unkproto C) with false by (codes; code_eqb; reflexivity).
      change (0 =? 0) with true. cbn [negb].
      rewrite (N.eqb_sym last t).
      destruct (t =? last); cbn [negb]; [reflexivity|exact (IH s' Hb)].
    - destruct H as (Hp & Hc). subst p.
      destruct (code_ok_class c x Hc) as (Hnz & Hx & _).
      destruct (N.eqb_spec c (c_unkproto C)) as [E|E].
      + (* a frame of another protocol is skipped *)
        assert (x = EUnknownProto) as ->.
        { subst c. rewrite <- Hx. unfold err_class. codes. code_eqb. reflexivity. }
        exact (IH s' Hb).
      + destruct (N.eqb_spec c 0) as [E0|E0]; [contradiction|]. cbn [negb].
        assert (Hn : x <> EUnknownProto).
        { intros Hu. apply E. apply ec_unkproto_inv. rewrite Hx. exact Hu. }
        destruct x; try (exists c; split; [reflexivity|exact Hc]).
        contradiction.
  Qed.

  Theorem t_read_rtu_stream s :
    bytesb s = true ->
    let '(w', p, c) := t_read_rtu SW C (vbytes s) in
    w' = vbytes (snd (read_rtu e s)) /\
    match fst (read_rtu e s) with
    | Wire.Ok q => p = Some q /\ c = 0
    | Wire.Err x => p = None /\ code_ok c x
    | _ => False
    end.
  Proof.
    intros Hs. unfold t_read_rtu, read_rtu.
    change (N.to_nat 3) with 3%nat.
    destruct (Nat.leb_spec 3 (length s)) as [L|L].
    2:{ rewrite (rf_short s 3 Hs) by (change (N.to_nat 3) with 3%nat; lia).
        rewrite (read_full_short 3 s) by lia.
        destruct s as [|a [|b [|c' s]]]; [| | |exfalso; cbn [length] in L; lia].
        all: codes.
        - change (lenN (@nil N)) with 0. change (0 <? 0) with false.
          unfold short_code.
          destruct e; code_eqb; cbn [negb andb orb]; fin.
        - change (lenN [a]) with 1. change (0 <? 1) with true.
          change (1 =? 3) with false.
          cbn [negb andb orb]. fin.
        - change (lenN [a; b]) with 2. change (0 <? 2) with true.
          change (2 =? 3) with false.
          cbn [negb andb orb]. fin. }
    rewrite (rf_full s 3 Hs) by (change (N.to_nat 3) with 3%nat; lia).
    rewrite (read_full_full 3 s L).
    change (N.to_nat 3) with 3%nat.
    pose proof (bytesb_skipn 3 s Hs) as Hr.
    destruct s as [|unit [|fc [|b2 rest]]]; try (exfalso; cbn [length] in L; lia).
    clear L Hs. cbn [firstn skipn nth] in *.
    change (lenN [unit; fc; b2]) with 3. change (3 =? 3) with true.
    change (0 =? 0) with true. cbn [negb]. rewrite andb_false_r. cbn [andb].
    destruct (expected_len fc b2) as [n|].
    2:{ fin. }
    destruct (256 <? 3 + (n + 2)).
    { fin. }
    destruct (Nat.leb_spec (N.to_nat (n + 2)) (length rest)) as [L|L].
    2:{ rewrite (rf_short rest (n + 2) Hr L), (read_full_short _ rest L).
        assert (Hl : (lenN rest =? n + 2) = false).
        { apply N.eqb_neq. unfold lenN. lia. }
        codes. unfold short_code. destruct e.
        - code_eqb. cbn [negb andb]. fin.
        - destruct rest as [|r0 rest].
          + code_eqb. cbn [negb andb]. fin.
          + rewrite Hl. code_eqb. cbn [negb andb]. fin.
        - code_eqb. cbn [negb andb]. fin. }
    rewrite (rf_full rest (n + 2) Hr L), (read_full_full _ rest L).
    change (0 =? 0) with true. cbn [negb andb].
    set (body := firstn (N.to_nat (n + 2)) rest).
    assert (Hbl : length body = (N.to_nat n + 2)%nat).
    { subst body. rewrite (firstn_length_le rest L). lia. }
    replace (lenN body =? n + 2) with true
      by (symmetry; apply N.eqb_eq; unfold lenN; lia).
    cbn [negb].
    assert (Hsk : skipn (N.to_nat n) body =
                  [nth (N.to_nat n) body 0; nth (N.to_nat n + 1) body 0]).
    { clearbody body. revert Hbl. generalize (N.to_nat n) as k. clear.
      intros k. revert body. induction k as [|k IH]; intros body Hbl.
      - destruct body as [|x [|y [|z body]]]; cbn [length] in Hbl; try lia. reflexivity.
      - destruct body as [|x body]; cbn [length] in Hbl; [lia|].
        cbn [skipn Nat.add nth]. apply IH. lia. }
    rewrite Hsk.
    change ([unit; fc; b2] ++ firstn (N.to_nat n) body)
      with (unit :: fc :: b2 :: firstn (N.to_nat n) body).
    destruct (crc_is_equal _ _ _); fin.
  Qed.

  Theorem t_discard_stream s :
    bytesb s = true -> t_discard SW (vbytes s) = vbytes (skipn 1024 s).
  Proof.
    intros Hs. unfold t_discard.
    rewrite now_SW. cbv beta iota. rewrite setdl_SW. cbv beta iota.
    rewrite (rf_stream s 1024 Hs). unfold read_full.
    destruct (Nat.leb_spec (N.to_nat 1024) (length s)) as [L|L].
    - reflexivity.
    - cbv beta iota. rewrite skipn_all2; [reflexivity|].
      change (N.to_nat 1024) with 1024%nat in L. lia.
  Qed.

  (* on a stream the clock shows 0, deadlines and writes are accepted and do not
     touch the stream: only the reads (and the flush) of ExecuteRequest remain *)
  Lemma t_tcp_execute_stream fuel tmo last req s :
    bytesb s = true ->
    let last' := (last + 1) mod 65536 in
    match mbap_read_response fuel e last' s with
    | (Wire.Ok q, s') =>
        t_tcp_execute SW C fuel tmo last req (vbytes s) = Some (last', vbytes s', Some q, 0)
    | (Wire.Err x, s') =>
        exists c, t_tcp_execute SW C fuel tmo last req (vbytes s) = Some (last', vbytes s', None, c) /\
                  code_ok c x
    | (Wire.OutOfFuel, _) => t_tcp_execute SW C fuel tmo last req (vbytes s) = None
    | (Wire.Panic, _) => False
    end.
  Proof.
    intros Hs last'.
    assert (Hex : t_tcp_execute SW C fuel tmo last req (vbytes s) =
                  match t_read_response SW C fuel last' (vbytes s) with
                  | Some (w3, p, e3) => Some (last', w3, p, e3)
                  | None => None
                  end) by reflexivity.
    rewrite Hex.
    pose proof (t_read_response_stream fuel last' s Hs) as H.
    destruct (mbap_read_response fuel e last' s) as [[q|x| |] s']; try (rewrite H; reflexivity); [|exact H].
    destruct H as (c & H & Hc). exists c. rewrite H. split; [reflexivity|exact Hc].
  Qed.

  Lemma t_rtu_execute_stream tmo la t35 t1 req s :
    bytesb s = true ->
    let '(_, w', p, c) := t_rtu_execute SW C tmo la t35 t1 req (vbytes s) in
    w' = vbytes (snd (rtu_read_response e s)) /\
    match fst (rtu_read_response e s) with
    | Wire.Ok q => p = Some q /\ c = 0
    | Wire.Err x => p = None /\ code_ok c x
    | _ => False
    end.
  Proof.
    intros Hs. unfold t_rtu_execute.
    cbn [SW stream_world t_now t_setdl t_sleep t_write].
    change (negb (0 =? 0)) with false. cbv iota.
    match goal with |- context [t_read_rtu SW C ?w] =>
      replace w with (vbytes s) by (destruct (slt64 _ 0); reflexivity) end.
    pose proof (t_read_rtu_stream s Hs) as H.
    pose proof (read_rtu_bytes e s Hs) as Hb.
    rewrite rtu_read_response_eq.
    destruct (t_read_rtu SW C (vbytes s)) as [[w8 res] c].
    destruct (read_rtu e s) as [r s'].
    cbn [fst snd] in H, Hb. destruct H as [-> H].
    assert (Hfl : (c =? c_badcrc C) || (c =? c_proto C) || (c =? c_short C) =
                  match r with Wire.Err x => flushes x | _ => false end).
    { destruct r as [q|x| |]; try contradiction.
      - destruct H as [_ ->]. codes. code_eqb. reflexivity.
      - destruct H as [_ Hc]. apply (code_ok_class c x Hc). }
    rewrite Hfl.
    assert (Hd : t_discard SW (vbytes s') = vbytes (skipn 1024 s')) by (apply t_discard_stream; exact Hb).
    destruct (negb _), (match r with Wire.Err x => flushes x | _ => false end);
      cbn [fst snd]; rewrite ?Hd; (split; [reflexivity|exact H]).
  Qed.

End Stream.

Print Assumptions stream_world_wf.
Print Assumptions t_read_mbap_stream.
Print Assumptions t_read_response_stream.
Print Assumptions t_read_rtu_stream.
Print Assumptions t_discard_stream.

(* the hypothesis on the codes is decidable by computation for concrete numbers *)
Example stream_world_wf_concrete :
  tworld_wf (SW (mktcodes 4 14 15 16 19 21) Closed 2 22) (mktcodes 4 14 15 16 19 21).
Proof. apply stream_world_wf. vm_compute. reflexivity. Qed.
