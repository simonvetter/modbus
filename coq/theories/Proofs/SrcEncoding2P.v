(* encoding.go as translated from the Go source (Gen/SrcPure.v) computes the
   model of Model/Encoding.v, for every input: the list codecs
   uint16sToBytes, bytesToUint16s, bytesToUint32s, bytesToUint64s,
   bytesToFloat32s, bytesToFloat64s. The three integer decoders are instances
   of [chunk_loop] (GoLiteP.v). *)
From Coq Require Import List NArith String Lia Bool.
Import ListNotations.
From Modbus Require Import Base.Bytes Model.GoLite Gen.SrcPure Model.Crc Model.Encoding.
From Modbus Require Import Proofs.GoLiteP Proofs.SrcCrcP Proofs.SrcEncodingP.
Open Scope N_scope.

Lemma nth_error_pre_k (pre rest : list N) k :
  nth_error (map VN (pre ++ rest)) (N.to_nat (N.of_nat (List.length pre) + k)) =
  nth_error (map VN rest) (N.to_nat k).
Proof.
  replace (N.to_nat (N.of_nat (List.length pre) + k)) with (List.length pre + N.to_nat k)%nat by lia.
  apply nth_error_map_app.
Qed.

Lemma nth_error_pre_0 (pre rest : list N) :
  nth_error (map VN (pre ++ rest)) (N.to_nat (N.of_nat (List.length pre))) =
  nth_error (map VN rest) 0.
Proof. rewrite <- (N.add_0_r (N.of_nat _)). apply nth_error_pre_k. Qed.

Lemma skipn_pre (pre rest : list N) :
  skipn (N.to_nat (N.of_nat (List.length pre))) (map VN (pre ++ rest)) = map VN rest.
Proof. rewrite Nat2N.id. apply skipn_map_app. Qed.

Lemma bytes_to_uint_4 big a b c d :
  bytes_to_uint big 4 [VN a; VN b; VN c; VN d] =
  Ok (VN (be_value (if big then [a; b; c; d] else [d; c; b; a]))).
Proof. destruct big; reflexivity. Qed.

Lemma bytes_to_uint_8 big a b c d a' b' c' d' :
  bytes_to_uint big 8 [VN a; VN b; VN c; VN d; VN a'; VN b'; VN c'; VN d'] =
  Ok (VN (be_value (if big then [a; b; c; d; a'; b'; c'; d'] else [d'; c'; b'; a'; d; c; b; a]))).
Proof. destruct big; reflexivity. Qed.

(* decide the comparisons of the goal by lia *)
Ltac cmp_lia :=
  repeat match goal with
  | |- context [N.ltb ?a ?b] =>
      first [replace (N.ltb a b) with true by lia | replace (N.ltb a b) with false by lia]
  | |- context [N.leb ?a ?b] =>
      first [replace (N.leb a b) with true by lia | replace (N.leb a b) with false by lia]
  end.

(* i + k - i, the length of the slice in[i:i+k] *)
Ltac sub_lia :=
  repeat match goal with
  | |- context [N.to_nat (?x + ?k - ?x)] => replace (N.to_nat (x + k - x)) with (N.to_nat k) by lia
  end.

(* evaluation of a loop body reading in[i..i+k-1] at i = length pre; the
   byte-order primitives stay folded *)
Ltac gl_eval_pre :=
  repeat (progress (
    with_strategy opaque [bytes_to_uint be_value] gl_cbv_sym; gl_consts;
    rewrite ?map_length, ?app_length, ?skipn_pre, ?nth_error_pre_k, ?nth_error_pre_0;
    gl_consts; sub_lia; gl_consts;
    cbn [List.length map nth_error firstn];
    rewrite ?bytes_to_uint_4, ?bytes_to_uint_8;
    cmp_lia)).

(* [u = UintNN([]byte{in[i+j1], in[i+j2], ...})], the form the decoders take when
   byte and word order differ: in slot 2, i in slot 5, u in slot 4. When some
   i+j is past the end the statement panics, whichever index is met first. *)
Fixpoint idx_exprs (js : list N) : exprs :=
  match js with
  | [] => ENil
  | j :: t => ECons (EIndex (EVar 2) (EBin OAdd I64 (EVar 5) (EN j))) (idx_exprs t)
  end.

Lemma evals_idx_short fe st pre rest js j :
  get_slot st 2 = Ok (VL (map VN (pre ++ rest))) -> get_slot st 5 = Ok (VN (N.of_nat (List.length pre))) ->
  Forall (fun j => N.of_nat (List.length pre) + j < 2 ^ 63) js ->
  In j js -> N.of_nat (List.length rest) <= j ->
  evals ge fe st (idx_exprs js) = Panic.
Proof.
  intros H2 H5 Hw. induction Hw as [|j0 js Hj0 Hw IH]; intros Hin Hj; [destruct Hin|].
  cbn [idx_exprs evals eval rbind arith]. rewrite H2, H5. cbn [rbind]. rewrite (wrap_I64_ok _ Hj0).
  cbn [rbind]. rewrite nth_error_pre_k, nth_error_map.
  destruct (nth_error rest (N.to_nat j0)) as [v|] eqn:E; [|reflexivity].
  cbn [option_map rbind]. rewrite IH; [reflexivity| |exact Hj].
  destruct Hin as [->|Hin]; [|exact Hin].
  assert (nth_error rest (N.to_nat j) = None) by (apply nth_error_None; lia). congruence.
Qed.

Lemma set_idx_short fe fuel st big k pre rest js j :
  get_slot st 2 = Ok (VL (map VN (pre ++ rest))) -> get_slot st 5 = Ok (VN (N.of_nat (List.length pre))) ->
  Forall (fun j => N.of_nat (List.length pre) + j < 2 ^ 63) js ->
  In j js -> N.of_nat (List.length rest) <= j ->
  exec ge fe fuel st (SSet (LVar 4) (EBytesToUint big k (ELit (idx_exprs js)))) = OFail Panic.
Proof.
  intros H2 H5 Hw Hin Hj.
  change (match rbind (rbind (rbind (evals ge fe st (idx_exprs js)) (fun vs => Ok (VL vs)))
                             (fun va => match va with VL l => bytes_to_uint big k l | _ => Stuck end))
                      (fun v => store st (RVar 4) v)
          with Ok st' => ONormal st' | r => ofail r end = OFail Panic).
  rewrite (evals_idx_short fe st pre rest js j H2 H5 Hw Hin Hj). reflexivity.
Qed.

(* (cut out of the generated tree: see crc_add_loop_body in SrcCrcP.v) *)
Definition u16s2b_body : stmt :=
  Eval cbv in match f_body src_fn_uint16sToBytes with
              | SSeq (SRange _ _ _ b) _ => b
              | _ => SSkip
              end.

Section U16s2B.
  Variable fe : fenv.
  Variable fuel : nat.
  Variable e : endian.
  Hypothesis Hc : forall e v, fe "uint16ToBytes"%string [VN (endian_sel e); VN v] = Ok [vbytes (u16_to_bytes e v)].

  Lemma u16s2b_body_step pre v t acc :
    exec ge fe fuel [VN (endian_sel e); vbytes (pre ++ v :: t); vbytes acc; VN (N.of_nat (List.length pre))]
         u16s2b_body =
    ONormal [VN (endian_sel e); vbytes (pre ++ v :: t); vbytes (acc ++ u16_to_bytes e v);
             VN (N.of_nat (List.length pre))].
  Proof.
    unfold u16s2b_body, vbytes. gl_step.
    rewrite nth_error_pre_0. cbn [map nth_error rbind]. rewrite Hc. gl_step.
    unfold vbytes. rewrite (map_app VN acc). reflexivity.
  Qed.

  Lemma u16s2b_loop : forall rest pre acc idx,
    exists idx',
    range_go (fun st' => exec ge fe fuel st' u16s2b_body) (Some 3%nat) None
             (N.of_nat (List.length pre)) (map VN rest)
             [VN (endian_sel e); vbytes (pre ++ rest); vbytes acc; idx]
    = ONormal [VN (endian_sel e); vbytes (pre ++ rest); vbytes (acc ++ u16s_to_bytes e rest); idx'].
  Proof.
    induction rest as [|v t IH]; intros pre acc idx.
    - exists idx. cbn [map range_go u16s_to_bytes flat_map]. rewrite !app_nil_r. reflexivity.
    - cbn [map]. erewrite range_go_step; [|reflexivity|apply u16s2b_body_step].
      replace (N.of_nat (List.length pre) + 1) with (N.of_nat (List.length (pre ++ [v])))
        by (rewrite app_length; cbn [List.length]; lia).
      replace (pre ++ v :: t) with ((pre ++ [v]) ++ t) by (rewrite <- app_assoc; reflexivity).
      destruct (IH (pre ++ [v]) (acc ++ u16_to_bytes e v) (VN (N.of_nat (List.length pre)))) as (idx' & E).
      exists idx'. rewrite E.
      unfold u16s_to_bytes. cbn [flat_map]. rewrite <- !app_assoc. reflexivity.
  Qed.
End U16s2B.

Lemma run_uint16sToBytes fe fuel e vs :
  (forall e v, fe "uint16ToBytes"%string [VN (endian_sel e); VN v] = Ok [vbytes (u16_to_bytes e v)]) ->
  run_fn ge fe fuel src_fn_uint16sToBytes [VN (endian_sel e); vbytes vs] = Ok [vbytes (u16s_to_bytes e vs)].
Proof.
  intros Hc.
  destruct (u16s2b_loop fe fuel e Hc vs [] [] (VN 0)) as (idx' & E).
  cbn [app List.length N.of_nat] in E.
  unfold run_fn.
  change (f_body src_fn_uint16sToBytes) with
    (SSeq (SRange (Some 3%nat) None (EVar 1) u16s2b_body) (SReturn ENil)).
  cbn [f_nparams f_zeros f_outs f_results src_fn_uint16sToBytes]. gl_step.
  change (VL []) with (vbytes []). unfold vbytes at 1. rewrite E. reflexivity.
Qed.

Definition b2u16s_parts : expr * stmt * stmt :=
  Eval cbv in match f_body src_fn_bytesToUint16s with
              | SSeq (SSeq _ (SFor c p b)) _ => (c, p, b)
              | _ => (EB false, SSkip, SSkip)
              end.
Definition b2u16s_cond := fst (fst b2u16s_parts).
Definition b2u16s_post := snd (fst b2u16s_parts).
Definition b2u16s_body := snd b2u16s_parts.

Lemma b2u16s_loop fe fuel e :
  (forall l, fe "bytesToUint16"%string [VN (endian_sel e); vbytes l] =
             match bytes_to_u16 e l with Some v => Ok [VN v] | None => Panic end) ->
  forall n rest pre acc, lenN (pre ++ rest) < 2 ^ 62 -> (List.length rest < n)%nat ->
  for_go n (fun st => eval ge fe st b2u16s_cond) (fun st => exec ge fe fuel st b2u16s_body)
         (fun st => exec ge fe fuel st b2u16s_post)
         [VN (endian_sel e); vbytes (pre ++ rest); vbytes acc; VN (lenN pre)] =
  match bytes_to_u16s e rest with
  | Some r => ONormal [VN (endian_sel e); vbytes (pre ++ rest); vbytes (acc ++ r); VN (lenN (pre ++ rest))]
  | None => OFail Panic
  end.
Proof.
  intros Hc n rest pre acc Hlen Hn.
  pose (dec := fun c => match bytes_to_u16 e c with Some v => v | None => 0 end).
  destruct (chunk_loop 2 dec (bytes_to_u16s e)
              (fun l a (_ : val) i => [VN (endian_sel e); vbytes l; vbytes a; VN i])
              (fun st => eval ge fe st b2u16s_cond) (fun st => exec ge fe fuel st b2u16s_body)
              (fun st => exec ge fe fuel st b2u16s_post)) with (n := n) (rest := rest) (pre := pre) (a := acc) (u := VN 0)
    as [_ E]; try assumption; [lia|reflexivity|..].
  - intros [|x [|y r]] Hr; cbn [List.length] in Hr; try lia. reflexivity.
  - intros [|x [|y [|z c]]] t Ec; try discriminate Ec. reflexivity.
  - intros l a _ i. rewrite <- (lenN_map VN l). reflexivity.
  - intros l a _ i Hi. change (N.of_nat 2) with 2 in Hi. apply N.ltb_lt in Hi. gl_eval_sym. rewrite Hi. reflexivity.
  - intros pr [|x [|y [|z c]]] t a _ Ec Hl; try discriminate Ec. exists (VN 0).
    rewrite !lenN_app in Hl. unfold lenN, vbytes in *. cbn [app List.length] in *.
    gl_eval_pre. cbn [map firstn].
    change (VN match e with BigE => 1 | LittleE => 2 end) with (VN (endian_sel e)).
    change (VL [VN x; VN y]) with (VL (map VN [x; y])). rewrite Hc. unfold dec. cbn [bytes_to_u16].
    rewrite !map_app. reflexivity.
  - intros pr [|x [|y r]] a _ Hr Hl; cbn [List.length] in Hr; try lia.
    rewrite !lenN_app in Hl. unfold lenN, vbytes in *. cbn [List.length] in *.
    gl_eval_pre. reflexivity.
Qed.

Lemma run_bytesToUint16s fe fuel e l :
  (forall l, fe "bytesToUint16"%string [VN (endian_sel e); vbytes l] =
             match bytes_to_u16 e l with Some v => Ok [VN v] | None => Panic end) ->
  N.of_nat (List.length l) < 2 ^ 62 -> (List.length l < fuel)%nat ->
  run_fn ge fe fuel src_fn_bytesToUint16s [VN (endian_sel e); vbytes l] =
  match bytes_to_u16s e l with Some r => Ok [vbytes r] | None => Panic end.
Proof.
  intros Hc Hlen Hfuel.
  pose proof (b2u16s_loop fe fuel e Hc fuel l [] [] Hlen Hfuel) as E. cbn [app] in E.
  unfold run_fn.
  change (f_body src_fn_bytesToUint16s) with
    (SSeq (SSeq (SSet (LVar 3) (EN 0)) (SFor b2u16s_cond b2u16s_post b2u16s_body)) (SReturn ENil)).
  cbn [f_nparams f_zeros f_outs f_results src_fn_bytesToUint16s]. gl_step.
  change (VL []) with (vbytes []). change (VN 0) with (VN (lenN (@nil N))).
  rewrite E.
  destruct (bytes_to_u16s e l) as [r|]; reflexivity.
Qed.

(* bytesToUint32s and bytesToUint64s:
   [for i := 0; i < len(in); i += k { <sel: a switch that decodes in[i..i+k-1] into u>; out = append(out, u) }]
   with endianness, wordOrder, in, out, u, i in slots 0..5. The generated
   functions are instances (run_bytesToUint32s applies run_words_fn to
   src_fn_bytesToUint32s): see pass_fn in SrcEncodingP.v *)
Definition words_fn (k : N) (sel : stmt) : fn := {|
  f_nparams := 3;
  f_zeros := [VL []; VN 0; VN 0];
  f_outs := [];
  f_results := [3%nat];
  f_body :=
    SSeq (SSet (LVar 4) (EN 0))
    (SSeq (SSeq (SSet (LVar 5) (EN 0))
    (SFor (ECmp CLt (EVar 5) (ELen (EVar 2)))
    (SSet (LVar 5) (EBin OAdd I64 (EVar 5) (EN k)))
    (SSeq sel (SSet (LVar 3) (EAppend (EVar 3) (ECons (EVar 4) ENil))))))
    (SReturn ENil))
|}.

Section Words.
  Variables (fe : fenv) (fuel : nat) (e w : N).
  Variables (k : nat) (sel : stmt) (dec : list N -> N) (decs : list N -> option (list N)).
  Hypothesis Hk : (0 < k)%nat.
  Hypothesis decs_nil : decs [] = Some [].
  Hypothesis decs_short : forall r, (0 < List.length r < k)%nat -> decs r = None.
  Hypothesis decs_group : forall c t, List.length c = k -> decs (c ++ t) = option_map (cons (dec c)) (decs t).
  Hypothesis sel_eval : forall pre c t out u,
    List.length c = k -> N.of_nat (List.length pre + List.length (c ++ t)) < 2 ^ 62 ->
    exec ge fe fuel [VN e; VN w; VL (map VN (pre ++ c ++ t)); out; u; VN (N.of_nat (List.length pre))] sel =
    ONormal [VN e; VN w; VL (map VN (pre ++ c ++ t)); out; VN (dec c); VN (N.of_nat (List.length pre))].
  Hypothesis sel_short : forall pre r out u,
    (0 < List.length r < k)%nat -> N.of_nat (List.length pre + List.length r) < 2 ^ 62 ->
    exec ge fe fuel [VN e; VN w; VL (map VN (pre ++ r)); out; u; VN (N.of_nat (List.length pre))] sel =
    OFail Panic.

  Lemma run_words_fn l :
    N.of_nat (List.length l) < 2 ^ 62 -> (List.length l < fuel)%nat ->
    run_fn ge fe fuel (words_fn (N.of_nat k) sel) [VN e; VN w; vbytes l] =
    match decs l with Some r => Ok [vbytes r] | None => Panic end.
  Proof.
    intros Hlen Hfuel.
    pose (st := fun (l a : list N) (u : val) (i : N) => [VN e; VN w; vbytes l; vbytes a; u; VN i]).
    destruct (chunk_loop k dec decs st
                (fun s => eval ge fe s (ECmp CLt (EVar 5) (ELen (EVar 2))))
                (fun s => exec ge fe fuel s (SSeq sel (SSet (LVar 3) (EAppend (EVar 3) (ECons (EVar 4) ENil)))))
                (fun s => exec ge fe fuel s (SSet (LVar 5) (EBin OAdd I64 (EVar 5) (EN (N.of_nat k))))))
      with (n := fuel) (rest := l) (pre := @nil N) (a := @nil N) (u := VN 0) as [u' E]; try assumption.
    - intros l0 a u0 i. rewrite <- (lenN_map VN l0). reflexivity.
    - intros l0 a u0 i Hi. unfold st. gl_step. cbn [arith]. rewrite (wrap_I64_ok _ Hi). reflexivity.
    - intros pre c t a u0 Ec Hl. exists (VN (dec c)).
      rewrite lenN_app in Hl. unfold lenN, st, vbytes in *. rewrite <- Nat2N.inj_add in Hl.
      cbn [exec]. rewrite sel_eval by assumption. gl_step. rewrite (map_app VN a). reflexivity.
    - intros pre r a u0 Hr Hl.
      rewrite lenN_app in Hl. unfold lenN, st, vbytes in *. rewrite <- Nat2N.inj_add in Hl.
      cbn [exec]. rewrite sel_short by assumption. reflexivity.
    - unfold st in E. cbn [app] in E. change (lenN (@nil N)) with 0 in E. change (vbytes []) with (VL []) in E.
      unfold run_fn, words_fn. cbn [f_nparams f_zeros f_outs f_results f_body].
      (* the loop statement is kept folded while the statements around it are run *)
      set (loop := SFor _ _ _). gl_step. subst loop. rewrite exec_for, E.
      destruct (decs l) as [r|]; reflexivity.
  Qed.
End Words.

Definition b2u32s_sel : stmt :=
  Eval cbv in match f_body src_fn_bytesToUint32s with
              | SSeq _ (SSeq (SSeq _ (SFor _ _ (SSeq s _))) _) => s
              | _ => SSkip
              end.

Lemma b2u32s_sel_eval fe fuel e w pre a b c d t out u :
  N.of_nat (List.length pre + S (S (S (S (List.length t))))) < 2 ^ 62 ->
  exec ge fe fuel
       [VN (endian_sel e); VN (word_sel w); VL (map VN (pre ++ a :: b :: c :: d :: t)); out; u;
        VN (N.of_nat (List.length pre))] b2u32s_sel =
  ONormal [VN (endian_sel e); VN (word_sel w); VL (map VN (pre ++ a :: b :: c :: d :: t)); out;
           VN (dec_u32 e w a b c d); VN (N.of_nat (List.length pre))].
Proof. intros Hlen. destruct e, w; gl_eval_pre; reflexivity. Qed.

Lemma b2u32s_sel_short fe fuel e w pre rest out u :
  (0 < List.length rest < 4)%nat ->
  N.of_nat (List.length pre + List.length rest) < 2 ^ 62 ->
  exec ge fe fuel
       [VN (endian_sel e); VN (word_sel w); VL (map VN (pre ++ rest)); out; u;
        VN (N.of_nat (List.length pre))] b2u32s_sel = OFail Panic.
Proof.
  intros Hr Hlen. destruct e, w.
  (* the slice in[i:i+4] is out of range whatever the remainder is *)
  1, 4: gl_eval_pre; reflexivity.
  - apply exec_if_true; [reflexivity|]. apply exec_if_false; [reflexivity|].
    apply (set_idx_short fe fuel _ true 4 pre rest [2; 3; 0; 1] 3);
      [reflexivity|reflexivity|repeat constructor; lia|cbn [In]; tauto|lia].
  - apply exec_if_false; [reflexivity|]. apply exec_if_true; [reflexivity|]. apply exec_if_false; [reflexivity|].
    apply (set_idx_short fe fuel _ false 4 pre rest [2; 3; 0; 1] 3);
      [reflexivity|reflexivity|repeat constructor; lia|cbn [In]; tauto|lia].
Qed.

Lemma run_bytesToUint32s fe fuel e w l :
  N.of_nat (List.length l) < 2 ^ 62 -> (List.length l < fuel)%nat ->
  run_fn ge fe fuel src_fn_bytesToUint32s [VN (endian_sel e); VN (word_sel w); vbytes l] =
  match bytes_to_u32s e w l with Some r => Ok [vbytes r] | None => Panic end.
Proof.
  apply (run_words_fn fe fuel (endian_sel e) (word_sel w) 4 b2u32s_sel
           (fun g => match g with [a; b; c; d] => dec_u32 e w a b c d | _ => 0 end)); [lia|reflexivity|..].
  - intros [|x1 [|x2 [|x3 [|x4 r]]]] Hr; cbn [List.length] in Hr; try lia; reflexivity.
  - intros [|a [|b [|c [|d [|x g]]]]] t Eg; try discriminate Eg. reflexivity.
  - intros pre [|a [|b [|c [|d [|x g]]]]] t out u Eg Hl; try discriminate Eg.
    apply b2u32s_sel_eval. exact Hl.
  - intros pre r out u. apply b2u32s_sel_short.
Qed.

Definition b2u64s_sel : stmt :=
  Eval cbv in match f_body src_fn_bytesToUint64s with
              | SSeq _ (SSeq (SSeq _ (SFor _ _ (SSeq s _))) _) => s
              | _ => SSkip
              end.

Lemma b2u64s_sel_eval fe fuel e w pre a b c d a' b' c' d' t out u :
  N.of_nat (List.length pre + S (S (S (S (S (S (S (S (List.length t))))))))) < 2 ^ 62 ->
  exec ge fe fuel
       [VN (endian_sel e); VN (word_sel w); VL (map VN (pre ++ a :: b :: c :: d :: a' :: b' :: c' :: d' :: t)); out; u;
        VN (N.of_nat (List.length pre))] b2u64s_sel =
  ONormal [VN (endian_sel e); VN (word_sel w); VL (map VN (pre ++ a :: b :: c :: d :: a' :: b' :: c' :: d' :: t)); out;
           VN (dec_u64 e w a b c d a' b' c' d'); VN (N.of_nat (List.length pre))].
Proof. intros Hlen. destruct e, w; gl_eval_pre; reflexivity. Qed.

Lemma b2u64s_sel_short fe fuel e w pre rest out u :
  (0 < List.length rest < 8)%nat ->
  N.of_nat (List.length pre + List.length rest) < 2 ^ 62 ->
  exec ge fe fuel
       [VN (endian_sel e); VN (word_sel w); VL (map VN (pre ++ rest)); out; u;
        VN (N.of_nat (List.length pre))] b2u64s_sel = OFail Panic.
Proof.
  intros Hr Hlen. destruct e, w.
  1, 4: gl_eval_pre; reflexivity.
  - apply exec_if_true; [reflexivity|]. apply exec_if_false; [reflexivity|].
    apply (set_idx_short fe fuel _ true 8 pre rest [6; 7; 4; 5; 2; 3; 0; 1] 7);
      [reflexivity|reflexivity|repeat constructor; lia|cbn [In]; tauto|lia].
  - apply exec_if_false; [reflexivity|]. apply exec_if_true; [reflexivity|]. apply exec_if_false; [reflexivity|].
    apply (set_idx_short fe fuel _ false 8 pre rest [6; 7; 4; 5; 2; 3; 0; 1] 7);
      [reflexivity|reflexivity|repeat constructor; lia|cbn [In]; tauto|lia].
Qed.

Lemma run_bytesToUint64s fe fuel e w l :
  N.of_nat (List.length l) < 2 ^ 62 -> (List.length l < fuel)%nat ->
  run_fn ge fe fuel src_fn_bytesToUint64s [VN (endian_sel e); VN (word_sel w); vbytes l] =
  match bytes_to_u64s e w l with Some r => Ok [vbytes r] | None => Panic end.
Proof.
  apply (run_words_fn fe fuel (endian_sel e) (word_sel w) 8 b2u64s_sel
           (fun g => match g with
                     | [a; b; c; d; a'; b'; c'; d'] => dec_u64 e w a b c d a' b' c' d'
                     | _ => 0
                     end)); [lia|reflexivity|..].
  - intros [|x1 [|x2 [|x3 [|x4 [|x5 [|x6 [|x7 [|x8 r]]]]]]]] Hr; cbn [List.length] in Hr; try lia; reflexivity.
  - intros [|a [|b [|c [|d [|a' [|b' [|c' [|d' [|x g]]]]]]]]] t Eg; try discriminate Eg. reflexivity.
  - intros pre [|a [|b [|c [|d [|a' [|b' [|c' [|d' [|x g]]]]]]]]] t out u Eg Hl; try discriminate Eg.
    apply b2u64s_sel_eval. exact Hl.
  - intros pre r out u. apply b2u64s_sel_short.
Qed.

(* [xs := g(endianness, wordOrder, in); for _, x := range xs { out = append(out, x) }]
   with out in slot 3, xs in slot 4 and x in slot 6 (bytesToFloat32s,
   bytesToFloat64s: instances, checked by run_bytesToFloat32s / 64s) *)
Definition copy_body : stmt := SSet (LVar 3) (EAppend (EVar 3) (ECons (EVar 6) ENil)).

Definition copy_fn (callee : string) : fn := {|
  f_nparams := 3;
  f_zeros := [VL []; VL []; VN 0; VN 0];
  f_outs := [];
  f_results := [3%nat];
  f_body :=
    SSeq (SSet (LVar 4) (ELit ENil))
    (SSeq (SSet (LVar 4) (ECall callee (ECons (EVar 0) (ECons (EVar 1) (ECons (EVar 2) ENil)))))
    (SSeq (SRange None (Some 6%nat) (EVar 4) copy_body)
    (SReturn ENil)))
|}.

Lemma copy_body_step fe fuel s0 s1 s2 acc s4 s5 x :
  exec ge fe fuel [s0; s1; s2; vbytes acc; s4; s5; VN x] copy_body =
  ONormal [s0; s1; s2; vbytes (acc ++ [x]); s4; s5; VN x].
Proof. unfold copy_body, vbytes. gl_step. rewrite map_app. reflexivity. Qed.

Lemma copy_loop fe fuel : forall r s0 s1 s2 acc s4 s5 s6 i,
  exists s6',
  range_go (fun st' => exec ge fe fuel st' copy_body) None (Some 6%nat) i (map VN r)
           [s0; s1; s2; vbytes acc; s4; s5; s6]
  = ONormal [s0; s1; s2; vbytes (acc ++ r); s4; s5; s6'].
Proof.
  induction r as [|x r IH]; intros s0 s1 s2 acc s4 s5 s6 i.
  - exists s6. rewrite app_nil_r. reflexivity.
  - cbn [map]. erewrite range_go_step; [|reflexivity|apply copy_body_step].
    destruct (IH s0 s1 s2 (acc ++ [x]) s4 s5 (VN x) (i + 1)) as (s6' & E).
    exists s6'. rewrite E, <- app_assoc. reflexivity.
Qed.

(* the callee's behaviour is only needed at the arguments of this call *)
Lemma run_copy_fn fe fuel callee a0 a1 a2 (r : option (list N)) :
  fe callee [a0; a1; a2] = match r with Some x => Ok [vbytes x] | None => Panic end ->
  run_fn ge fe fuel (copy_fn callee) [a0; a1; a2] = match r with Some x => Ok [vbytes x] | None => Panic end.
Proof.
  intros Hc. unfold run_fn, copy_fn. gl_step. rewrite Hc.
  destruct r as [r|]; [|reflexivity]. gl_step.
  destruct (copy_loop fe fuel r a0 a1 a2 [] (vbytes r) (VN 0) (VN 0) 0) as (s6' & E).
  unfold vbytes in E |- *. cbn [map app] in E. rewrite E. reflexivity.
Qed.

Lemma run_bytesToFloat32s fe fuel e w l :
  (forall e w l, fe "bytesToUint32s"%string [VN (endian_sel e); VN (word_sel w); vbytes l] =
                 match bytes_to_u32s e w l with Some r => Ok [vbytes r] | None => Panic end) ->
  run_fn ge fe fuel src_fn_bytesToFloat32s [VN (endian_sel e); VN (word_sel w); vbytes l] =
  match bytes_to_u32s e w l with Some r => Ok [vbytes r] | None => Panic end.
Proof. intros Hc. apply (run_copy_fn fe fuel "bytesToUint32s"), Hc. Qed.

Lemma run_bytesToFloat64s fe fuel e w l :
  (forall e w l, fe "bytesToUint64s"%string [VN (endian_sel e); VN (word_sel w); vbytes l] =
                 match bytes_to_u64s e w l with Some r => Ok [vbytes r] | None => Panic end) ->
  run_fn ge fe fuel src_fn_bytesToFloat64s [VN (endian_sel e); VN (word_sel w); vbytes l] =
  match bytes_to_u64s e w l with Some r => Ok [vbytes r] | None => Panic end.
Proof. intros Hc. apply (run_copy_fn fe fuel "bytesToUint64s"), Hc. Qed.
