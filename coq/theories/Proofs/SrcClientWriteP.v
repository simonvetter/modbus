(* client.go as translated from the Go source (Gen/SrcPure.v), the write side against the client model:
   the setters; the echo tests of the write replies; WriteCoil, writeRegisters, WriteCoils, WriteRegister,
   run one Go statement per script line up to [exec_reply_tail] (Proofs/SrcClientP.v); the typed writers,
   which call writeRegisters and encoding (callee specifications [wregs_hyp], [encoding_hyp]). *)
From Coq Require Import List NArith String Lia Bool.
Import ListNotations.
From Modbus Require Import Base.Bytes Model.GoLite Gen.SrcPure Model.Crc Model.Encoding.
From Modbus Require Import Model.Wire Model.Client.
From Modbus Require Import Proofs.EncodingP Proofs.ClientReqP.
From Modbus Require Import Proofs.GoLiteP Proofs.GoLiteLinkP Proofs.SrcCrcP Proofs.SrcLinkP Proofs.SrcMiscP Proofs.SrcClientP.
Open Scope string_scope.
Open Scope N_scope.

Lemma run_SetUnitId fe fuel cfg tt id :
  run_fn ge fe fuel src_fn_ModbusClient_SetUnitId (mc_fields cfg tt ++ [VN id])%list =
  GOk [VN (endian_sel (c_endian cfg)); VN (word_sel (c_word cfg)); VN id; VN tt; VN 0].
Proof.
  unfold run_fn, src_fn_ModbusClient_SetUnitId, mc_fields. gl_auto. reflexivity.
Qed.

Lemma run_SetEncoding fe fuel cfg tt e w :
  run_fn ge fe fuel src_fn_ModbusClient_SetEncoding (mc_fields cfg tt ++ [VN e; VN w])%list =
  if andb (orb (e =? 1) (e =? 2)) (orb (w =? 1) (w =? 2))
  then GOk [VN e; VN w; VN (c_unit cfg); VN tt; VN 0]
  else GOk (mc_fields cfg tt ++ [VN (err_code EParams)])%list.
Proof.
  unfold run_fn, src_fn_ModbusClient_SetEncoding, mc_fields.
  let c := eval vm_compute in (err_code EParams) in change (err_code EParams) with c.
  gl_auto.
  destruct (e =? 1) eqn:E1; gl_auto.
  - destruct (w =? 1) eqn:W1; gl_auto; [reflexivity|].
    destruct (w =? 2) eqn:W2; gl_auto; reflexivity.
  - destruct (e =? 2) eqn:E2; gl_auto; [|reflexivity].
    destruct (w =? 1) eqn:W1; gl_auto; [reflexivity|].
    destruct (w =? 2) eqn:W2; gl_auto; reflexivity.
Qed.

Lemma run_encoding fe fuel cfg tt :
  run_fn ge fe fuel src_fn_ModbusClient_encoding (mc_fields cfg tt) =
  GOk (mc_fields cfg tt ++ [VN (endian_sel (c_endian cfg)); VN (word_sel (c_word cfg))])%list.
Proof.
  unfold run_fn, src_fn_ModbusClient_encoding, mc_fields. gl_auto. reflexivity.
Qed.

Lemma echo_eqb_e e p0 p1 x v y : p0 < 256 -> p1 < 256 -> v < 65536 ->
  list_eqb (p0 :: p1 :: x) (u16_to_bytes e v ++ y) =
  andb ((match e with BigE => p0 * 256 + p1 | LittleE => p1 * 256 + p0 end) =? v) (list_eqb x y).
Proof.
  intros H0 H1 Hv. destruct e; unfold u16_to_bytes, byte_of;
    change (2 ^ (8 * 0)) with 1; change (2 ^ (8 * 1)) with 256; rewrite N.div_1_r; cbn [app list_eqb].
  - destruct (p0 * 256 + p1 =? v) eqn:E.
    + replace (p0 =? (v / 256) mod 256) with true by lia.
      replace (p1 =? v mod 256) with true by lia. reflexivity.
    + destruct (p0 =? (v / 256) mod 256) eqn:E0; [|reflexivity].
      destruct (p1 =? v mod 256) eqn:E1; [|reflexivity]. exfalso. lia.
  - destruct (p1 * 256 + p0 =? v) eqn:E.
    + replace (p1 =? (v / 256) mod 256) with true by lia.
      replace (p0 =? v mod 256) with true by lia. reflexivity.
    + destruct (p0 =? v mod 256) eqn:E0; [|reflexivity].
      destruct (p1 =? (v / 256) mod 256) eqn:E1; [|reflexivity]. exfalso. lia.
Qed.

(* the echo test of WriteRegister, WriteCoils and writeRegisters:
   len(p) != 4 || bytesToUint16(BIG_ENDIAN, p[0:2]) != addr || bytesToUint16(e, p[2:4]) != x *)
Definition echo_cond (rn rp : nat) (xa ee xx : expr) : expr :=
  EOrElse (EOrElse (ECmp CNe (ELen (EDeref (EVar rn) (EVar rp))) (EN 4))
                   (ECmp CNe (ECall "bytesToUint16" (ECons (EN 1) (ECons (ESlice (EDeref (EVar rn) (EVar rp)) (EN 0) (EN 2)) ENil))) xa))
          (ECmp CNe (ECall "bytesToUint16" (ECons ee (ECons (ESlice (EDeref (EVar rn) (EVar rp)) (EN 2) (EN 4)) ENil))) xx).

Lemma eval_echo_cond fe st rn rp xa ee xx pl a e x :
  b2u16_hyp fe -> bytesb pl = true -> a < 65536 -> x < 65536 ->
  sget st rn = Some (VB false) -> sget st rp = Some (vbytes pl) ->
  eval ge fe st xa = GOk (VN a) -> eval ge fe st ee = GOk (VN (endian_sel e)) -> eval ge fe st xx = GOk (VN x) ->
  eval ge fe st (echo_cond rn rp xa ee xx) = GOk (VB (negb (list_eqb pl (be16 a ++ u16_to_bytes e x)))).
Proof.
  intros Hb Hpl Ha Hx Hrn Hrp Hxa Hee Hxx.
  pose proof (Hb BigE) as Hb1. cbn [endian_sel] in Hb1.
  unfold echo_cond. cbn [eval evals]. unfold get_slot. match goal with |- context [?f st ee] => change (f st ee) with (eval ge fe st ee) end.
  rewrite Hrn, Hrp, Hxa, Hee, Hxx.
  cbn [rbind vbytes]. rewrite map_length.
  destruct pl as [|p0 [|p1 [|p2 [|p3 [|p4 t]]]]].
  5:{ apply bytesb_cons in Hpl as [B0 Hpl]. apply bytesb_cons in Hpl as [B1 Hpl].
      apply bytesb_cons in Hpl as [B2 Hpl]. apply bytesb_cons in Hpl as [B3 _].
      rewrite <- be16_u16_to_bytes, echo_eqb_e by assumption.
      rewrite <- (app_nil_r (u16_to_bytes e x)), echo_eqb_e by assumption.
      cbn [List.length map]. gl_auto. cbn [firstn skipn].
      change (VL [VN p0; VN p1]) with (vbytes [p0; p1]). change (VL [VN p2; VN p3]) with (vbytes [p2; p3]).
      rewrite Hb1, Hb. cbn [bytes_to_u16 rbind compare_v compare_n list_eqb].
      destruct (p0 * 256 + p1 =? a); cbn [negb andb]; [|reflexivity].
      rewrite andb_true_r. reflexivity. }
  all: replace (list_eqb _ _) with false
    by (symmetry; apply not_true_is_false; intros E; apply list_eqb_eq in E;
        apply (f_equal (@List.length N)) in E; destruct e; discriminate E).
  all: cbn [List.length]; gl_auto; try reflexivity.
  replace (N.of_nat (S (S (S (S (S (List.length t))))))  =? 4) with false by lia. reflexivity.
Qed.

(* the echo test of WriteCoil:
   len(p) != 4 || bytesToUint16(BIG_ENDIAN, p[0:2]) != addr ||
   (value == true && p[2] != 0xff) || (value == false && p[2] != 0x00) || p[3] != 0x00 *)
Definition coil_cond (rn rp kv : nat) (xa : expr) : expr :=
  EOrElse (EOrElse (EOrElse (EOrElse
    (ECmp CNe (ELen (EDeref (EVar rn) (EVar rp))) (EN 4))
    (ECmp CNe (ECall "bytesToUint16" (ECons (EN 1) (ECons (ESlice (EDeref (EVar rn) (EVar rp)) (EN 0) (EN 2)) ENil))) xa))
    (EAndAlso (ECmp CEq (EVar kv) (EB true)) (ECmp CNe (EIndex (EDeref (EVar rn) (EVar rp)) (EN 2)) (EN 255))))
    (EAndAlso (ECmp CEq (EVar kv) (EB false)) (ECmp CNe (EIndex (EDeref (EVar rn) (EVar rp)) (EN 2)) (EN 0))))
    (ECmp CNe (EIndex (EDeref (EVar rn) (EVar rp)) (EN 3)) (EN 0)).

Lemma eval_coil_cond fe st rn rp kv xa pl a v :
  b2u16_hyp fe -> bytesb pl = true -> a < 65536 ->
  sget st rn = Some (VB false) -> sget st rp = Some (vbytes pl) -> sget st kv = Some (VB v) ->
  eval ge fe st xa = GOk (VN a) ->
  eval ge fe st (coil_cond rn rp kv xa) =
  GOk (VB (negb (list_eqb pl (be16 a ++ [if v then 255 else 0; 0])))).
Proof.
  intros Hb Hpl Ha Hrn Hrp Hkv Hxa.
  pose proof (Hb BigE) as Hb1. cbn [endian_sel] in Hb1.
  unfold coil_cond. cbn [eval evals]. unfold get_slot. rewrite Hrn, Hrp, Hkv, Hxa.
  cbn [rbind vbytes]. rewrite map_length.
  destruct pl as [|p0 [|p1 [|p2 [|p3 [|p4 t]]]]].
  5:{ apply bytesb_cons in Hpl as [B0 Hpl]. apply bytesb_cons in Hpl as [B1 _].
      rewrite <- be16_u16_to_bytes, echo_eqb_e by assumption.
      cbn [List.length map list_eqb]. gl_auto. cbn [firstn skipn nth_error].
      change (VL [VN p0; VN p1]) with (vbytes [p0; p1]).
      rewrite Hb1. cbn [bytes_to_u16 rbind compare_v compare_n].
      destruct (p0 * 256 + p1 =? a); cbn [negb andb]; [|reflexivity].
      rewrite andb_true_r.
      destruct v; cbn [Bool.eqb negb]; [destruct (p2 =? 255)|destruct (p2 =? 0)]; cbn [negb andb];
        try reflexivity; destruct (p3 =? 0); reflexivity. }
  all: replace (list_eqb _ _) with false
    by (symmetry; apply not_true_is_false; intros E; apply list_eqb_eq in E;
        apply (f_equal (@List.length N)) in E; discriminate E).
  all: cbn [List.length]; gl_auto; try reflexivity.
  replace (N.of_nat (S (S (S (S (S (List.length t))))))  =? 4) with false by lia. reflexivity.
Qed.

Lemma exec_reject_if fe fuel st ke c b :
  eval ge fe st c = GOk (VB (negb b)) ->
  exec ge fe fuel st (SIf c (SSeq (SSet (LVar ke) (EN v_ErrProtocolError)) (SReturn ENil)) SSkip) =
  if b then ONormal st else ret_with (sset st ke (VN v_ErrProtocolError)).
Proof.
  intros Hc. cbn [exec]. rewrite Hc.
  destruct b; cbn [negb resolve eval rbind store]; [reflexivity|].
  unfold set_slot. destruct (sset st ke (VN v_ErrProtocolError)); reflexivity.
Qed.

Lemma run_WriteCoil fe fuel cfg tt X a v :
  exec_hyp fe X -> u16tb_hyp fe -> b2u16_hyp fe -> excmap_hyp fe -> a < 65536 ->
  run_fn ge fe fuel src_fn_ModbusClient_WriteCoil (mc_fields cfg tt ++ [VN a; VB v])%list =
  out_err (mc_fields cfg tt) (call_out cfg (OpWriteCoil a v) X).
Proof.
  intros Hx Hu Hb He Ha.
  pose proof (Hu BigE) as Hu1. cbn [endian_sel] in Hu1.
  rewrite call_out_eq. cbn [client_request].
  rewrite run_fn_exec by reflexivity. set (fin := fn_ret src_fn_ModbusClient_WriteCoil).
  unfold src_fn_ModbusClient_WriteCoil. cbn [f_nparams f_zeros f_body]. fold_reply_tail 6%nat.
  unfold mc_fields. cbn [app].
  do 4 gl_seq.       (* var req, res *pdu; mc.lock.Lock(); defer mc.lock.Unlock() *)
  gl_seq.            (* req = &pdu{unitId: mc.unitId, functionCode: fcWriteSingleCoil} *)
  gl_seq using Hu1.  (* req.payload = uint16ToBytes(BIG_ENDIAN, addr) *)
  rewrite be16_u16_to_bytes.
  (* if value { req.payload = append(req.payload, 0xff, 0x00) } else { ... 0x00, 0x00 }: one state for both *)
  erewrite seq_normal with (st1 := [_; _; _; _; _; _; _; _; _; _; VL (map VN (be16 a) ++ [VN (if v then 255 else 0); VN 0]);
                                    _; _; _; _])
    by (destruct v; gl_auto; reflexivity).
  (* res, err = mc.executeRequest(req) and what follows: the model's validation at the
     function code of the request, the payload of the request, a return with err set,
     the method's own test of the reply *)
  eapply (exec_reply_tail fe fuel X cfg tt [VN a; VB v] [] (mkpdu (c_unit cfg) 5 (be16 a ++ (if v then [255; 0] else [0; 0])))
            _ Hx He fin).
  - intros res. reflexivity.
  - cbn [p_payload]. rewrite map_app. destruct v; reflexivity.
  - reflexivity.
  - intros res Hwf. unfold frame, mc_fields. cbn [app].
    erewrite exec_reject_if
      by (apply (eval_coil_cond fe _ 11 14 5 (EVar 4) (p_payload res) a v); first [assumption|reflexivity]).
    replace (if v then [255; 0] else [0; 0]) with [if v then 255 else 0; 0] by (destruct v; reflexivity).
    case (list_eqb (p_payload res) (be16 a ++ [if v then 255 else 0; 0])); reflexivity.
Qed.

Lemma run_writeRegisters fe fuel cfg tt X a bytes :
  exec_hyp fe X -> u16tb_hyp fe -> b2u16_hyp fe -> excmap_hyp fe ->
  a < 65536 -> bytesb bytes = true ->
  run_fn ge fe fuel src_fn_ModbusClient_writeRegisters (mc_fields cfg tt ++ [VN a; vbytes bytes])%list =
  out_err (mc_fields cfg tt) (wr_out cfg a bytes X).
Proof.
  intros Hx Hu Hb He Ha Hbytes.
  pose proof (Hu BigE) as Hu1. cbn [endian_sel] in Hu1.
  rewrite wr_out_eq. unfold req_write_regs. cbv zeta.
  rewrite run_fn_exec by reflexivity. set (fin := fn_ret src_fn_ModbusClient_writeRegisters).
  unfold src_fn_ModbusClient_writeRegisters. cbn [f_nparams f_zeros f_body]. fold_reply_tail 6%nat.
  unfold mc_fields, vbytes. cbn [app].
  do 6 gl_seq.  (* var req, res *pdu; var payloadLength, quantity uint16; mc.lock.Lock(); defer mc.lock.Unlock() *)
  (* The four argument checks, each [if ... { err = ...; return }]. case_eq, not destruct, which
     would retype the whole goal, program included. *)
  gl_guard.     (* if len(values) > 123 * 2 *)
  rewrite map_length. fold (lenN bytes).
  case_eq (246 <? lenN bytes); intros E1; [reflexivity|].
  gl_seq.       (* payloadLength = uint16(len(values)) *)
  gl_seq.       (* quantity = payloadLength / 2 *)
  rewrite map_length. fold (lenN bytes). change (2 ^ 16) with 65536. fold (u16 (lenN bytes)).
  set (q := u16 (lenN bytes) / 2).
  assert (Hq : q < 65536) by (unfold q, u16; lia).
  gl_guard.     (* if quantity == 0 *)
  case_eq (q =? 0); intros E2; [reflexivity|].
  gl_guard.     (* if quantity > 123 *)
  case_eq (123 <? q); intros E3; [reflexivity|].
  gl_guard.     (* if uint32(addr) + uint32(quantity) - 1 > 0xffff *)
  rewrite end_addr_cmp by lia.
  case_eq (65535 <? a + q - 1); intros E4; [reflexivity|].
  gl_seq.            (* req = &pdu{unitId: mc.unitId, functionCode: fcWriteMultipleRegisters} *)
  gl_seq using Hu1.  (* req.payload = uint16ToBytes(BIG_ENDIAN, addr) *)
  gl_seq using Hu1.  (* req.payload = append(req.payload, uint16ToBytes(BIG_ENDIAN, quantity)...) *)
  gl_seq.            (* req.payload = append(req.payload, byte(payloadLength)) *)
  gl_seq.            (* req.payload = append(req.payload, values...) *)
  change (2 ^ 8) with 256. fold (u8 (u16 (lenN bytes))).
  (* res, err = mc.executeRequest(req) and what follows, as in run_WriteCoil *)
  eapply (exec_reply_tail fe fuel X cfg tt [VN a; vbytes bytes] [VN (u16 (lenN bytes)); VN q]
           (mkpdu (c_unit cfg) 16 (be16 a ++ be16 q ++ u8 (u16 (lenN bytes)) :: bytes)) _ Hx He fin).
  - intros res. reflexivity.
  - cbn [p_payload]. rewrite !map_app, !be16_u16_to_bytes, <- !app_assoc. reflexivity.
  - reflexivity.
  - intros res Hwf. unfold frame, mc_fields. cbn [app].
    erewrite exec_reject_if
      by (apply (eval_echo_cond fe _ 11 14 (EVar 4) (EN 1) (EVar 16) (p_payload res) a BigE q);
          first [assumption|reflexivity]).
    rewrite be16_u16_to_bytes. fold q. case (list_eqb (p_payload res) (be16 a ++ be16 q)); reflexivity.
Qed.

(* encodeBools is asked only for the list of the call, which has passed the
   1968 test when it is encoded (the linked encodeBools runs a fuelled loop) *)
Lemma run_WriteCoils_at fe fuel cfg tt X a vs :
  exec_hyp fe X -> u16tb_hyp fe -> b2u16_hyp fe -> excmap_hyp fe ->
  ((List.length vs <= 1968)%nat -> fe "encodeBools" [vbools vs] = GOk [vbytes (encode_bools vs)]) ->
  a < 65536 ->
  run_fn ge fe fuel src_fn_ModbusClient_WriteCoils (mc_fields cfg tt ++ [VN a; vbools vs])%list =
  out_err (mc_fields cfg tt) (call_out cfg (OpWriteCoils a vs) X).
Proof.
  intros Hx Hu Hb He Henc Ha.
  pose proof (Hu BigE) as Hu1. cbn [endian_sel] in Hu1.
  rewrite call_out_eq. cbn [client_request]. cbv zeta.
  rewrite run_fn_exec by reflexivity. set (fin := fn_ret src_fn_ModbusClient_WriteCoils).
  unfold src_fn_ModbusClient_WriteCoils. cbn [f_nparams f_zeros f_body]. fold_reply_tail 6%nat.
  unfold mc_fields, vbools. cbn [app].
  (* var req, res *pdu; var quantity uint16; var encodedValues []byte; mc.lock.Lock(); defer mc.lock.Unlock() *)
  do 6 gl_seq.
  gl_guard.     (* if len(values) > 0x7b0 { err = ...; return } *)
  rewrite map_length. fold (lenN vs).
  case_eq (1968 <? lenN vs); intros E1; [reflexivity|].
  gl_seq.       (* quantity = uint16(len(values)) *)
  rewrite map_length. fold (lenN vs). change (2 ^ 16) with 65536. fold (u16 (lenN vs)).
  set (q := u16 (lenN vs)).
  assert (Hq : q < 65536) by (unfold q, u16; lia).
  gl_guard.     (* if quantity == 0 *)
  case_eq (q =? 0); intros E2; [reflexivity|].
  gl_guard.     (* if quantity > 0x7b0 *)
  case_eq (1968 <? q); intros E3; [reflexivity|].
  gl_guard.     (* if uint32(addr) + uint32(quantity) - 1 > 0xffff *)
  rewrite end_addr_cmp by lia.
  case_eq (65535 <? a + q - 1); intros E4; [reflexivity|].
  fold (vbools vs).
  gl_seq using (Henc ltac:(unfold lenN in E1; lia)).  (* encodedValues = encodeBools(values) *)
  gl_seq.            (* req = &pdu{unitId: mc.unitId, functionCode: fcWriteMultipleCoils} *)
  gl_seq using Hu1.  (* req.payload = uint16ToBytes(BIG_ENDIAN, addr) *)
  gl_seq using Hu1.  (* req.payload = append(req.payload, uint16ToBytes(BIG_ENDIAN, quantity)...) *)
  gl_seq.            (* req.payload = append(req.payload, byte(len(encodedValues))) *)
  gl_seq.            (* req.payload = append(req.payload, encodedValues...) *)
  rewrite map_length. fold (lenN (encode_bools vs)). change (2 ^ 8) with 256. fold (u8 (lenN (encode_bools vs))).
  (* res, err = mc.executeRequest(req) and what follows, as in run_WriteCoil *)
  eapply (exec_reply_tail fe fuel X cfg tt [VN a; vbools vs] [VN q; vbytes (encode_bools vs)]
           (mkpdu (c_unit cfg) 15 (be16 a ++ be16 q ++ u8 (lenN (encode_bools vs)) :: encode_bools vs)) _ Hx He fin).
  - intros res. reflexivity.
  - cbn [p_payload]. rewrite !map_app, !be16_u16_to_bytes, <- !app_assoc. reflexivity.
  - reflexivity.
  - intros res Hwf. unfold frame, mc_fields. cbn [app].
    erewrite exec_reject_if
      by (apply (eval_echo_cond fe _ 11 14 (EVar 4) (EN 1) (EVar 15) (p_payload res) a BigE q);
          first [assumption|reflexivity]).
    rewrite be16_u16_to_bytes. fold q. case (list_eqb (p_payload res) (be16 a ++ be16 q)); reflexivity.
Qed.

Lemma run_WriteCoils fe fuel cfg tt X a vs :
  exec_hyp fe X -> u16tb_hyp fe -> b2u16_hyp fe -> excmap_hyp fe ->
  (forall l, N.of_nat (List.length l) < 2 ^ 62 -> fe "encodeBools" [vbools l] = GOk [vbytes (encode_bools l)]) ->
  a < 65536 -> N.of_nat (List.length vs) < 2 ^ 62 ->
  run_fn ge fe fuel src_fn_ModbusClient_WriteCoils (mc_fields cfg tt ++ [VN a; vbools vs])%list =
  out_err (mc_fields cfg tt) (call_out cfg (OpWriteCoils a vs) X).
Proof.
  intros Hx Hu Hb He Henc Ha Hlen. apply run_WriteCoils_at; try assumption.
  intros _. apply Henc. exact Hlen.
Qed.

Lemma run_WriteRegister fe fuel cfg tt X a v :
  exec_hyp fe X -> u16tb_hyp fe -> b2u16_hyp fe -> excmap_hyp fe -> a < 65536 -> v < 65536 ->
  run_fn ge fe fuel src_fn_ModbusClient_WriteRegister (mc_fields cfg tt ++ [VN a; VN v])%list =
  out_err (mc_fields cfg tt) (call_out cfg (OpWriteReg a v) X).
Proof.
  intros Hx Hu Hb He Ha Hv.
  pose proof (Hu BigE) as Hu1. cbn [endian_sel] in Hu1.
  rewrite call_out_eq. cbn [client_request].
  rewrite run_fn_exec by reflexivity. set (fin := fn_ret src_fn_ModbusClient_WriteRegister).
  unfold src_fn_ModbusClient_WriteRegister. cbn [f_nparams f_zeros f_body]. fold_reply_tail 6%nat.
  unfold mc_fields. cbn [app].
  do 4 gl_seq.       (* var req, res *pdu; mc.lock.Lock(); defer mc.lock.Unlock() *)
  gl_seq.            (* req = &pdu{unitId: mc.unitId, functionCode: fcWriteSingleRegister} *)
  gl_seq using Hu1.  (* req.payload = uint16ToBytes(BIG_ENDIAN, addr) *)
  gl_seq using Hu.   (* req.payload = append(req.payload, uint16ToBytes(mc.endianness, value)...) *)
  (* res, err = mc.executeRequest(req) and what follows, as in run_WriteCoil *)
  eapply (exec_reply_tail fe fuel X cfg tt [VN a; VN v] [] (mkpdu (c_unit cfg) 6 (be16 a ++ u16_to_bytes (c_endian cfg) v))
           _ Hx He fin).
  - intros res. reflexivity.
  - cbn [p_payload]. rewrite map_app, be16_u16_to_bytes. reflexivity.
  - reflexivity.
  - intros res Hwf. unfold frame, mc_fields. cbn [app].
    erewrite exec_reject_if
      by (apply (eval_echo_cond fe _ 11 14 (EVar 4) (EVar 0) (EVar 5) (p_payload res) a (c_endian cfg) v);
          first [assumption|reflexivity]).
    case (list_eqb (p_payload res) (be16 a ++ u16_to_bytes (c_endian cfg) v)); reflexivity.
Qed.

Lemma call_out_write_regs cfg w a vs X :
  call_out cfg (OpWriteRegs w a vs) X = wr_out cfg a (flat_map (enc_value cfg w) vs) X.
Proof.
  unfold call_out, wr_out. cbn [client_request client_validate].
  destruct (req_write_regs cfg a (flat_map (enc_value cfg w) vs)) as [req|e| |]; reflexivity.
Qed.

(* run_writeRegisters holds without the bound on the length: len(values) is
   only compared with 246 and cut to 16 bits *)
Definition wregs_hyp (fe : fenv) (X : pdu -> treply) : Prop :=
  forall cfg tt a bytes,
    a < 65536 -> bytesb bytes = true -> N.of_nat (List.length bytes) < 2 ^ 62 ->
    fe "ModbusClient.writeRegisters" (mc_fields cfg tt ++ [VN a; vbytes bytes])%list =
    out_err (mc_fields cfg tt) (wr_out cfg a bytes X).
Definition encoding_hyp (fe : fenv) : Prop :=
  forall cfg tt,
    fe "ModbusClient.encoding" (mc_fields cfg tt) =
    GOk (mc_fields cfg tt ++ [VN (endian_sel (c_endian cfg)); VN (word_sel (c_word cfg))])%list.

Lemma flat_map_length_le (g : N -> list N) k vs :
  (forall v, (List.length (g v) <= k)%nat) ->
  (List.length (flat_map g vs) <= k * List.length vs)%nat.
Proof.
  intros Hg. induction vs as [|v vs IH]; cbn [flat_map List.length]; [lia|].
  rewrite app_length. specialize (Hg v). nia.
Qed.

Lemma enc_value_length cfg w v : (List.length (enc_value cfg w v) <= 8)%nat.
Proof.
  unfold enc_value. destruct (w =? 1); [destruct (c_endian cfg); cbn; lia|].
  destruct (w =? 2); destruct (c_endian cfg), (c_word cfg); cbn; lia.
Qed.

(* [2 ^ 59]: a value takes at most 8 bytes, and [wregs_hyp] asks for fewer than 2^62 bytes *)
Lemma wregs_call fe X cfg tt a w vs s :
  wregs_hyp fe X -> a < 65536 -> N.of_nat (List.length vs) < 2 ^ 59 ->
  s = flat_map (enc_value cfg w) vs ->
  fe "ModbusClient.writeRegisters"
     [VN (endian_sel (c_endian cfg)); VN (word_sel (c_word cfg)); VN (c_unit cfg); VN tt;
      VN a; vbytes s] =
  out_err (mc_fields cfg tt) (call_out cfg (OpWriteRegs w a vs) X).
Proof.
  intros Hw Ha Hlen ->. rewrite call_out_write_regs.
  apply (Hw cfg tt a (flat_map (enc_value cfg w) vs) Ha).
  - apply enc_values_bytes.
  - pose proof (flat_map_length_le (enc_value cfg w) 8 vs (enc_value_length cfg w)) as H.
    change (2 ^ 62) with 4611686018427387904. change (2 ^ 59) with 576460752303423488 in Hlen. lia.
Qed.

Lemma out_err_shape mc s :
  out_err mc s = match s with SPanic => GoLite.Panic | _ => out_err mc s end.
Proof. destruct s; reflexivity. Qed.

Lemma run_WriteRegisters fe fuel cfg tt X a vs :
  wregs_hyp fe X -> encoding_hyp fe -> u16tb_hyp fe ->
  a < 65536 -> N.of_nat (List.length vs) < 2 ^ 59 ->
  run_fn ge fe fuel src_fn_ModbusClient_WriteRegisters (mc_fields cfg tt ++ [VN a; vbytes vs])%list =
  out_err (mc_fields cfg tt) (call_out cfg (OpWriteRegs 1 a vs) X).
Proof.
  intros Hw Henc Hu Ha Hlen.
  pose proof (Henc cfg tt) as Henc1.
  unfold run_fn, src_fn_ModbusClient_WriteRegisters, mc_fields in *.
  cbn [f_nparams f_zeros f_outs f_results f_body].
  (* the declarations; endianness, _ = mc.encoding() *)
  gl_auto. rewrite Henc1. gl_auto. unfold vbytes at 1. gl_auto.
  change (VL []) with (vbytes []).
  (* for _, value := range values { payload = append(payload, uint16ToBytes(endianness, value)...) } *)
  edestruct (range_append_loop
               (fun st' => exec ge fe fuel st'
                  (SSet (LVar 7) (EAppendSlice (EVar 7) (ECall "uint16ToBytes" (ECons (EVar 8) (ECons (EVar 10) ENil))))))
               10%nat
               (fun acc x => [VN (endian_sel (c_endian cfg)); VN (word_sel (c_word cfg)); VN (c_unit cfg); VN tt; VN a;
                              vbytes vs; VN 0; vbytes acc; VN (endian_sel (c_endian cfg)); VN 0; x])
               (u16_to_bytes (c_endian cfg))) as (x' & E);
    [reflexivity|intros acc v; unfold vbytes; gl_step; rewrite Hu; unfold vbytes; gl_step; rewrite <- map_app; reflexivity|].
  rewrite E. cbn [app]. gl_auto.
  (* err = mc.writeRegisters(addr, payload); return *)
  rewrite (wregs_call fe X cfg tt a 1 vs (flat_map (u16_to_bytes (c_endian cfg)) vs) Hw Ha Hlen eq_refl).
  unfold mc_fields. destruct (call_out cfg (OpWriteRegs 1 a vs) X) as [v|c|]; cbn [out_err app]; gl_auto; reflexivity.
Qed.

(* The 32 and 64 bit writers differ only in the name [f] of the encoder:
   [wr3s_fn f] is WriteUint32s / WriteFloat32s / WriteUint64s / WriteFloat64s,
   [wr3_fn f] the same for one value. That the generated trees are these is
   the premise [lookup_fn name ... = Some (wr3s_fn enc)] of src_wr3s_ok
   (Proofs/SrcClientLinkP.v), closed by [eq_refl] in Properties/C02t.v. The
   proofs follow run_WriteRegisters. *)
Definition wr3_body (f : string) : stmt :=
  SSet (LVar 7) (EAppendSlice (EVar 7)
    (ECall f (ECons (EVar 8) (ECons (EVar 9) (ECons (EVar 11) ENil))))).

Definition wr3s_fn (f : string) : fn := {|
  f_nparams := 6;
  f_zeros := [VN 0; VL []; VN 0; VN 0; VN 0; VN 0];
  f_outs := [0%nat; 1%nat; 2%nat; 3%nat];
  f_results := [6%nat];
  f_body :=
    SSeq (SSet (LVar 7) (ELit ENil))
    (SSeq (SSet (LVar 8) (EN 0))
    (SSeq (SSet (LVar 9) (EN 0))
    (SSeq (SCall "ModbusClient.encoding" (ECons (EVar 0) (ECons (EVar 1) (ECons (EVar 2) (ECons (EVar 3) (ENil))))) [LVar 0; LVar 1; LVar 2; LVar 3; LVar 8; LVar 9])
    (SSeq (SRange None (Some 11%nat) (EVar 5) (wr3_body f))
    (SSeq (SCall "ModbusClient.writeRegisters" (ECons (EVar 0) (ECons (EVar 1) (ECons (EVar 2) (ECons (EVar 3) (ECons (EVar 4) (ECons (EVar 7) (ENil))))))) [LVar 0; LVar 1; LVar 2; LVar 3; LVar 6])
    (SReturn (ENil)))))))
|}.

Definition wr3_fn (f : string) : fn := {|
  f_nparams := 6;
  f_zeros := [VN 0; VN 0; VN 0];
  f_outs := [0%nat; 1%nat; 2%nat; 3%nat];
  f_results := [6%nat];
  f_body :=
    SSeq (SSet (LVar 7) (EN 0))
    (SSeq (SSet (LVar 8) (EN 0))
    (SSeq (SCall "ModbusClient.encoding" (ECons (EVar 0) (ECons (EVar 1) (ECons (EVar 2) (ECons (EVar 3) (ENil))))) [LVar 0; LVar 1; LVar 2; LVar 3; LVar 7; LVar 8])
    (SSeq (SCall "ModbusClient.writeRegisters" (ECons (EVar 0) (ECons (EVar 1) (ECons (EVar 2) (ECons (EVar 3) (ECons (EVar 4) (ECons (ECall f (ECons (EVar 7) (ECons (EVar 8) (ECons (EVar 5) (ENil))))) (ENil))))))) [LVar 0; LVar 1; LVar 2; LVar 3; LVar 6])
    (SReturn (ENil)))))
|}.

Lemma run_wr3s fe fuel f w cfg tt X a vs :
  wregs_hyp fe X -> encoding_hyp fe ->
  (forall v, fe f [VN (endian_sel (c_endian cfg)); VN (word_sel (c_word cfg)); VN v] =
             GOk [vbytes (enc_value cfg w v)]) ->
  a < 65536 -> N.of_nat (List.length vs) < 2 ^ 59 ->
  run_fn ge fe fuel (wr3s_fn f) (mc_fields cfg tt ++ [VN a; vbytes vs])%list =
  out_err (mc_fields cfg tt) (call_out cfg (OpWriteRegs w a vs) X).
Proof.
  intros Hw Henc Hg Ha Hlen.
  pose proof (Henc cfg tt) as Henc1.
  unfold run_fn, wr3s_fn, mc_fields in *.
  gl_auto. rewrite Henc1. gl_auto. unfold vbytes at 1. gl_auto.
  change (VL []) with (vbytes []).
  edestruct (range_append_loop
               (fun st' => exec ge fe fuel st' (wr3_body f)) 11%nat
               (fun acc x => [VN (endian_sel (c_endian cfg)); VN (word_sel (c_word cfg)); VN (c_unit cfg); VN tt; VN a;
                              vbytes vs; VN 0; vbytes acc; VN (endian_sel (c_endian cfg)); VN (word_sel (c_word cfg)); VN 0; x])
               (enc_value cfg w)) as (x' & E);
    [reflexivity|intros acc v; unfold wr3_body, vbytes; gl_step; rewrite Hg; unfold vbytes; gl_step; rewrite <- map_app; reflexivity|].
  rewrite E. cbn [app]. gl_auto.
  rewrite (wregs_call fe X cfg tt a w vs _ Hw Ha Hlen eq_refl).
  unfold mc_fields. destruct (call_out cfg (OpWriteRegs w a vs) X) as [v|c|]; cbn [out_err app]; gl_auto; reflexivity.
Qed.

Lemma run_wr3 fe fuel f w cfg tt X a v :
  wregs_hyp fe X -> encoding_hyp fe ->
  (forall v, fe f [VN (endian_sel (c_endian cfg)); VN (word_sel (c_word cfg)); VN v] =
             GOk [vbytes (enc_value cfg w v)]) ->
  a < 65536 ->
  run_fn ge fe fuel (wr3_fn f) (mc_fields cfg tt ++ [VN a; VN v])%list =
  out_err (mc_fields cfg tt) (call_out cfg (OpWriteRegs w a [v]) X).
Proof.
  intros Hw Henc Hg Ha.
  pose proof (Henc cfg tt) as Henc1.
  unfold run_fn, wr3_fn, mc_fields in *.
  gl_auto. rewrite Henc1. gl_auto. rewrite Hg. gl_auto.
  assert (Hlen : N.of_nat (List.length [v]) < 2 ^ 59) by (cbn [List.length]; reflexivity).
  rewrite (wregs_call fe X cfg tt a w [v] _ Hw Ha Hlen) by (cbn [flat_map]; rewrite app_nil_r; reflexivity).
  unfold mc_fields. destruct (call_out cfg (OpWriteRegs w a [v]) X) as [v0|c|]; cbn [out_err app]; gl_auto; reflexivity.
Qed.

Lemma wregs_hyp_run fe fe' fuel X :
  exec_hyp fe' X -> u16tb_hyp fe' -> b2u16_hyp fe' -> excmap_hyp fe' ->
  (forall args, fe "ModbusClient.writeRegisters" args =
                run_fn ge fe' fuel src_fn_ModbusClient_writeRegisters args) ->
  wregs_hyp fe X.
Proof.
  intros Hx Hu Hb He Hf cfg tt a bytes Ha Hbytes _.
  rewrite Hf. apply run_writeRegisters; assumption.
Qed.

Lemma encoding_hyp_run fe fe' fuel :
  (forall args, fe "ModbusClient.encoding" args =
                run_fn ge fe' fuel src_fn_ModbusClient_encoding args) ->
  encoding_hyp fe.
Proof. intros Hf cfg tt. rewrite Hf. apply run_encoding. Qed.
