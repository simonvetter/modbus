(* Proofs about Model/RoleSeq.v (property C15, sequences of TLS sessions on
   one server).  The handshake oracle, the verification oracle and the clock
   are section variables; what crypto/tls documents (tls_srv_documented) is an
   explicit premise of the lemmas that need it. *)
From Modbus Require Import Base.Bytes Model.Utf8 Model.Der Model.Role Model.TlsPolicy Model.RoleSeq
  Spec.RoleSpec Proofs.RoleP Proofs.TlsPolicyP.

Section RoleSeqProofs.
  Variable hs : tls_policy -> tls_peer -> option tls_session.
  Variable verifies : option (list tls_cert) -> tls_usage -> N -> list N -> list tls_cert -> Prop.
  Variable now : N.

  Lemma serve_sessions_map c peers :
    tls_serve_sessions hs c peers = map (tls_start_tls hs c) peers.
  Proof. induction peers as [|p l IH]; cbn [tls_serve_sessions map]; [reflexivity|]. rewrite IH. reflexivity. Qed.

  Lemma serve_sessions_nth c peers i :
    nth_error (tls_serve_sessions hs c peers) i = option_map (tls_start_tls hs c) (nth_error peers i).
  Proof. rewrite serve_sessions_map. apply nth_error_map. Qed.

  Lemma serve_sessions_alone c earlier peer later :
    nth_error (tls_serve_sessions hs c (earlier ++ peer :: later)) (length earlier) =
    nth_error (tls_serve_sessions hs c [peer]) 0.
  Proof. rewrite serve_sessions_map. apply nth_error_map_middle. Qed.

  Lemma start_tls_leaf c peer role :
    tls_srv_documented hs verifies now ->
    tls_start_tls hs c peer = Some role ->
    exists leaf more, tpe_chain peer = leaf :: more /\ role = extract_role (tlc_exts leaf).
  Proof.
    intros Hdoc Hs. apply tls_start_tls_some in Hs. destruct Hs as (sess & leaf & more & Hh & Hc & ->).
    destruct (Hdoc _ _ _ Hh) as (_ & _ & _ & Hauth).
    destruct (Hauth eq_refl) as (Hcerts & _ & _).
    exists leaf, more. split; [|reflexivity]. rewrite <- Hcerts. exact Hc.
  Qed.

  Lemma serve_sessions_leaf c peers i role :
    tls_srv_documented hs verifies now ->
    nth_error (tls_serve_sessions hs c peers) i = Some (Some role) ->
    exists peer leaf more,
      nth_error peers i = Some peer /\ tpe_chain peer = leaf :: more /\
      role = extract_role (tlc_exts leaf).
  Proof.
    intros Hdoc. rewrite serve_sessions_nth.
    destruct (nth_error peers i) as [peer|]; [|discriminate].
    cbn [option_map]. intros [= Hs].
    destruct (start_tls_leaf c peer role Hdoc Hs) as (leaf & more & Hc & Hr).
    exists peer, leaf, more. auto.
  Qed.
End RoleSeqProofs.
