(* Proofs about Model/Udp.v: io.ReadFull through udpSockWrapper.Read presents
   the datagrams (each cut to the 260-byte receive buffer) as one byte stream;
   the leftover is always a suffix of the last datagram received (usw_inv,
   which statements of Properties/C12.v mention). *)
From Modbus Require Import Base.Bytes Model.Crc Model.Encoding Model.Wire Model.Client Model.Server
  Model.Chunks Model.Udp Spec.SegmentSpec Proofs.ChunksP.

Definition usw_measure (u : usw) : nat := length (usw_net u).

Lemma usw_read_ok : rd1_ok usw_read usw_flat usw_measure.
Proof.
  intros n [left net] Hn. unfold usw_read, usw_flat, usw_measure. cbn [usw_left usw_net].
  destruct left as [|b left].
  - destruct net as [|d net']; [reflexivity|]. cbn [usw_left usw_net map concat length app].
    rewrite app_assoc, firstn_skipn. repeat split; try lia.
    rewrite firstn_length. lia.
  - cbn [usw_left usw_net]. rewrite app_assoc, firstn_skipn. repeat split; try lia.
    + rewrite firstn_length. lia.
    + intros H0. destruct n as [|k]; [lia|]. cbn [firstn] in H0. discriminate H0.
Qed.

Lemma usw_read_full_ok : rdf_ok usw_read_full usw_flat.
Proof. exact (rdf_ok_of_rd1 usw_read usw_flat usw_measure usw_read_ok). Qed.

Lemma usw_size_ok u : usw_size u = length (usw_flat u).
Proof. reflexivity. Qed.

Lemma dgrams_ok_flat ds : dgrams_ok ds -> usw_flat (usw_init ds) = concat ds.
Proof.
  unfold usw_flat, usw_init. cbn [usw_left usw_net app]. intros H.
  induction H as [|d ds Hd _ IH]; [reflexivity|]. cbn [map concat].
  rewrite IH. f_equal. apply firstn_all2. unfold usw_rxbuf_len. lia.
Qed.

(* all: every datagram the peer sends during the life of the wrapper *)
Definition usw_inv (all : list (list N)) (u : usw) : Prop :=
  exists pre, all = pre ++ usw_net u /\
              is_suffix (usw_left u) (firstn usw_rxbuf_len (last pre [])).

Lemma usw_read_inv all n u got u' : usw_inv all u -> usw_read n u = Rd1 got u' -> usw_inv all u'.
Proof.
  intros (pre & Hall & (p & Hp)) Hr. destruct u as [left net]. unfold usw_read in Hr.
  cbn [usw_left usw_net] in *. destruct left as [|b left].
  - destruct net as [|d net']; [discriminate|]. injection Hr as _ <-.
    exists (pre ++ [d]). cbn [usw_left usw_net]. split.
    + rewrite <- app_assoc. exact Hall.
    + rewrite last_last. exists (firstn n (firstn usw_rxbuf_len d)). symmetry. apply firstn_skipn.
  - injection Hr as _ <-. exists pre. cbn [usw_left usw_net]. split; [exact Hall|].
    exists (p ++ firstn n (b :: left)). rewrite <- app_assoc, firstn_skipn. exact Hp.
Qed.

Lemma usw_read_full_inv all n u : usw_inv all u ->
  match usw_read_full n u with GFull _ r => usw_inv all r | GShort _ r => usw_inv all r end.
Proof.
  intros H. unfold usw_read_full. apply io_read_full_inv; [|exact H].
  intros k s got s'. apply usw_read_inv.
Qed.

Lemma usw_truncates d : (usw_rxbuf_len < length d)%nat ->
  exists r, usw_read_full (length d) (usw_init [d]) = GShort (firstn usw_rxbuf_len d) r /\
            usw_flat r = [].
Proof.
  intros Hd. pose proof (usw_read_full_ok (length d) (usw_init [d])) as H.
  assert (Hf : usw_flat (usw_init [d]) = firstn usw_rxbuf_len d).
  { unfold usw_flat, usw_init. cbn [usw_left usw_net map concat app]. apply app_nil_r. }
  rewrite Hf in H. unfold read_full in H. rewrite firstn_length in H.
  replace (Nat.leb (length d) (Nat.min usw_rxbuf_len (length d))) with false in H
    by (symmetry; apply Nat.leb_gt; lia).
  destruct (usw_read_full (length d) (usw_init [d])) as [g r|g r]; [discriminate|].
  destruct H as [H He]. injection H as <-. exists r. split; [reflexivity|exact He].
Qed.

Lemma usw_flat_cons d ds :
  usw_flat (usw_init (d :: ds)) = firstn usw_rxbuf_len d ++ usw_flat (usw_init ds).
Proof. reflexivity. Qed.

Lemma read_mbap_udp e u :
  read_mbap e (usw_flat u) = (fst (read_mbap_u e u), usw_flat (snd (read_mbap_u e u))).
Proof. exact (g_read_mbap_flat usw_read_full usw_flat usw_read_full_ok e u). Qed.

Lemma read_rtu_udp e u :
  read_rtu e (usw_flat u) = (fst (read_rtu_u e u), usw_flat (snd (read_rtu_u e u))).
Proof. exact (g_read_rtu_flat usw_read_full usw_flat usw_read_full_ok e u). Qed.

Lemma client_call_udp fr cfg txn o e u :
  client_call fr cfg txn o e (usw_flat u) =
  let r := client_call_u fr cfg txn o e u in
  mkcall (gcr_res r) (gcr_writes r) (usw_flat (gcr_rest r)) (gcr_txn r).
Proof.
  exact (g_client_call_flat usw_read_full usw_size usw_flat usw_read_full_ok usw_size_ok
           fr cfg txn o e u).
Qed.

Lemma client_call_dgrams fr cfg txn o e ds : dgrams_ok ds ->
  client_call fr cfg txn o e (concat ds) =
  let r := client_call_u fr cfg txn o e (usw_init ds) in
  mkcall (gcr_res r) (gcr_writes r) (usw_flat (gcr_rest r)) (gcr_txn r).
Proof. intros H. rewrite <- (dgrams_ok_flat ds H). apply client_call_udp. Qed.

Lemma g_read_mbap_inv {T : Type} (rdf : nat -> T -> grf T) (P : T -> Prop) :
  (forall n s, P s -> match rdf n s with GFull _ r => P r | GShort _ r => P r end) ->
  forall e s, P s -> P (snd (g_read_mbap rdf e s)).
Proof.
  intros Hp e s Hs. unfold g_read_mbap. pose proof (Hp 7%nat s Hs) as H7.
  destruct (rdf 7%nat s) as [hdr r|g r]; [|exact H7].
  destruct hdr as [|t1 [|t0 [|p1 [|p0 [|l1 [|l0 [|u [|x hdr]]]]]]]]; try exact H7.
  destruct (260 <? _); [exact H7|]. destruct (_ <=? 1); [exact H7|].
  match goal with |- context [rdf ?n r] =>
    pose proof (Hp n r H7) as Hb; destruct (rdf n r) as [body r'|g r'] end; [|exact Hb].
  destruct (negb _); [exact Hb|]. destruct body; exact Hb.
Qed.

Lemma read_mbap_udp_inv all e u : usw_inv all u -> usw_inv all (snd (read_mbap_u e u)).
Proof.
  apply g_read_mbap_inv. intros n s. apply usw_read_full_inv.
Qed.
