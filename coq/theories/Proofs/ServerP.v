(* Proofs about the server model (Model/Server.v): per-request behaviour
   against Spec/ServerSpec.v and session-level facts. *)
From Modbus Require Import Base.Bytes Model.Encoding Model.EncLists Model.Wire Model.Server
  Spec.ModbusSpec Spec.ServerSpec Spec.ServerSessionSpec
  Proofs.EncodingP Proofs.EncListsP Proofs.BoolsP Proofs.FramingP Proofs.MbapServerP.

Lemma decode_bools_length q bs l : decode_bools q bs = Some l -> length l = q.
Proof.
  unfold decode_bools. intros H. apply sequence_length in H.
  rewrite map_length, seq_length in H. exact H.
Qed.

(* decodeBools never indexes out of range when enough bytes are present *)
Lemma decode_bools_total q bs : (q <= 8 * length bs)%nat -> exists l, decode_bools q bs = Some l.
Proof.
  intros Hq. unfold decode_bools.
  eexists. apply (sequence_map_some _ (fun i => N.testbit (nth (i / 8) bs 0) (N.of_nat (i mod 8)))).
  intros i Hi. apply in_seq in Hi. unfold decode_bool_at.
  rewrite (nth_error_nth' bs 0) by lia. reflexivity.
Qed.

Lemma bytes_to_u16s_length e l vs : bytes_to_u16s e l = Some vs -> length l = (2 * length vs)%nat.
Proof.
  revert vs; induction l as [|a|a b t IH] using list_ind2; intros vs H; cbn [bytes_to_u16s] in H.
  - injection H as <-. reflexivity.
  - discriminate.
  - destruct (bytes_to_u16s e t) as [r|]; [|discriminate]. injection H as <-.
    cbn [length]. rewrite (IH r eq_refl). lia.
Qed.

Lemma u16s_be_layout vs : Forall (fun v => v < 65536) vs ->
  u16s_to_bytes BigE vs = flat_map (fun v => [v / 256; v mod 256]) vs.
Proof.
  induction 1 as [|v vs Hv _ IH]; [reflexivity|].
  unfold u16s_to_bytes in *. cbn [flat_map]. rewrite IH. f_equal.
  unfold u16_to_bytes, byte_of. change (2 ^ (8 * 1)) with 256. change (2 ^ (8 * 0)) with 1.
  cbn [app]. f_equal; [lia|f_equal; lia].
Qed.

Lemma err_fc_small fc : fc < 128 -> err_fc fc = fc + 128.
Proof.
  intros H. unfold err_fc. rewrite N.lor_comm.
  rewrite <- N.lxor_lor, <- N.add_nocarry_lxor; try reflexivity.
  all: apply N.bits_inj_0; intros n; rewrite N.land_spec;
    destruct (N.lt_ge_cases n 7) as [Hn|Hn].
  1,3: change 128 with (2 ^ 7); rewrite (N.pow2_bits_false 7 n) by lia; apply andb_false_r.
  all: rewrite (N.bits_above_log2 fc n); [reflexivity|];
    destruct (N.eq_dec fc 0) as [->|Hz]; [cbn; lia|];
    apply N.log2_lt_pow2; [lia|]; apply N.lt_le_trans with (2 ^ 7); [exact H|apply N.pow_le_mono_r; lia].
Qed.

(* the server tests "over the limit or zero", the specification "within 1..limit" *)
Lemma limit_test q lim : (lim <? q) || (q =? 0) = negb ((1 <=? q) && (q <=? lim)).
Proof. lia. Qed.

Lemma be2_bytes a1 a0 t : bytesb (a1 :: a0 :: t) = true ->
  be2 a1 a0 < 65536 /\ be16 (be2 a1 a0) = [a1; a0] /\ bytesb t = true.
Proof.
  intros Hb. apply bytesb_cons in Hb. destruct Hb as [H1 Hb]. apply bytesb_cons in Hb. destruct Hb as [H0 Hb].
  unfold be2, be16. split; [lia|]. split; [|exact Hb]. f_equal; [lia|f_equal; lia].
Qed.

(* spec_decode read backwards: the requests the server must dispatch, by function code *)
Inductive decodes (u : N) : N -> list N -> hreq -> Prop :=
| DecCoils a1 a0 q1 q0 : 1 <= be2 q1 q0 <= 2000 ->
    decodes u 1 [a1; a0; q1; q0] (mkhreq HCoils u (be2 a1 a0) (be2 q1 q0) false [] [])
| DecDiscrete a1 a0 q1 q0 : 1 <= be2 q1 q0 <= 2000 ->
    decodes u 2 [a1; a0; q1; q0] (mkhreq HDiscrete u (be2 a1 a0) (be2 q1 q0) false [] [])
| DecHolding a1 a0 q1 q0 : 1 <= be2 q1 q0 <= 125 ->
    decodes u 3 [a1; a0; q1; q0] (mkhreq HHolding u (be2 a1 a0) (be2 q1 q0) false [] [])
| DecInput a1 a0 q1 q0 : 1 <= be2 q1 q0 <= 125 ->
    decodes u 4 [a1; a0; q1; q0] (mkhreq HInput u (be2 a1 a0) (be2 q1 q0) false [] [])
| DecWriteCoil a1 a0 v1 : v1 = 255 \/ v1 = 0 ->
    decodes u 5 [a1; a0; v1; 0] (mkhreq HCoils u (be2 a1 a0) 1 true [v1 =? 255] [])
| DecWriteReg a1 a0 v1 v0 :
    decodes u 6 [a1; a0; v1; v0] (mkhreq HHolding u (be2 a1 a0) 1 true [] [be2 v1 v0])
| DecWriteCoils a1 a0 q1 q0 data args : 1 <= be2 q1 q0 <= 1968 -> lenN data = (be2 q1 q0 + 7) / 8 ->
    decode_bools (N.to_nat (be2 q1 q0)) data = Some args ->
    decodes u 15 (a1 :: a0 :: q1 :: q0 :: (be2 q1 q0 + 7) / 8 :: data)
      (mkhreq HCoils u (be2 a1 a0) (be2 q1 q0) true args [])
| DecWriteRegs a1 a0 q1 q0 data args : 1 <= be2 q1 q0 <= 123 -> lenN data = 2 * be2 q1 q0 ->
    bytes_to_u16s BigE data = Some args ->
    decodes u 16 (a1 :: a0 :: q1 :: q0 :: 2 * be2 q1 q0 :: data)
      (mkhreq HHolding u (be2 a1 a0) (be2 q1 q0) true [] args).

Lemma supported_cases fc : supported_fc fc = true ->
  fc = 1 \/ fc = 2 \/ fc = 3 \/ fc = 4 \/ fc = 5 \/ fc = 6 \/ fc = 15 \/ fc = 16.
Proof. unfold supported_fc, mem. cbn [existsb]. lia. Qed.

Lemma spec_decode_unsupported u fc pl : supported_fc fc = false -> spec_decode (mkpdu u fc pl) = None.
Proof.
  unfold spec_decode. cbn [p_unit p_fc p_payload].
  (* function codes up to 16: five binary digits decide *)
  destruct fc as [|f]; [reflexivity|]. do 5 (try destruct f as [f|f|]); try reflexivity; discriminate.
Qed.

Lemma spec_decode_inv u fc pl r : spec_decode (mkpdu u fc pl) = Some r -> decodes u fc pl r.
Proof.
  intros H. destruct (supported_fc fc) eqn:Hs; [|rewrite spec_decode_unsupported in H by exact Hs; discriminate H].
  apply supported_cases in Hs. destruct Hs as [->|[->|[->|[->|[->|[->|[->| ->]]]]]]].
  all: cbn [spec_decode p_unit p_fc p_payload] in H; destruct pl as [|a1 [|a0 [|b1 [|b0 [|bc data]]]]];
    try discriminate H.
  1-4: destruct (_ && _) eqn:E in H; [injection H as <-; constructor; lia|discriminate H].
  - destruct (((b1 =? 255) || (b1 =? 0)) && (b0 =? 0)) eqn:E; [|discriminate H]. injection H as <-.
    assert (b0 = 0) as -> by lia. constructor. lia.
  - injection H as <-. constructor.
  - destruct (_ && _) eqn:E in H; [|discriminate H].
    destruct (decode_bools _ data) as [args|] eqn:Ed; [|discriminate H]. injection H as <-.
    assert (bc = (be2 b1 b0 + 7) / 8) as -> by lia. constructor; [lia|lia|exact Ed].
  - destruct (_ && _) eqn:E in H; [|discriminate H].
    destruct (bytes_to_u16s BigE data) as [args|] eqn:Ed; [|discriminate H]. injection H as <-.
    assert (bc = 2 * be2 b1 b0) as -> by lia. constructor; [lia|lia|exact Ed].
Qed.

Lemma spec_response_write p r res : r_err res = HNone -> h_write r = true ->
  spec_response p r res = mkpdu (p_unit p) (p_fc p) (firstn 4 (p_payload p)).
Proof. intros E W. unfold spec_response. rewrite E, W. destruct (h_kind r); reflexivity. Qed.

Section Proc.
  Context {St : Type} (h : handler St).

  Definition process_ok (st : St) (p : pdu) : Prop :=
    let '(st', calls, act) := server_process h st p in
    match spec_decode p with
    | Some r =>
        if in_range r
        then calls = [r] /\ hreq_ok r /\ st' = fst (h st r) /\
             act = Respond (spec_response p r (snd (h st r)))
        else calls = [] /\ st' = st /\ act = Respond (mkpdu (p_unit p) (err_fc (p_fc p)) [2])
    | None =>
        calls = [] /\ st' = st /\
        if supported_fc (p_fc p)
        then act = CloseLink \/ act = Respond (mkpdu (p_unit p) (err_fc (p_fc p)) [2])
             \/ act = Respond (mkpdu (p_unit p) (err_fc (p_fc p)) [3])
        else act = Respond (mkpdu (p_unit p) (err_fc (p_fc p)) [1])
    end.

  (* Every dispatching branch of server_process ends alike: call the handler,
     turn an error into an exception, otherwise build the reply (k). What is
     left per function code is that k builds the specified response. *)
  Lemma call_tail_spec st p r (k : St -> hres -> St * list hreq * action) :
    hreq_ok r ->
    (forall st' res, h st r = (st', res) -> r_err res = HNone ->
       k st' res = (st', [r], Respond (spec_response p r res))) ->
    let '(st', calls, act) :=
      (let '(st', res) := h st r in
       match norm_herr (r_err res) with
       | HNone => k st' res
       | e => (st', [r], Respond (exception_pdu p (herr_code e)))
       end) in
    calls = [r] /\ hreq_ok r /\ st' = fst (h st r) /\ act = Respond (spec_response p r (snd (h st r))).
  Proof.
    intros Hr Hk. destruct (h st r) as [st' res] eqn:Eh. cbn [fst snd].
    destruct (r_err res) as [|c| |] eqn:Er; cbn [norm_herr herr_code].
    1: rewrite (Hk st' res eq_refl Er).
    all: unfold spec_response; rewrite Er; (split; [reflexivity|]); (split; [exact Hr|]); split; reflexivity.
  Qed.

  Lemma proc_read st u fc pl : fc = 1 \/ fc = 2 \/ fc = 3 \/ fc = 4 ->
    pdu_wf (mkpdu u fc pl) -> handler_wf h -> process_ok st (mkpdu u fc pl).
  Proof.
    intros Hfc (Hu & _ & Hb & _) Hwf. cbn [p_unit p_fc p_payload] in Hu, Hb.
    unfold process_ok, server_process. cbn [p_unit p_fc p_payload].
    destruct Hfc as [-> | [-> | [-> | ->]]]; cbn [N.eqb Pos.eqb orb].
    all: destruct pl as [|a1 [|a0 [|q1 [|q0 [|x pl]]]]];
      cbn [length Nat.eqb negb spec_decode p_unit p_fc p_payload]; try (repeat split; left; reflexivity).
    all: cbn [skipn be_word]; fold (be2 a1 a0); fold (be2 q1 q0).
    all: destruct (be2_bytes _ _ _ Hb) as (Ha & _ & Hb'); destruct (be2_bytes _ _ _ Hb') as (Hq & _ & _).
    all: generalize dependent (be2 a1 a0); generalize dependent (be2 q1 q0); intros q Hq a Ha.
    all: rewrite limit_test; destruct ((1 <=? q) && (q <=? _)) eqn:E1; cbn [negb];
      [|repeat split; left; reflexivity].
    all: unfold in_range; cbn [h_addr h_qty]; rewrite N.ltb_antisym.
    all: destruct (a + q - 1 <=? 65535) eqn:E2; cbn [negb]; [|repeat split; reflexivity].
    all: apply call_tail_spec; [unfold hreq_ok; cbn [h_kind h_write h_addr h_qty h_unit]; lia|].
    all: intros st' res Eh Er; unfold spec_response; rewrite Er; cbn [h_kind h_write h_qty p_unit p_fc].
    (* coils and discrete inputs: the byte count is the rounded-up eighth of the quantity *)
    1,2: destruct (lenN (r_bools res) =? q) eqn:El; cbn [negb]; [|reflexivity]; apply N.eqb_eq in El;
      rewrite encode_bools_spec, ceil8, El; unfold u8; rewrite N.mod_small by lia; reflexivity.
    (* registers: a well-behaved handler returns 16-bit values *)
    all: destruct (lenN (r_regs res) =? q) eqn:El; cbn [negb]; [|reflexivity]; apply N.eqb_eq in El.
    all: assert (Hregs : Forall (fun v => v < 65536) (r_regs res))
           by (change res with (snd (st', res)); rewrite <- Eh; apply Hwf).
    all: rewrite (u16s_be_layout _ Hregs), El; unfold u8; rewrite N.mod_small by lia.
    all: rewrite N.mul_comm; reflexivity.
  Qed.

  Lemma proc_write_one st u fc pl : fc = 5 \/ fc = 6 ->
    pdu_wf (mkpdu u fc pl) -> process_ok st (mkpdu u fc pl).
  Proof.
    intros Hfc (Hu & _ & Hb & _). cbn [p_unit p_fc p_payload] in Hu, Hb.
    unfold process_ok, server_process. cbn [p_unit p_fc p_payload].
    destruct Hfc as [-> | ->]; cbn [N.eqb Pos.eqb orb].
    all: destruct pl as [|a1 [|a0 [|v1 [|v0 [|x pl]]]]];
      cbn [length Nat.eqb negb spec_decode p_unit p_fc p_payload]; try (repeat split; left; reflexivity).
    all: cbn [skipn nth be_word]; fold (be2 a1 a0); fold (be2 v1 v0).
    all: destruct (be2_bytes _ _ _ Hb) as (Ha & Ha16 & Hb'); destruct (be2_bytes _ _ _ Hb') as (Hv & Hv16 & _).
    (* a single coil: the value is 0xFF00 or 0 *)
    1: rewrite <- negb_orb, <- negb_andb; destruct (((v1 =? 255) || (v1 =? 0)) && (v0 =? 0)) eqn:E1;
      cbn [negb]; [|repeat split; left; reflexivity].
    all: unfold in_range; cbn [h_addr h_qty]; replace (be2 a1 a0 + 1 - 1 <=? 65535) with true by lia.
    all: apply call_tail_spec; [|intros st' res _ Er; unfold spec_response; rewrite Er, Ha16, ?Hv16; reflexivity].
    - unfold hreq_ok; cbn; lia.
    - unfold hreq_ok; cbn [h_kind h_write h_addr h_qty h_unit h_regs]. repeat split; try lia; auto.
  Qed.

  (* the two multiple writes differ in the limit, in the byte count that the
     quantity calls for, and in the decoder of the data *)
  Lemma proc_write_many st u fc pl : fc = 15 \/ fc = 16 ->
    pdu_wf (mkpdu u fc pl) -> process_ok st (mkpdu u fc pl).
  Proof.
    intros Hfc (Hu & _ & Hb & _). cbn [p_unit p_fc p_payload] in Hu, Hb.
    unfold process_ok, server_process. cbn [p_unit p_fc p_payload].
    destruct Hfc as [-> | ->]; cbn [N.eqb Pos.eqb orb].
    all: destruct pl as [|a1 [|a0 [|q1 [|q0 [|bc dat]]]]];
      cbn [length Nat.ltb Nat.leb spec_decode p_unit p_fc p_payload]; try (repeat split; left; reflexivity).
    all: cbn [skipn be_word nth]; fold (be2 a1 a0); fold (be2 q1 q0).
    all: destruct (be2_bytes _ _ _ Hb) as (Ha & Ha16 & Hb'); destruct (be2_bytes _ _ _ Hb') as (Hq & Hq16 & Hd).
    all: apply bytesb_cons in Hd; destruct Hd as [_ Hd].
    all: replace (lenN (a1 :: a0 :: q1 :: q0 :: bc :: dat) - 5) with (lenN dat) by (unfold lenN; cbn [length]; lia).
    all: rewrite ?ceil8, ?(N.mul_comm _ 2), limit_test; set (a := be2 a1 a0) in *; set (q := be2 q1 q0) in *.
    all: destruct ((1 <=? q) && (q <=? _)) eqn:E1; cbn [negb andb];
      [|destruct (length dat <=? 0)%nat; repeat split; left; reflexivity].
    all: unfold u8; rewrite ?(N.mod_small ((q + 7) / 8)), ?(N.mod_small (2 * q)) by lia.
    all: destruct (length dat <=? 0)%nat eqn:E0.
    (* no data: the length cannot match a quantity of at least one *)
    1: replace (lenN dat =? (q + 7) / 8) with false by (unfold lenN; lia).
    3: replace (lenN dat =? 2 * q) with false by (unfold lenN; lia).
    1,3: rewrite andb_false_r; repeat split; left; reflexivity.
    all: unfold in_range; rewrite N.ltb_antisym.
    all: destruct (a + q - 1 <=? 65535) eqn:E2; cbn [negb];
      [|destruct ((bc =? _) && _); [first [destruct (decode_bools _ _)|destruct (bytes_to_u16s _ _)]|];
        cbn [h_addr h_qty]; rewrite ?E2; repeat split; try reflexivity; right; left; reflexivity].
    all: destruct (bc =? _) eqn:E3; cbn [negb andb]; [|repeat split; left; reflexivity].
    all: destruct (lenN dat =? _) eqn:E4; cbn [negb]; [|repeat split; left; reflexivity].
    1: destruct (decode_bools (N.to_nat q) dat) as [args|] eqn:Ed; [|repeat split; left; reflexivity].
    2: destruct (bytes_to_u16s BigE dat) as [args|] eqn:Ed; [|repeat split; left; reflexivity].
    all: cbn [h_addr h_qty]; rewrite E2; apply call_tail_spec;
      [|intros st' res _ Er; unfold spec_response; rewrite Er, Ha16, Hq16; reflexivity].
    - apply decode_bools_length in Ed. unfold hreq_ok, lenN; cbn [h_kind h_write h_addr h_qty h_unit h_bools]. lia.
    - pose proof (proj2 (dec_list_sound W16 BigE HighFirst _ _ Hd Ed)) as Hargs. apply bytes_to_u16s_length in Ed.
      unfold hreq_ok, lenN in *; cbn [h_kind h_write h_addr h_qty h_unit h_regs]. repeat split; try lia. exact Hargs.
  Qed.

  Lemma proc_other st u fc pl : supported_fc fc = false -> process_ok st (mkpdu u fc pl).
  Proof.
    intros Hs. unfold process_ok. rewrite spec_decode_unsupported by exact Hs.
    cbn [p_fc p_unit p_payload]. rewrite Hs.
    unfold supported_fc, mem in Hs. cbn [existsb] in Hs. rewrite !orb_false_iff in Hs.
    destruct Hs as (E1 & E2 & E3 & E4 & E5 & E6 & E15 & E16 & _).
    unfold server_process. cbn [p_fc p_unit p_payload]. rewrite E1, E2, E3, E4, E5, E6, E15, E16.
    cbn [orb]. repeat split; reflexivity.
  Qed.

  Lemma server_process_spec st p : pdu_wf p -> handler_wf h -> process_ok st p.
  Proof.
    destruct p as [u fc pl]. intros Hp Hwf.
    destruct (supported_fc fc) eqn:Hs; [|apply proc_other; exact Hs].
    apply supported_cases in Hs. destruct Hs as [->|[->|[->|[->|[->|[->|[->| ->]]]]]]].
    1-4: apply proc_read; auto.
    1,2: apply proc_write_one; auto.
    all: apply proc_write_many; auto.
  Qed.
End Proc.

Section Session.
  Context {St : Type} (h : handler St).

  (* the payload of the response of a turn, if any, has at most 251 bytes: the
     byte count and the 2 * 125 data bytes of the longest register read *)
  Definition fits (x : St * list hreq * action) : Prop :=
    match snd x with Respond r => lenN (p_payload r) <= 251 | CloseLink => True end.

  Lemma fits_if (c : bool) x y : (c = true -> fits x) -> (c = false -> fits y) -> fits (if c then x else y).
  Proof. destruct c; auto. Qed.

  Lemma fits_exc s l p c : fits (s, l, Respond (exception_pdu p c)).
  Proof. cbn. lia. Qed.

  Lemma fits_call st p r k : (forall st' res, fits (k st' res)) ->
    fits (let '(st', res) := h st r in
          match norm_herr (r_err res) with
          | HNone => k st' res
          | e => (st', [r], Respond (exception_pdu p (herr_code e)))
          end).
  Proof.
    intros Hk. destruct (h st r) as [st' res]. destruct (norm_herr (r_err res)); first [apply Hk|apply fits_exc].
  Qed.

  Lemma server_process_resp_len st p :
    match snd (server_process h st p) with
    | Respond r => lenN (p_payload r) <= 251
    | CloseLink => True
    end.
  Proof.
    change (fits (server_process h st p)). unfold server_process. cbv zeta.
    (* through every test of the dispatcher: a closed link sends nothing, an exception one byte *)
    repeat (apply fits_if; intros ?); try exact I; try apply fits_exc.
    all: try destruct (decode_bools _ _); try destruct (bytes_to_u16s _ _); try exact I.
    all: apply fits_call; intros st' res.
    (* the writes echo four bytes *)
    all: try (unfold fits, lenN; cbn [snd p_payload be16 app length]; lia).
    (* the reads: the count was tested against the quantity, the quantity against its limit *)
    all: apply fits_if; intros ?; [apply fits_exc|]; unfold fits, lenN in *; cbn [snd p_payload length];
      rewrite ?encode_bools_len, ?u16s_to_bytes_len; lia.
  Qed.

  (* FramingP.assemble_mbap_is_spec for the responses of the server (spec_mbap
     is spec_frame FMbap); the bound is the one server_process_resp_len gives *)
  Lemma assemble_is_spec txn r : lenN (p_payload r) <= 251 -> assemble_mbap txn r = spec_mbap txn r.
  Proof. intros _. apply assemble_mbap_is_spec. Qed.

  Lemma assemble_len txn r : lenN (assemble_mbap txn r) = 8 + lenN (p_payload r).
  Proof. unfold assemble_mbap, be16, lenN. cbn [app length]. lia. Qed.

  Lemma session_fuel f1 : forall f2 st e s, (length s < f1)%nat -> (length s < f2)%nat ->
    server_session h f1 st e s = server_session h f2 st e s.
  Proof.
    induction f1 as [|f1 IH]; intros f2 st e s H1 H2; [lia|]. destruct f2 as [|f2]; [lia|].
    cbn [server_session]. destruct (read_mbap e s) as [[p t|x] rest] eqn:Er; [|reflexivity].
    apply read_mbap_consumes in Er.
    destruct (server_process h st p) as [[st' calls] act]. f_equal.
    destruct act as [r|]; [|reflexivity]. f_equal. apply IH; lia.
  Qed.

  Lemma session_frames frames : forall tail st e f,
    Forall (fun fr => fst fr < 65536 /\ pdu_wf (snd fr)) frames ->
    (length (concat (map (fun fr => spec_mbap (fst fr) (snd fr)) frames) ++ tail) < f)%nat ->
    server_session h f st e (concat (map (fun fr => spec_mbap (fst fr) (snd fr)) frames) ++ tail) =
    spec_session h st frames (fun st' => server_run h st' e tail).
  Proof.
    induction frames as [|[t p] fs IH]; intros tail st e f HF Hf.
    - cbn [map concat app spec_session] in *. unfold server_run. apply session_fuel; lia.
    - inversion HF as [|x l [Ht Hp] HF']; subst. cbn [fst snd] in *.
      cbn [map concat fst snd] in *. rewrite <- app_assoc in *.
      destruct f as [|f]; [lia|]. cbn [server_session spec_session].
      rewrite read_spec_mbap by (try exact Ht; apply Hp).
      pose proof (server_process_resp_len st p) as HL.
      destruct (server_process h st p) as [[st' calls] act]. f_equal.
      destruct act as [r|]; [|reflexivity]. cbn [snd] in HL.
      rewrite assemble_is_spec by exact HL. f_equal.
      apply IH; [exact HF'|]. rewrite app_length in Hf.
      assert (0 < length (spec_mbap t p))%nat by (unfold spec_mbap, be16; cbn [app length]; lia). lia.
  Qed.

  Lemma server_pipelined : forall frames tail st e,
    Forall (fun f => fst f < 65536 /\ pdu_wf (snd f)) frames ->
    server_run h st e (concat (map (fun f => spec_mbap (fst f) (snd f)) frames) ++ tail) =
    spec_session h st frames (fun st' => server_run h st' e tail).
  Proof.
    intros frames tail st e HF. unfold server_run at 1. apply session_frames; [exact HF|lia].
  Qed.

  Lemma spec_session_ext frames : forall st (k1 k2 : St -> list event),
    (forall st', k1 st' = k2 st') -> spec_session h st frames k1 = spec_session h st frames k2.
  Proof.
    induction frames as [|[t p] fs IH]; intros st k1 k2 Hk; cbn [spec_session]; [apply Hk|].
    destruct (server_process h st p) as [[st' calls] act]. f_equal.
    destruct act as [r|]; [|reflexivity]. f_equal. apply IH. exact Hk.
  Qed.

  (* Q is an invariant of the unread stream (the stream holds bytes; or
     nothing at all), P what each turn is shown to emit under it. *)
  Lemma session_events (P : event -> Prop) (Q : list N -> Prop) :
    (forall st e s p t rest, Q s -> read_mbap e s = (FOk p t, rest) ->
       Q rest /\ Forall P (map EvCall (snd (fst (server_process h st p)))) /\
       forall res, snd (server_process h st p) = Respond res -> P (EvResp (assemble_mbap t res))) ->
    forall f st e s, Q s ->
    exists evs, server_session h f st e s = evs ++ [EvClosed] /\ Forall P evs.
  Proof.
    intros Hturn. induction f as [|f IH]; intros st e s Hs; cbn [server_session].
    - exists []. split; [reflexivity|constructor].
    - destruct (read_mbap e s) as [[p t|x] rest] eqn:Er; [|exists []; split; [reflexivity|constructor]].
      destruct (Hturn st e s p t rest Hs Er) as (Hrest & Hc & Hr).
      destruct (server_process h st p) as [[st' calls] [res|]]; cbn [fst snd] in Hc, Hr.
      + destruct (IH st' e rest Hrest) as (evs & -> & Hevs).
        exists (map EvCall calls ++ EvResp (assemble_mbap t res) :: evs). split.
        * rewrite <- app_assoc. reflexivity.
        * apply Forall_app. split; [exact Hc|]. constructor; [apply Hr; reflexivity|exact Hevs].
      + exists (map EvCall calls). split; [reflexivity|exact Hc].
  Qed.
End Session.
