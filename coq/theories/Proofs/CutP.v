(* C13: a stream that ends inside a frame. Server: a strict prefix of a
   well-formed request frame never reaches a handler; the complete frame is
   processed exactly once. Client: a strict prefix of a valid reply (also
   behind skippable frames) is never a success; Close; Open recovers. *)
From Modbus Require Import Base.Bytes Model.Crc Model.Encoding Model.Wire Model.Client
  Model.Server Model.Handle
  Spec.ModbusSpec Spec.ClientSpec Spec.ServerSpec Spec.ServerSessionSpec Spec.CutSpec
  Proofs.CrcP Proofs.FramingP Proofs.ClientRespP Proofs.MbapServerP Proofs.ServerP.
From Modbus Require Proofs.ClientReqP.

Lemma read_mbap_cut e t proto unit fc payload k :
  lenN payload <= 252 -> (k < length (mbap_frame t proto unit fc payload))%nat ->
  read_mbap e (firstn k (mbap_frame t proto unit fc payload)) = (FErr (short_err e), []).
Proof.
  intros Hl Hk. rewrite mbap_frame_length in Hk. unfold mbap_frame.
  remember (lenN payload) as L eqn:HL.
  change (be16 t ++ be16 proto ++ be16 (2 + L) ++ [unit; fc] ++ payload)
    with ([(t / 256) mod 256; t mod 256; (proto / 256) mod 256; proto mod 256;
           ((2 + L) / 256) mod 256; (2 + L) mod 256; unit] ++ (fc :: payload)).
  destruct (Nat.lt_ge_cases k 7) as [H7|H7].
  - unfold read_mbap. rewrite read_full_short_iff; [reflexivity|].
    rewrite firstn_length. lia.
  - rewrite firstn_app_ge by (cbn [length]; lia). cbn [length].
    unfold read_mbap. rewrite read_full_app by reflexivity. cbv beta iota.
    replace (((2 + L) / 256) mod 256 * 256 + (2 + L) mod 256) with (2 + L) by lia.
    replace (260 <? 2 + L - 1 + 7) with false by lia.
    replace (2 + L <=? 1) with false by lia.
    rewrite read_full_short_iff; [reflexivity|].
    rewrite firstn_length. cbn [length]. unfold lenN in HL. lia.
Qed.

Lemma spec_mbap_frame t p :
  spec_mbap t p = mbap_frame t 0 (p_unit p) (p_fc p) (p_payload p).
Proof. reflexivity. Qed.

Lemma mbap_skip_cut e txn f s k fuel : skippable txn f ->
  (8 <= length f)%nat /\
  mbap_read_response (S fuel) e txn (firstn k (f ++ s)) =
  if (k <? length f)%nat then (Err (short_err e), [])
  else mbap_read_response fuel e txn (firstn (k - length f) s).
Proof.
  intros (t & proto & u & c & pl & -> & Ht & Hp & Hpl & Hd).
  fold (mbap_frame t proto u c pl).
  pose proof (mbap_frame_length t proto u c pl) as Hlen. split; [lia|].
  destruct (Nat.ltb_spec k (length (mbap_frame t proto u c pl))) as [Hlt|Hge].
  - rewrite firstn_app_le by lia. cbn [mbap_read_response].
    rewrite read_mbap_cut by assumption. destruct e; reflexivity.
  - rewrite firstn_app_ge by exact Hge. cbn [mbap_read_response].
    rewrite read_mbap_frame by assumption.
    destruct (proto =? 0) eqn:E; [|reflexivity].
    apply N.eqb_eq in E. replace (t =? txn) with false by lia. reflexivity.
Qed.

Lemma mbap_cut_stream e txn frames t' proto' unit fc payload :
  Forall (skippable txn) frames -> lenN payload <= 252 ->
  forall k fuel,
    (k < length (concat frames ++ mbap_frame t' proto' unit fc payload))%nat -> (k < fuel)%nat ->
    mbap_read_response fuel e txn
      (firstn k (concat frames ++ mbap_frame t' proto' unit fc payload)) = (Err (short_err e), []).
Proof.
  intros HF Hl. induction HF as [|f fs Hf Hfs IH]; intros k fuel Hk Hfuel.
  - cbn [concat app] in *. destruct fuel as [|fuel]; [lia|].
    cbn [mbap_read_response]. rewrite read_mbap_cut by assumption. destruct e; reflexivity.
  - cbn [concat] in *. rewrite <- app_assoc in *. destruct fuel as [|fuel]; [lia|].
    destruct (mbap_skip_cut e txn f (concat fs ++ mbap_frame t' proto' unit fc payload) k fuel Hf)
      as [Hlen ->].
    rewrite app_length in Hk.
    destruct (Nat.ltb_spec k (length f)); [reflexivity|apply IH; lia].
Qed.

Lemma mbap_prefix_waits e txn frames : Forall (skippable txn) frames ->
  forall k fuel, (length (firstn k (concat frames)) < fuel)%nat ->
  mbap_read_response fuel e txn (firstn k (concat frames)) = (Err (short_err e), []).
Proof.
  intros HF. induction HF as [|f fs Hf Hfs IH]; intros k fuel Hfuel.
  - cbn [concat] in *. rewrite firstn_nil in *. destruct fuel as [|fuel]; [cbn in Hfuel; lia|].
    cbn [mbap_read_response]. unfold read_mbap.
    rewrite read_full_short_iff by (cbn; lia). destruct e; reflexivity.
  - cbn [concat] in *. destruct fuel as [|fuel]; [lia|].
    destruct (mbap_skip_cut e txn f (concat fs) k fuel Hf) as [Hlen ->].
    destruct (Nat.ltb_spec k (length f)) as [Hlt|Hge]; [reflexivity|].
    rewrite firstn_app_ge, app_length in Hfuel by exact Hge. apply IH. lia.
Qed.

(* the first three bytes fix the expected length; fewer bytes are available *)
Lemma read_rtu_cut e unit fc b2 data k :
  expected_len fc b2 = Some (lenN data) -> lenN data <= 251 ->
  (k < length (rtu_frame unit fc (b2 :: data)))%nat ->
  read_rtu e (firstn k (rtu_frame unit fc (b2 :: data))) = (Err (cut_err_class FRtu e k), []).
Proof.
  intros He Hl. unfold rtu_frame.
  change ([unit; fc] ++ b2 :: data) with ([unit; fc; b2] ++ data).
  unfold crc_bytes, crc_value, le16. set (c := crc16 _). rewrite <- app_assoc.
  set (tl := data ++ [c mod 256; (c / 256) mod 256]).
  assert (Htl : length tl = (length data + 2)%nat) by (subst tl; rewrite app_length; reflexivity).
  clearbody tl. clear c. rewrite app_length. cbn [length]. intros Hk.
  destruct k as [|[|[|k]]]; try reflexivity.
  change (firstn (S (S (S k))) ([unit; fc; b2] ++ tl)) with ([unit; fc; b2] ++ firstn k tl).
  unfold read_rtu. rewrite read_full_app by reflexivity. cbv beta iota. rewrite He.
  replace (256 <? 3 + (lenN data + 2)) with false by lia.
  rewrite read_full_short_iff by (rewrite firstn_length; unfold lenN; lia).
  destruct k as [|k].
  - cbn [firstn]. destruct e; reflexivity.
  - destruct tl as [|x tl]; [cbn [length] in Htl; lia|]. cbn [firstn].
    destruct e; reflexivity.
Qed.

Lemma rtu_response_cut e unit fc b2 data k :
  expected_len fc b2 = Some (lenN data) -> lenN data <= 251 ->
  (k < length (rtu_frame unit fc (b2 :: data)))%nat ->
  rtu_read_response e (firstn k (rtu_frame unit fc (b2 :: data))) =
    (Err (cut_err_class FRtu e k), []).
Proof.
  intros He Hl Hk. unfold rtu_read_response. rewrite read_rtu_cut by assumption.
  destruct (cut_err_class FRtu e k); reflexivity.
Qed.

Lemma recv_cut fr txn e res frames k :
  bytesb ([p_unit res; p_fc res] ++ p_payload res) = true ->
  frame_ok fr txn res frames ->
  (k < length (concat frames ++ spec_frame fr (u16 (txn + 1)) res))%nat ->
  recv fr txn e (firstn k (concat frames ++ spec_frame fr (u16 (txn + 1)) res)) =
    (Err (cut_err_class fr e k), []).
Proof.
  intros Hb Hfr Hk. destruct res as [unit fc payload]. cbn [p_unit p_fc p_payload] in *.
  destruct fr; cbn [recv frame_ok p_unit p_fc p_payload cut_err_class] in *.
  - destruct Hfr as (Ht & Hl & HF). rewrite spec_frame_mbap in *. cbn [p_unit p_fc p_payload] in *.
    apply mbap_cut_stream; try assumption.
    rewrite firstn_length. lia.
  - destruct Hfr as (-> & b2 & data & -> & He & Hl). cbn [concat app] in *.
    rewrite spec_frame_rtu in * by exact Hb. cbn [p_unit p_fc p_payload] in *.
    apply rtu_response_cut; assumption.
Qed.

Lemma exchange_cut fr cfg txn o e res frames req k :
  client_request cfg o = Ok req ->
  bytesb ([p_unit res; p_fc res] ++ p_payload res) = true ->
  frame_ok fr txn res frames ->
  (k < length (concat frames ++ spec_frame fr (u16 (txn + 1)) res))%nat ->
  let r := client_call fr cfg txn o e
             (firstn k (concat frames ++ spec_frame fr (u16 (txn + 1)) res)) in
  cr_res r = Err (cut_err_class fr e k) /\ cr_rest r = [].
Proof.
  intros Hreq Hb Hfr Hk r. subst r.
  destruct (client_call_ok fr cfg txn o e
              (firstn k (concat frames ++ spec_frame fr (u16 (txn + 1)) res)) req Hreq) as [H1 H2].
  rewrite H1, H2, (recv_cut fr txn e res frames k Hb Hfr Hk). split; reflexivity.
Qed.

(* the cut may also fall inside one of the skippable frames *)
Lemma client_cut_gen fr cfg txn o e res vs frames k :
  op_wf o -> cfg_wf cfg -> valid_op o = true ->
  bytesb (p_payload res) = true -> answers cfg o res vs ->
  match fr with
  | FMbap => txn < 65536 /\ Forall (skippable (u16 (txn + 1))) frames
  | FRtu => frames = []
  end ->
  (k < length (concat frames ++ spec_frame fr (u16 (txn + 1)) res))%nat ->
  let r := client_call fr cfg txn o e
             (firstn k (concat frames ++ spec_frame fr (u16 (txn + 1)) res)) in
  cr_res r = Err (cut_err_class fr e k) /\ cr_rest r = [].
Proof.
  intros Hwf Hcfg V Hb Hans Hfr Hk.
  destruct (request_valid_ok cfg o Hwf V) as (req & Hreq & Hru & Hrf).
  pose proof (answers_frame_ok fr cfg txn o res vs frames (p_unit res) Hwf V Hans Hfr) as Hok.
  rewrite pdu_eta in Hok.
  pose proof Hans as (Hu & Hf & _).
  assert (Hbody : bytesb ([p_unit res; p_fc res] ++ p_payload res) = true).
  { apply body_bytes; [rewrite Hu; exact Hcfg|rewrite Hf; pose proof (spec_fc_byte o); lia|exact Hb]. }
  exact (exchange_cut fr cfg txn o e res frames req k Hreq Hbody Hok Hk).
Qed.

(* a cut exception reply is reported as the cut, never as the exception *)
Lemma client_cut_exception fr cfg txn o e res code frames k :
  op_wf o -> cfg_wf cfg -> valid_op o = true -> code < 256 ->
  exception_reply cfg o res code ->
  match fr with
  | FMbap => txn < 65536 /\ Forall (skippable (u16 (txn + 1))) frames
  | FRtu => frames = []
  end ->
  (k < length (concat frames ++ spec_frame fr (u16 (txn + 1)) res))%nat ->
  cr_res (client_call fr cfg txn o e
            (firstn k (concat frames ++ spec_frame fr (u16 (txn + 1)) res))) =
    Err (cut_err_class fr e k).
Proof.
  intros Hwf Hcfg V Hc (Hu & Hf & Hp) Hfr Hk.
  destruct (request_valid_ok cfg o Hwf V) as (req & Hreq & Hru & Hrf).
  pose proof (exception_frame_ok fr txn o (p_unit res) code frames Hfr) as Hok.
  rewrite <- Hf, <- Hp, pdu_eta in Hok.
  assert (Hbody : bytesb ([p_unit res; p_fc res] ++ p_payload res) = true).
  { apply body_bytes.
    - unfold cfg_wf in Hcfg. destruct Hu as [Hu|Hu]; rewrite Hu; lia.
    - rewrite Hf. pose proof (spec_fc_byte o). lia.
    - rewrite Hp. apply bytesb_cons_intro; [exact Hc|reflexivity]. }
  exact (proj1 (exchange_cut fr cfg txn o e res frames req k Hreq Hbody Hok Hk)).
Qed.

Lemma client_cut_never_ok : forall fr cfg txn o e res vs frames k,
  op_wf o -> cfg_wf cfg -> valid_op o = true ->
  bytesb (p_payload res) = true -> answers cfg o res vs ->
  match fr with
  | FMbap => txn < 65536 /\ Forall (skippable (u16 (txn + 1))) frames
  | FRtu => frames = []
  end ->
  (k < length (concat frames ++ spec_frame fr (u16 (txn + 1)) res))%nat ->
  let r := cr_res (client_call fr cfg txn o e
             (firstn k (concat frames ++ spec_frame fr (u16 (txn + 1)) res))) in
  cut_failed r /\ forall vs', r <> Ok vs'.
Proof.
  intros fr cfg txn o e res vs frames k Hwf Hcfg V Hb Hans Hfr Hk.
  destruct (client_cut_gen fr cfg txn o e res vs frames k Hwf Hcfg V Hb Hans Hfr Hk) as [H _].
  cbv zeta. rewrite H. split; [eexists; reflexivity|discriminate].
Qed.

(* the side condition of client_complete_gen and client_cut_gen on the frames
   in front of the reply, when there are none *)
Lemma no_frames_side fr txn : txn < 65536 ->
  match fr with
  | FMbap => txn < 65536 /\ Forall (skippable (u16 (txn + 1))) (@nil (list N))
  | FRtu => @nil (list N) = []
  end.
Proof. intros Ht. destruct fr; [split; [exact Ht|constructor]|reflexivity]. Qed.

Lemma hd_reopen_fresh s : hd_open (hd_close s) = mkhd 0 [] false.
Proof. reflexivity. Qed.

(* the transaction counter restarts at 0 on Open, so the reply carries
   transaction id 1 *)
Lemma handle_reopen_ok : forall fr cfg h o1 e1 s1 o e res vs post,
  op_wf o -> cfg_wf cfg -> valid_op o = true ->
  bytesb (p_payload res) = true -> answers cfg o res vs ->
  let h1 := snd (hd_call fr cfg h o1 e1 s1) in
  let h2 := hd_open (hd_close h1) in
  let r := fst (hd_call fr cfg h2 o e (spec_frame fr 1 res ++ post)) in
  cr_res r = Ok vs /\ cr_rest r = post /\
  cr_writes r = [spec_frame fr 1 (spec_pdu cfg o)].
Proof.
  intros fr cfg h o1 e1 s1 o e res vs post Hwf Hcfg V Hb Hans h1 h2 r.
  subst r h2. rewrite hd_reopen_fresh. unfold hd_call. cbn [hd_closed hd_txn hd_unread fst app].
  pose proof (client_complete_gen fr cfg 0 o e res vs [] post Hwf Hcfg V Hb Hans
                (no_frames_side fr 0 eq_refl)) as Hc.
  cbv zeta in Hc. cbn [concat app] in Hc. change (u16 (0 + 1)) with 1 in Hc.
  destruct Hc as [H1 H2]. split; [exact H1|]. split; [exact H2|].
  destruct (ClientReqP.client_transmit fr cfg 0 o e (spec_frame fr 1 res ++ post) Hwf Hcfg eq_refl)
    as [Hw _].
  exact (Hw V).
Qed.

Lemma handle_closed_fails fr cfg h o e s : op_wf o ->
  let r := fst (hd_call fr cfg (hd_close h) o e s) in
  cut_failed (cr_res r) /\ cr_writes r = [] /\ snd (hd_call fr cfg (hd_close h) o e s) = hd_close h.
Proof.
  intros Hwf. unfold hd_call. cbn [hd_close hd_closed fst snd cr_res cr_writes].
  split; [|split; reflexivity].
  destruct (client_request cfg o) as [req|x| |] eqn:E.
  - eexists; reflexivity.
  - eexists; reflexivity.
  - destruct (request_no_panic cfg o) as [Hp _]. congruence.
  - destruct (request_no_panic cfg o) as [_ Ho]. congruence.
Qed.

Lemma cut_calls_app a b : cut_calls (a ++ b) = (cut_calls a + cut_calls b)%nat.
Proof. unfold cut_calls. rewrite filter_app, app_length. reflexivity. Qed.

Lemma cut_calls_map l : cut_calls (map EvCall l) = length l.
Proof.
  unfold cut_calls. induction l as [|x l IH]; [reflexivity|].
  cbn [map filter cut_is_call length]. rewrite IH. reflexivity.
Qed.

Section Cut.
  Context {St : Type} (h : handler St).

  Lemma server_cut : forall st e t p k,
    pdu_wf p -> (k < length (spec_mbap t p))%nat ->
    server_run h st e (firstn k (spec_mbap t p)) = [EvClosed].
  Proof.
    intros st e t p k (_ & _ & _ & Hl) Hk. unfold server_run. cbn [server_session].
    rewrite spec_mbap_frame in *. rewrite read_mbap_cut by assumption. reflexivity.
  Qed.

  Lemma server_full : forall st e t p, t < 65536 -> pdu_wf p ->
    server_run h st e (spec_mbap t p) =
    let '(st', calls, act) := server_process h st p in
    map EvCall calls ++
    match act with
    | Respond r => [EvResp (spec_mbap t r); EvClosed]
    | CloseLink => [EvClosed]
    end.
  Proof.
    intros st e t p Ht Hp.
    pose proof (server_pipelined h [(t, p)] [] st e) as H.
    cbn [map concat fst snd] in H. rewrite !app_nil_r in H. rewrite H.
    2:{ constructor; [split; assumption|constructor]. }
    cbn [spec_session]. destruct (server_process h st p) as [[st' calls] act].
    destruct act; reflexivity.
  Qed.

  Lemma server_full_once : forall st e t p r, t < 65536 -> pdu_wf p -> handler_wf h ->
    spec_decode p = Some r -> in_range r = true ->
    server_run h st e (spec_mbap t p) =
      [EvCall r; EvResp (spec_mbap t (spec_response p r (snd (h st r)))); EvClosed].
  Proof.
    intros st e t p r Ht Hp Hwf Hd Hr. rewrite server_full by assumption.
    pose proof (server_process_spec h st p Hp Hwf) as HS. unfold process_ok in HS.
    destruct (server_process h st p) as [[st' calls] act]. rewrite Hd, Hr in HS.
    destruct HS as (-> & _ & _ & ->). reflexivity.
  Qed.

  Lemma server_full_calls : forall st e t p, t < 65536 -> pdu_wf p -> handler_wf h ->
    cut_calls (server_run h st e (spec_mbap t p)) =
    match spec_decode p with
    | Some r => if in_range r then 1%nat else 0%nat
    | None => 0%nat
    end.
  Proof.
    intros st e t p Ht Hp Hwf. rewrite server_full by assumption.
    pose proof (server_process_spec h st p Hp Hwf) as HS. unfold process_ok in HS.
    destruct (server_process h st p) as [[st' calls] act].
    rewrite cut_calls_app, cut_calls_map.
    assert (Htail : cut_calls match act with
                              | Respond r => [EvResp (spec_mbap t r); EvClosed]
                              | CloseLink => [EvClosed]
                              end = 0%nat) by (destruct act; reflexivity).
    rewrite Htail.
    destruct (spec_decode p) as [r|]; [destruct (in_range r)|];
      destruct HS as (-> & _); reflexivity.
  Qed.
End Cut.
