(* Linking lemmas for GoLite programs: what [call p fuel name args] is, in
   terms of the run of the function's body in the environment of the functions
   listed before it. Generic in the program; the side conditions are closed
   computations on the function names. *)
From Coq Require Import List NArith String Bool.
Import ListNotations.
From Modbus Require Import Model.GoLite.

Fixpoint prefix_before (name : string) (fs : list (string * fn)) : list (string * fn) :=
  match fs with
  | [] => []
  | (n, f) :: t => if String.eqb n name then [] else (n, f) :: prefix_before name t
  end.

Fixpoint suffix_after (name : string) (fs : list (string * fn)) : list (string * fn) :=
  match fs with
  | [] => []
  | (n, f) :: t => if String.eqb n name then t else suffix_after name t
  end.

Fixpoint lookup_fn (name : string) (fs : list (string * fn)) : option fn :=
  match fs with
  | [] => None
  | (n, f) :: t => if String.eqb n name then Some f else lookup_fn name t
  end.

Fixpoint absent (name : string) (fs : list (string * fn)) : bool :=
  match fs with
  | [] => true
  | (n, _) :: t => andb (negb (String.eqb name n)) (absent name t)
  end.

Lemma split_lookup name : forall fs f, lookup_fn name fs = Some f ->
  fs = prefix_before name fs ++ (name, f) :: suffix_after name fs.
Proof.
  induction fs as [|[n g] t IH]; intros f H; cbn [lookup_fn prefix_before suffix_after] in *.
  - discriminate.
  - destruct (String.eqb n name) eqn:E.
    + apply String.eqb_eq in E. inversion H; subst. reflexivity.
    + cbn [app]. f_equal. apply IH. exact H.
Qed.

Section Link.
  Variable ge : genv.
  Variable fuel : nat.

  Lemma link_absent : forall fs fe name args, absent name fs = true ->
    link ge fuel fs fe name args = fe name args.
  Proof.
    induction fs as [|[n f] t IH]; intros fe name args H; cbn [link absent] in *.
    - reflexivity.
    - apply andb_true_iff in H as [H1 H2]. rewrite IH by exact H2.
      apply negb_true_iff in H1. rewrite H1. reflexivity.
  Qed.

  Lemma link_split : forall pre name f post fe args, absent name post = true ->
    link ge fuel (pre ++ (name, f) :: post) fe name args = run_fn ge (link ge fuel pre fe) fuel f args.
  Proof.
    induction pre as [|[n g] pre IH]; intros name f post fe args H; cbn [app link].
    - rewrite link_absent by exact H. rewrite String.eqb_refl. reflexivity.
    - apply IH. exact H.
  Qed.
End Link.

Definition env_in (p : program) (name : string) (fuel : nat) : fenv :=
  link (globals (p_globals p)) fuel (prefix_before name (p_fns p)) no_fns.

(* [base] is an environment of external functions (oracles) under the program;
   [call] and [env_in] are the instances with [no_fns] *)
Definition call_with (p : program) (base : fenv) (fuel : nat) (f : string) (args : list val)
  : res (list val) :=
  link (globals (p_globals p)) fuel (p_fns p) base f args.

Definition env_in_with (p : program) (base : fenv) (name : string) (fuel : nat) : fenv :=
  link (globals (p_globals p)) fuel (prefix_before name (p_fns p)) base.

Lemma call_with_no_fns p fuel f args : call_with p no_fns fuel f args = call p fuel f args.
Proof. reflexivity. Qed.

Lemma call_env_with p base name f :
  lookup_fn name (p_fns p) = Some f ->
  absent name (suffix_after name (p_fns p)) = true ->
  forall fuel args,
    call_with p base fuel name args =
    run_fn (globals (p_globals p)) (env_in_with p base name fuel) fuel f args.
Proof.
  intros Hl Ha fuel args. unfold call_with, env_in_with.
  rewrite (split_lookup name (p_fns p) f Hl) at 1.
  apply link_split. exact Ha.
Qed.

(* what is needed of the caller's prefix follows from the lookup of the callee
   in that prefix (checking it by computation is exponential in the caller's
   position) *)
Lemma absent_prefix c name : forall fs, absent c fs = true -> absent c (prefix_before name fs) = true.
Proof.
  induction fs as [|[n f] t IH]; intros H; cbn [absent prefix_before] in *; [reflexivity|].
  apply andb_true_iff in H as [H1 H2].
  destruct (String.eqb n name); [reflexivity|].
  cbn [absent]. rewrite H1, (IH H2). reflexivity.
Qed.

Lemma lookup_in_prefix name c : forall fs g,
  lookup_fn c (prefix_before name fs) = Some g ->
  lookup_fn c fs = Some g /\
  prefix_before c (prefix_before name fs) = prefix_before c fs /\
  (absent c (suffix_after c fs) = true -> absent c (suffix_after c (prefix_before name fs)) = true).
Proof.
  induction fs as [|[n f] t IH]; intros g H; cbn [prefix_before lookup_fn] in *; [discriminate|].
  destruct (String.eqb n name) eqn:E1; [discriminate|].
  cbn [lookup_fn prefix_before suffix_after] in *.
  destruct (String.eqb n c) eqn:E2.
  - split; [exact H|]. split; [reflexivity|]. apply absent_prefix.
  - destruct (IH g H) as (A & B & C). split; [exact A|]. split; [|exact C].
    rewrite B. reflexivity.
Qed.

Lemma env_call_with2 p base name c g :
  lookup_fn c (prefix_before name (p_fns p)) = Some g ->
  absent c (suffix_after c (p_fns p)) = true ->
  forall fuel args, env_in_with p base name fuel c args = call_with p base fuel c args.
Proof.
  intros H1 H5 fuel args. destruct (lookup_in_prefix name c (p_fns p) g H1) as (H2 & H3 & H4).
  rewrite (call_env_with p base c g H2 H5).
  unfold env_in_with at 1. rewrite (split_lookup c _ g H1) at 1.
  rewrite link_split by exact (H4 H5).
  unfold env_in_with. rewrite H3. reflexivity.
Qed.

Lemma env_call p name callee g :
  lookup_fn callee (prefix_before name (p_fns p)) = Some g ->
  lookup_fn callee (p_fns p) = Some g ->
  prefix_before callee (prefix_before name (p_fns p)) = prefix_before callee (p_fns p) ->
  absent callee (suffix_after callee (prefix_before name (p_fns p))) = true ->
  absent callee (suffix_after callee (p_fns p)) = true ->
  forall fuel args, env_in p name fuel callee args = call p fuel callee args.
Proof. intros H1 _ _ _ H5. exact (env_call_with2 p no_fns name callee g H1 H5). Qed.

Lemma env_base p base name ext :
  absent ext (prefix_before name (p_fns p)) = true ->
  forall fuel args, env_in_with p base name fuel ext args = base ext args.
Proof. intros H fuel args. unfold env_in_with. apply link_absent. exact H. Qed.
