(* Proofs about Model/Config.v against Spec/ConfigSpec.v (property C16). The
   device is url_reading, the one way a constructor can read its URL as
   <documented scheme>://<rest> (url_reading_spec: it is the specification's
   url_scheme): NewClient and NewServer are rewritten once as a match on it
   (new_client_reading, new_server_reading) and every lemma is read off those. *)
From Modbus Require Import Base.Bytes Model.Config Spec.ConfigSpec.
From Coq Require String.
Import String.StringSyntax.

Lemma sep_text_eq : sep_text = url_sep.
Proof. reflexivity. Qed.

Lemma scheme_name_model s :
  scheme_name s =
  match s with
  | STcp => nm_tcp | STcpTls => nm_tcptls | SUdp => nm_udp
  | SRtu => nm_rtu | SRtuOverTcp => nm_rtuovertcp | SRtuOverUdp => nm_rtuoverudp
  end.
Proof. destruct s; reflexivity. Qed.

Lemma has_prefix_iff p s : has_prefix p s = true <-> exists y, s = p ++ y.
Proof.
  revert s; induction p as [|x p IH]; intros s; cbn [has_prefix].
  - split; [intros _; exists s; reflexivity | reflexivity].
  - destruct s as [|y s].
    + split; [discriminate | intros [z Hz]; discriminate].
    + rewrite andb_true_iff, N.eqb_eq, IH. split.
      * intros [-> [z ->]]. exists z. reflexivity.
      * intros [z Hz]. cbn in Hz. inversion Hz; subst. split; [reflexivity | exists z; reflexivity].
Qed.

(* the first three characters decide: a non-empty head followed by ":/" or by
   "://"+b start alike *)
Lemma has_prefix_sep_ext c a b :
  has_prefix url_sep (c :: a ++ [58; 47]) = has_prefix url_sep (c :: a ++ url_sep ++ b).
Proof. destruct a as [|x [|y a]]; reflexivity. Qed.

Lemma occurs_cons_inv p c l :
  occurs p (c :: l) -> has_prefix p (c :: l) = true \/ occurs p l.
Proof.
  intros [x [y H]]. destruct x as [|c' x].
  - left. apply has_prefix_iff. exists y. exact H.
  - right. cbn in H. inversion H; subst. exists x, y. reflexivity.
Qed.

Lemma occurs_cons p c l : occurs p l -> occurs p (c :: l).
Proof. intros [x [y ->]]. exists (c :: x), y. reflexivity. Qed.

Lemma occurs_prefix p l : has_prefix p l = true -> occurs p l.
Proof. intros H. apply has_prefix_iff in H as [y ->]. exists [], y. reflexivity. Qed.

Lemma not_occurs_short : ~ occurs url_sep [58; 47].
Proof.
  intros [x [y H]]. apply (f_equal (@length N)) in H.
  rewrite !app_length in H. cbn in H. lia.
Qed.

Lemma split_url_sound u a b :
  split_url u = Some (a, b) ->
  u = a ++ url_sep ++ b /\ ~ occurs url_sep (a ++ [58; 47]).
Proof.
  revert a b; induction u as [|c t IH]; intros a b H; [discriminate|].
  cbn [split_url] in H.
  destruct (has_prefix url_sep (c :: t)) eqn:Hp.
  - apply has_prefix_iff in Hp as [y Hy]. rewrite Hy in *.
    change (skipn 3 (url_sep ++ y)) with y in H. inversion H; subst.
    split; [reflexivity | exact not_occurs_short].
  - destruct (split_url t) as [[a' b']|] eqn:Ht; [|discriminate].
    inversion H; subst. destruct (IH a' b eq_refl) as [Hu Hn]. split.
    + rewrite Hu at 1. reflexivity.
    + intros Ho. cbn [app] in Ho. apply occurs_cons_inv in Ho as [Hq | Ho]; [|exact (Hn Ho)].
      rewrite (has_prefix_sep_ext c a' b), <- Hu in Hq. congruence.
Qed.

Lemma split_url_complete a b :
  ~ occurs url_sep (a ++ [58; 47]) -> split_url (a ++ url_sep ++ b) = Some (a, b).
Proof.
  induction a as [|c a IH]; intros Hn.
  - reflexivity.
  - cbn [app split_url].
    destruct (has_prefix url_sep (c :: a ++ url_sep ++ b)) eqn:Hp.
    + exfalso. apply Hn. apply occurs_prefix. cbn [app].
      rewrite (has_prefix_sep_ext c a b). exact Hp.
    + rewrite IH; [reflexivity|]. intros Ho. apply Hn. cbn [app]. apply occurs_cons. exact Ho.
Qed.

Lemma split_url_spec u a b :
  split_url u = Some (a, b) <-> first_split u a b.
Proof.
  unfold first_split. rewrite sep_text_eq. change (str ":/") with [58; 47]. split.
  - apply split_url_sound.
  - intros [-> Hn]. apply split_url_complete. exact Hn.
Qed.

Lemma split_url_none u : split_url u = None <-> ~ occurs sep_text u.
Proof.
  rewrite sep_text_eq. split.
  - induction u as [|c t IH]; intros H Ho.
    + destruct Ho as [x [y Ho]]. apply (f_equal (@length N)) in Ho.
      rewrite !app_length in Ho. cbn in Ho. lia.
    + cbn [split_url] in H. destruct (has_prefix url_sep (c :: t)) eqn:Hp; [discriminate|].
      destruct (split_url t) as [[a b]|] eqn:Ht; [discriminate|].
      apply occurs_cons_inv in Ho as [Hq | Ho]; [congruence | exact (IH eq_refl Ho)].
  - induction u as [|c t IH]; intros Hn; [reflexivity|].
    cbn [split_url]. destruct (has_prefix url_sep (c :: t)) eqn:Hp.
    + exfalso. apply Hn. apply occurs_prefix. exact Hp.
    + rewrite IH; [reflexivity|]. intros Ho. apply Hn. apply occurs_cons. exact Ho.
Qed.

Lemma split_scheme s rest :
  split_url (scheme_name s ++ sep_text ++ rest) = Some (scheme_name s, rest).
Proof. destruct s; reflexivity. Qed.

Lemma kind_of_scheme s : kind_of_name (scheme_name s) = Some (scheme_transport s).
Proof. destruct s; reflexivity. Qed.

Lemma kind_of_name_inv a t :
  kind_of_name a = Some t -> exists s, a = scheme_name s /\ t = scheme_transport s.
Proof.
  unfold kind_of_name.
  destruct (list_eqb a nm_rtu) eqn:E1;
    [apply list_eqb_eq in E1; intros [= <-]; exists SRtu; auto|].
  destruct (list_eqb a nm_rtuovertcp) eqn:E2;
    [apply list_eqb_eq in E2; intros [= <-]; exists SRtuOverTcp; auto|].
  destruct (list_eqb a nm_rtuoverudp) eqn:E3;
    [apply list_eqb_eq in E3; intros [= <-]; exists SRtuOverUdp; auto|].
  destruct (list_eqb a nm_tcp) eqn:E4;
    [apply list_eqb_eq in E4; intros [= <-]; exists STcp; auto|].
  destruct (list_eqb a nm_tcptls) eqn:E5;
    [apply list_eqb_eq in E5; intros [= <-]; exists STcpTls; auto|].
  destruct (list_eqb a nm_udp) eqn:E6;
    [apply list_eqb_eq in E6; intros [= <-]; exists SUdp; auto|].
  discriminate.
Qed.

Lemma kind_of_name_none a :
  (forall s, a <> scheme_name s) -> kind_of_name a = None.
Proof.
  intros H. destruct (kind_of_name a) as [t|] eqn:E; [|reflexivity].
  apply kind_of_name_inv in E as [s [Hs _]]. destruct (H s Hs).
Qed.

Lemma scheme_transport_inj s s' : scheme_transport s = scheme_transport s' -> s = s'.
Proof. destruct s, s'; intros H; try reflexivity; discriminate H. Qed.

Lemma url_parts_scheme u s rest :
  url_scheme u s rest -> url_parts u = (scheme_name s, rest).
Proof. intros ->. unfold url_parts. rewrite split_scheme. reflexivity. Qed.

Lemma url_parts_some u a b :
  url_parts u = (a, b) -> a <> [] -> split_url u = Some (a, b).
Proof.
  unfold url_parts. destruct (split_url u) as [[a' b']|]; intros [= <- <-] Ha;
    [reflexivity | destruct (Ha eq_refl)].
Qed.

Lemma dfl_fill x d : dfl x d = fill x (Some d).
Proof. reflexivity. Qed.

Lemma dflz_fillz x d : dflz x d = fillz x d.
Proof. reflexivity. Qed.

Definition scheme_of_kind (t : tkind) : scheme :=
  match t with
  | TRtu => SRtu | TRtuOverTcp => SRtuOverTcp | TRtuOverUdp => SRtuOverUdp
  | TTcp => STcp | TTcpOverTls => STcpTls | TTcpOverUdp => SUdp
  end.

Definition url_reading (u : list N) : option (scheme * list N) :=
  option_map (fun t => (scheme_of_kind t, snd (url_parts u))) (kind_of_name (fst (url_parts u))).

Lemma url_reading_spec u s rest : url_reading u = Some (s, rest) <-> url_scheme u s rest.
Proof.
  unfold url_reading. split.
  - destruct (url_parts u) as [a b] eqn:Hp. cbn [fst snd].
    destruct (kind_of_name a) as [t|] eqn:Hk; [|discriminate].
    apply kind_of_name_inv in Hk as [s' [-> ->]]. intros [= <- <-].
    assert (Hs : split_url u = Some (scheme_name s', b)).
    { apply url_parts_some; [exact Hp | destruct s'; discriminate]. }
    apply split_url_sound in Hs as [Hu _].
    unfold url_scheme. rewrite sep_text_eq. destruct s'; exact Hu.
  - intros Hu. rewrite (url_parts_scheme _ _ _ Hu). cbn [fst snd]. rewrite kind_of_scheme.
    destruct s; reflexivity.
Qed.

Lemma url_scheme_unique u s rest s' rest' :
  url_scheme u s rest -> url_scheme u s' rest' -> s = s' /\ rest = rest'.
Proof.
  intros H1 H2. apply url_reading_spec in H1, H2. rewrite H1 in H2. injection H2. auto.
Qed.

Lemma new_client_reading c :
  new_client c =
  match url_reading (cc_url c) with
  | Some (s, rest) =>
      if needs_creds s && negb (cc_has_cert c && cc_has_cas c) then CfgErr EConfig
      else CfgOk (spec_client_eff s rest c)
  | None => CfgErr EConfig
  end.
Proof.
  unfold new_client, url_reading. destruct (url_parts (cc_url c)) as [a b]. cbn [fst snd].
  destruct (kind_of_name a) as [[]|]; try reflexivity.
  cbn [option_map scheme_of_kind needs_creds andb].
  destruct (cc_has_cert c), (cc_has_cas c); reflexivity.
Qed.

Lemma new_client_ok c s rest :
  url_scheme (cc_url c) s rest -> client_creds_ok s c ->
  new_client c = CfgOk (spec_client_eff s rest c).
Proof.
  intros Hu Hc. rewrite new_client_reading, (proj2 (url_reading_spec _ _ _) Hu).
  destruct s; try reflexivity. destruct (Hc eq_refl) as [-> ->]. reflexivity.
Qed.

Lemma new_client_inv c e :
  new_client c = CfgOk e ->
  exists s rest, url_scheme (cc_url c) s rest /\ client_creds_ok s c.
Proof.
  rewrite new_client_reading.
  destruct (url_reading (cc_url c)) as [[s rest]|] eqn:E; [|discriminate].
  apply url_reading_spec in E. intros H. exists s, rest. split; [exact E|].
  intros Hn. rewrite Hn in H.
  destruct (cc_has_cert c), (cc_has_cas c); try discriminate H. auto.
Qed.

Lemma new_client_total c :
  (exists e, new_client c = CfgOk e) \/ new_client c = CfgErr EConfig.
Proof.
  rewrite new_client_reading. destruct (url_reading (cc_url c)) as [[s rest]|]; [|right; reflexivity].
  destruct (needs_creds s && _); [right | left; eexists]; reflexivity.
Qed.

Lemma new_client_iff c :
  (exists e, new_client c = CfgOk e) <->
  exists s rest, url_scheme (cc_url c) s rest /\ client_creds_ok s c.
Proof.
  split.
  - intros [e H]. exact (new_client_inv c e H).
  - intros [s [rest [Hu Hc]]]. eexists. apply new_client_ok; eassumption.
Qed.

Lemma new_client_refused c :
  ~ (exists s rest, url_scheme (cc_url c) s rest /\ client_creds_ok s c) ->
  new_client c = CfgErr EConfig.
Proof.
  intros Hn. destruct (new_client_total c) as [He | He]; [|exact He].
  apply new_client_iff in He. destruct (Hn He).
Qed.

Lemma new_client_eff c e s rest :
  new_client c = CfgOk e -> url_scheme (cc_url c) s rest ->
  e = spec_client_eff s rest c.
Proof.
  intros H Hu. rewrite new_client_reading, (proj2 (url_reading_spec _ _ _) Hu) in H.
  destruct (needs_creds s && _); [discriminate H|]. injection H as <-. reflexivity.
Qed.

Lemma client_defaults c e s rest :
  new_client c = CfgOk e -> url_scheme (cc_url c) s rest ->
  ce_url e = rest /\
  ce_parity e = cc_parity c /\
  ce_unit e = 1 /\ ce_endianness e = 1 /\ ce_word_order e = 1 /\
  (cc_speed c <> 0 -> ce_speed e = cc_speed c) /\
  (cc_data_bits c <> 0 -> ce_data_bits e = cc_data_bits c) /\
  (cc_stop_bits c <> 0 -> ce_stop_bits e = cc_stop_bits c) /\
  (cc_timeout c <> 0%Z -> ce_timeout e = cc_timeout c) /\
  (cc_timeout c = 0%Z ->
   ce_timeout e = match s with SRtu => 300000000%Z | _ => 1000000000%Z end) /\
  (cc_speed c = 0 ->
   ce_speed e = match s with SRtu | SRtuOverTcp | SRtuOverUdp => 19200 | _ => 0 end) /\
  (cc_data_bits c = 0 -> ce_data_bits e = match s with SRtu => 8 | _ => 0 end) /\
  (cc_stop_bits c = 0 ->
   ce_stop_bits e = match s with
                    | SRtu => if cc_parity c =? 0 then 2 else 1
                    | _ => 0
                    end).
Proof.
  intros H Hu. rewrite (new_client_eff c e s rest H Hu).
  unfold spec_client_eff; cbn [ce_url ce_speed ce_data_bits ce_parity ce_stop_bits ce_timeout
                                ce_unit ce_endianness ce_word_order].
  repeat split; try reflexivity.
  - intros Hz. unfold fill. destruct (default_speed s); [|reflexivity].
    destruct (N.eqb_spec (cc_speed c) 0); [contradiction | reflexivity].
  - intros Hz. unfold fill. destruct (default_data_bits s); [|reflexivity].
    destruct (N.eqb_spec (cc_data_bits c) 0); [contradiction | reflexivity].
  - intros Hz. unfold fill. destruct (default_stop_bits s (cc_parity c)); [|reflexivity].
    destruct (N.eqb_spec (cc_stop_bits c) 0); [contradiction | reflexivity].
  - intros Hz. unfold fillz. destruct (Z.eqb_spec (cc_timeout c) 0); [contradiction | reflexivity].
  - intros ->. destruct s; reflexivity.
  - intros ->. destruct s; reflexivity.
  - intros ->. destruct s; reflexivity.
  - intros ->. destruct s; reflexivity.
Qed.

Lemma wiring_table s : wiring (scheme_transport s) = spec_wiring s.
Proof. destruct s; reflexivity. Qed.

Lemma new_server_reading c :
  new_server c =
  match url_reading (sc_url c) with
  | Some (s, (_ :: _) as rest) =>
      if server_scheme s && negb (needs_creds s && negb (sc_has_cert c && sc_has_cas c))
      then CfgOk (spec_server_eff s rest c) else CfgErr EConfig
  | _ => CfgErr EConfig
  end.
Proof.
  unfold new_server, url_reading. destruct (url_parts (sc_url c)) as [a b]. cbn [fst snd].
  destruct b as [|b0 b]; [destruct (kind_of_name a); reflexivity|].
  destruct (kind_of_name a) as [[]|]; try reflexivity.
  cbn [option_map scheme_of_kind server_scheme needs_creds andb].
  destruct (sc_has_cert c), (sc_has_cas c); reflexivity.
Qed.

Lemma new_server_ok c s rest :
  url_scheme (sc_url c) s rest -> server_scheme s = true -> rest <> [] ->
  server_creds_ok s c ->
  new_server c = CfgOk (spec_server_eff s rest c).
Proof.
  intros Hu Hs Hr Hc. rewrite new_server_reading, (proj2 (url_reading_spec _ _ _) Hu).
  destruct rest as [|r0 rest]; [destruct (Hr eq_refl)|].
  destruct s; try discriminate Hs; [reflexivity|].
  destruct (Hc eq_refl) as [-> ->]. reflexivity.
Qed.

Lemma new_server_inv c e :
  new_server c = CfgOk e ->
  exists s rest, url_scheme (sc_url c) s rest /\ server_scheme s = true /\ rest <> [] /\
                 server_creds_ok s c.
Proof.
  rewrite new_server_reading.
  destruct (url_reading (sc_url c)) as [[s [|r0 rest]]|] eqn:E; try discriminate.
  apply url_reading_spec in E. destruct (server_scheme s) eqn:Hs; [|discriminate].
  intros H. exists s, (r0 :: rest). split; [exact E|]. split; [exact Hs|].
  split; [discriminate|]. intros Hn. rewrite Hn in H.
  destruct (sc_has_cert c), (sc_has_cas c); try discriminate H. auto.
Qed.

Lemma new_server_total c :
  (exists e, new_server c = CfgOk e) \/ new_server c = CfgErr EConfig.
Proof.
  rewrite new_server_reading.
  destruct (url_reading (sc_url c)) as [[s [|r0 rest]]|]; try (right; reflexivity).
  destruct (server_scheme s && _); [left; eexists | right]; reflexivity.
Qed.

Lemma new_server_iff c :
  (exists e, new_server c = CfgOk e) <->
  exists s rest, url_scheme (sc_url c) s rest /\ server_scheme s = true /\ rest <> [] /\
                 server_creds_ok s c.
Proof.
  split.
  - intros [e H]. exact (new_server_inv c e H).
  - intros [s [rest [Hu [Hs [Hr Hc]]]]]. eexists. apply new_server_ok; eassumption.
Qed.

Lemma new_server_eff c e s rest :
  new_server c = CfgOk e -> url_scheme (sc_url c) s rest ->
  e = spec_server_eff s rest c.
Proof.
  intros H Hu. rewrite new_server_reading, (proj2 (url_reading_spec _ _ _) Hu) in H.
  destruct rest as [|r0 rest]; [discriminate H|].
  destruct (server_scheme s && _); [|discriminate H]. injection H as <-. reflexivity.
Qed.

Lemma set_encoding_ok st e w :
  valid_selector e -> valid_selector w ->
  set_encoding st e w = (mkes e w, None).
Proof. intros [-> | ->] [-> | ->]; reflexivity. Qed.

Lemma set_encoding_refused st e w :
  ~ (valid_selector e /\ valid_selector w) ->
  set_encoding st e w = (st, Some EUnexpectedParams).
Proof.
  intros H. unfold set_encoding, valid_selector in *.
  destruct (andb (negb (e =? 1)) (negb (e =? 2))) eqn:Ee; [reflexivity|].
  destruct (andb (negb (w =? 1)) (negb (w =? 2))) eqn:Ew; [reflexivity|].
  exfalso. apply H. lia.
Qed.

