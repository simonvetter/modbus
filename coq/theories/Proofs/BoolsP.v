(* Proofs about coil packing (encodeBools / decodeBools): the two are inverse
   to each other, and the packed bytes are the layout of Spec/ModbusSpec.v
   (encode_bools_spec). The encoder takes eight coils per step, so the
   inductions are over list_ind8: from skipn 8 l to l. *)
From Modbus Require Import Base.Bytes Model.Encoding Spec.ModbusSpec.

Lemma list_ind8 {A} (P : list A -> Prop) :
  P [] -> (forall l, l <> [] -> P (skipn 8 l) -> P l) -> forall l, P l.
Proof.
  intros H0 HS l. remember (length l) as n eqn:Hn. revert l Hn.
  induction n as [n IH] using lt_wf_ind. intros l Hn.
  destruct l as [|b t]; [exact H0|]. apply HS; [congruence|].
  apply (IH (length (skipn 8 (b :: t)))); [|reflexivity].
  rewrite skipn_length. subst n. cbn [length]. lia.
Qed.

Lemma sequence_map_some {A B} (f : A -> option B) (g : A -> B) l :
  (forall x, In x l -> f x = Some (g x)) -> sequence (map f l) = Some (map g l).
Proof.
  induction l as [|x t IH]; intros H; [reflexivity|].
  cbn [map sequence]. rewrite (H x (or_introl eq_refl)), IH; [reflexivity|].
  intros y Hy. apply H. right. exact Hy.
Qed.

Lemma sequence_length {A} (l : list (option A)) r : sequence l = Some r -> length r = length l.
Proof.
  revert r; induction l as [|[x|] t IH]; intros r H; cbn [sequence] in H.
  - injection H as <-. reflexivity.
  - destruct (sequence t) as [r'|]; [|discriminate]. injection H as <-.
    cbn [length]. f_equal. apply IH. reflexivity.
  - discriminate.
Qed.

Lemma testbit_bits_byte l i : N.testbit (bits_byte l) (N.of_nat i) = nth i l false.
Proof.
  revert i; induction l as [|b t IH]; intros i.
  - cbn. destruct i; reflexivity.
  - cbn [bits_byte fold_right]. fold (bits_byte t).
    replace (N.b2n b + 2 * bits_byte t) with (2 * bits_byte t + N.b2n b) by lia.
    destruct i as [|i].
    + cbn [nth N.of_nat]. apply N.testbit_0_r.
    + rewrite Nat2N.inj_succ, N.testbit_succ_r. cbn [nth]. apply IH.
Qed.

Lemma bits_byte_bound l : (length l <= 8)%nat -> bits_byte l < 256.
Proof.
  intros Hl. assert (H : bits_byte l < 2 ^ N.of_nat (length l)).
  { clear Hl. induction l as [|b t IH]; [cbn; lia|].
    cbn [bits_byte fold_right length]. fold (bits_byte t).
    rewrite Nat2N.inj_succ, N.pow_succ_r'. destruct b; cbn [N.b2n]; lia. }
  assert (2 ^ N.of_nat (length l) <= 2 ^ 8) by (apply N.pow_le_mono_r; lia).
  change (2 ^ 8) with 256 in *. lia.
Qed.

Lemma encode_fuel_irrel f1 : forall f2 l, (length l <= f1)%nat -> (length l <= f2)%nat ->
  encode_bools_fuel f1 l = encode_bools_fuel f2 l.
Proof.
  induction f1 as [|f1 IH]; intros f2 l H1 H2.
  - destruct l; [|cbn in H1; lia]. destruct f2; reflexivity.
  - destruct l as [|b t]; [destruct f2; reflexivity|].
    destruct f2 as [|f2]; [cbn in H2; lia|].
    cbn [encode_bools_fuel]. f_equal. apply IH; rewrite skipn_length; cbn [length] in *; lia.
Qed.

Lemma encode_bools_nil : encode_bools [] = [].
Proof. reflexivity. Qed.

Lemma encode_bools_cons l : l <> [] ->
  encode_bools l = bits_byte (firstn 8 l) :: encode_bools (skipn 8 l).
Proof.
  intros Hl. unfold encode_bools. destruct l as [|b t]; [congruence|].
  cbn [length encode_bools_fuel]. f_equal.
  apply encode_fuel_irrel; rewrite skipn_length; cbn [length]; lia.
Qed.

Lemma encode_bools_len l : length (encode_bools l) = ((length l + 7) / 8)%nat.
Proof.
  induction l as [|l Hl IH] using list_ind8; [reflexivity|].
  rewrite encode_bools_cons by exact Hl. cbn [length]. rewrite IH, skipn_length.
  destruct l as [|b t]; [congruence|]. cbn [length]. lia.
Qed.

Lemma encode_bools_bytes l : bytesb (encode_bools l) = true.
Proof.
  induction l as [|l Hl IH] using list_ind8; [reflexivity|].
  rewrite encode_bools_cons by exact Hl. unfold bytesb in *. cbn [forallb]. rewrite IH.
  unfold is_byte. pose proof (bits_byte_bound (firstn 8 l)) as H.
  rewrite firstn_length in H. specialize (H ltac:(lia)). rewrite andb_true_r. lia.
Qed.

Lemma decode_at_encode l : forall i, (i < length l)%nat ->
  decode_bool_at (encode_bools l) i = Some (nth i l false).
Proof.
  induction l as [|l Hl IH] using list_ind8; intros i Hi; [cbn in Hi; lia|].
  rewrite encode_bools_cons by exact Hl. unfold decode_bool_at.
  destruct (Nat.lt_ge_cases i 8) as [H8|H8].
  - rewrite (Nat.div_small i 8), (Nat.mod_small i 8) by lia. cbn [nth_error].
    rewrite testbit_bits_byte. f_equal.
    rewrite <- (firstn_skipn 8 l) at 2. rewrite app_nth1; [reflexivity|].
    rewrite firstn_length. lia.
  - assert (E1 : (i / 8 = S ((i - 8) / 8))%nat) by lia.
    assert (E2 : (i mod 8 = (i - 8) mod 8)%nat) by lia.
    rewrite E1, E2. cbn [nth_error].
    specialize (IH (i - 8)%nat). unfold decode_bool_at in IH. rewrite IH.
    + f_equal. rewrite <- (firstn_skipn 8 l) at 2. rewrite app_nth2; rewrite firstn_length.
      * f_equal. lia.
      * lia.
    + rewrite skipn_length. lia.
Qed.

Lemma decode_encode_prefix l q : (q <= length l)%nat ->
  decode_bools q (encode_bools l) = Some (firstn q l).
Proof.
  intros Hq. unfold decode_bools.
  rewrite (sequence_map_some _ (fun i => nth i l false)).
  - rewrite map_nth_seq by exact Hq. reflexivity.
  - intros i Hi. apply in_seq in Hi. apply decode_at_encode. lia.
Qed.

Lemma decode_encode_bools l : decode_bools (length l) (encode_bools l) = Some l.
Proof. rewrite decode_encode_prefix by lia. rewrite firstn_all. reflexivity. Qed.

Lemma bits_byte_spec l j :
  bits_byte (firstn 8 (skipn (8 * j) l)) = spec_coil_byte l j.
Proof.
  unfold spec_coil_byte. cbn [seq fold_right N.of_nat Pos.of_succ_nat Pos.succ].
  replace (8 * j + 0)%nat with (8 * j)%nat by lia.
  assert (E : forall k, nth (8 * j + k) l false = nth k (skipn (8 * j) l) false).
  { intros k. rewrite <- (firstn_skipn (8 * j) l) at 1.
    destruct (Nat.le_gt_cases (8 * j) (length l)) as [H|H].
    - rewrite app_nth2; rewrite firstn_length; [f_equal; lia|lia].
    - rewrite skipn_all2 by lia. rewrite app_nil_r.
      rewrite !nth_overflow; [reflexivity|cbn; lia|rewrite firstn_length; lia]. }
  replace (8 * j)%nat with (8 * j + 0)%nat at 9 by lia. rewrite !E.
  generalize (skipn (8 * j) l) as m. intros m. pow_consts.
  destruct m as [|b0 [|b1 [|b2 [|b3 [|b4 [|b5 [|b6 [|b7 m]]]]]]]];
    cbn [firstn bits_byte fold_right nth];
    repeat match goal with b : bool |- _ => destruct b end; reflexivity.
Qed.

Lemma encode_bools_nth l : forall j, (j < length (encode_bools l))%nat ->
  nth_error (encode_bools l) j = Some (bits_byte (firstn 8 (skipn (8 * j) l))).
Proof.
  induction l as [|l Hl IH] using list_ind8; intros j Hj; [cbn in Hj; lia|].
  rewrite encode_bools_cons in * by exact Hl. destruct j as [|j].
  - reflexivity.
  - cbn [nth_error length] in *. rewrite IH by lia. rewrite skipn_skipn'.
    replace (8 + 8 * j)%nat with (8 * S j)%nat by lia. reflexivity.
Qed.

Lemma encode_bools_spec l : encode_bools l = spec_coil_bytes l.
Proof.
  unfold spec_coil_bytes. apply nth_error_ext'. intros j.
  destruct (Nat.lt_ge_cases j (length (encode_bools l))) as [H|H].
  - rewrite encode_bools_nth by exact H. rewrite encode_bools_len in H.
    rewrite nth_error_map, nth_error_nth' with (d := 0%nat) by (rewrite seq_length; exact H).
    rewrite seq_nth by exact H. cbn [option_map plus]. f_equal. apply bits_byte_spec.
  - rewrite (proj2 (nth_error_None _ _)) by exact H. symmetry. apply nth_error_None.
    rewrite map_length, seq_length. rewrite encode_bools_len in H. exact H.
Qed.
