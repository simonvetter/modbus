(* C13, slot side: a session that ends - for whatever reason: the peer closed,
   reset or stalled until the idle deadline inside a request - is removed,
   its socket closed, the server stays up and the slot serves a later
   connection. Corollary of the C09 theorems (Proofs/SlotsP.v). *)
From Coq Require Import List Arith Bool Permutation Lia.
Import ListNotations.
From Modbus Require Import Model.Slots Proofs.SlotsP.

Lemma end_step s c w : enabled s (End c w) = true ->
  let s1 := step s (End c w) in
  stat s1 c = Ended /\ clients s1 = clients s /\ started s1 = started s /\
  maxc s1 = maxc s /\ (forall d, d <> c -> stat s1 d = stat s d).
Proof.
  intros He. unfold step. rewrite He. cbn [negb stat clients started maxc].
  split; [apply upd_same|]. repeat split. intros d Hd. apply upd_other. exact Hd.
Qed.

Lemma session_end_reclaims : forall s c w d,
  Inv s -> started s = true -> enabled s (End c w) = true ->
  stat s d = Taken -> d <> c ->
  let s1 := step s (End c w) in
  let s2 := step s1 (Remove c) in
  let s3 := step s2 (Enrol d) in
  stat s2 c = Removed /\ closed s2 c = true /\ ~ In c (clients s2) /\
  S (length (clients s2)) = length (clients s) /\ started s2 = true /\
  stat s3 d = Serving /\ In d (clients s3).
Proof.
  intros s c w d I Hst He Ht Hne. cbn zeta.
  destruct (end_step s c w He) as (E1 & E2 & E3 & E4 & E5). cbn zeta in *.
  set (s1 := step s (End c w)) in *.
  assert (I1 : Inv s1) by (apply inv_step; exact I).
  assert (Hin : In c (clients s1)) by (apply (inv_members s1 I1); right; exact E1).
  destruct (remove_effect s1 c E1) as (R1 & R2 & R3 & R4). cbn zeta in *.
  destruct (remove_exact s1 c I1 E1) as (_ & Hcl).
  destruct (remove_swap_nodup c (clients s1) (inv_nodup s1 I1) Hin) as (_ & Hnot).
  split; [apply remove_stat; exact E1|]. split; [exact Hcl|].
  split; [rewrite R1; exact Hnot|].
  split; [rewrite R1, <- E2; apply remove_swap_length; exact Hin|].
  split; [rewrite R2, E3; exact Hst|].
  apply (slot_reclaimed s1 c d I1 E1); [rewrite E3; exact Hst|rewrite E5 by exact Hne; exact Ht|exact Hne|].
  apply (inv_bound s1 I1).
Qed.

