(* The decoder model of Model/Der.v: it never indexes out of range, and on
   inputs starting with 0x0c it accepts exactly  0c ++ der_len |s| ++ s ++ rest
   with s valid UTF-8 and |s| < 2^31. *)
From Modbus Require Import Base.Bytes Model.Utf8 Model.Der Spec.RoleSpec Proofs.Utf8P Proofs.RoleSpecP.

(* the loop over the length octets, on the remaining input *)
Fixpoint lo_list (l : list N) (n : nat) (len : N) {struct n} : option (N * list N) :=
  match n with
  | O => Some (len, l)
  | S n' =>
    match l with
    | [] => None
    | b :: t =>
      if 2 ^ 23 <=? len then None
      else if len * 256 + b =? 0 then None
           else lo_list t n' (len * 256 + b)
    end
  end.

Lemma length_octets_list n : forall bytes offset len,
  length_octets bytes n offset len =
  match lo_list (skipn offset bytes) n len with
  | Some (l, _) => DOk (l, (offset + n)%nat)
  | None => DErr
  end.
Proof.
  induction n as [|n IH]; intros bytes offset len.
  - cbn [length_octets lo_list]. rewrite Nat.add_0_r. reflexivity.
  - cbn [length_octets lo_list].
    destruct (Nat.leb (length bytes) offset) eqn:E.
    + apply Nat.leb_le in E. rewrite skipn_all2 by exact E. reflexivity.
    + apply Nat.leb_gt in E. destruct (nth_error_lt bytes offset E) as [b Hb].
      unfold index_at. rewrite Hb, (skipn_nth _ _ _ Hb).
      destruct (2 ^ 23 <=? len); [reflexivity|].
      destruct (len * 256 + b =? 0); [reflexivity|].
      rewrite IH. replace (S offset + n)%nat with (offset + S n)%nat by lia. reflexivity.
Qed.

Lemma lo_list_rest n : forall l len len' rest,
  lo_list l n len = Some (len', rest) -> rest = skipn n l /\ (n <= length l)%nat.
Proof.
  induction n as [|n IH]; intros l len len' rest H; cbn [lo_list] in H.
  - inversion H. split; [reflexivity|lia].
  - destruct l as [|b t]; [discriminate|].
    destruct (2 ^ 23 <=? len); [discriminate|].
    destruct (len * 256 + b =? 0); [discriminate|].
    apply IH in H as [-> H]. cbn [skipn length]. split; [reflexivity|lia].
Qed.

(* contents and rest, on the input after the header *)
Definition body (t : list N) (len : N) : option (list N * list N) :=
  if lenN t <? len then None
  else let s := firstn (N.to_nat len) t in
       if utf8_valid s then Some (s, skipn (N.to_nat len) t) else None.

Lemma utf8_body_list bytes offset len : (offset <= length bytes)%nat ->
  utf8_body bytes offset len =
  match body (skipn offset bytes) len with Some p => DOk p | None => DErr end.
Proof.
  intros Ho. unfold utf8_body, body, invalid_length, lenN. rewrite skipn_length.
  destruct (N.of_nat (length bytes) <? N.of_nat offset + len) eqn:E.
  - replace (N.of_nat (length bytes - offset) <? len) with true by lia. reflexivity.
  - replace (N.of_nat (length bytes - offset) <? len) with false by lia.
    unfold slice_o. rewrite slice_mid by lia.
    destruct (utf8_valid (firstn (N.to_nat len) (skipn offset bytes))); [|reflexivity].
    rewrite slice_end by lia. rewrite <- skipn_skipn'. reflexivity.
Qed.

Definition unmarshal_list (v : list N) : option (list N * list N) :=
  match v with
  | _ :: b1 :: t =>
    if b1 / 128 =? 0 then body t (b1 mod 128)
    else if b1 mod 128 =? 0 then None
    else match lo_list t (N.to_nat (b1 mod 128)) 0 with
         | Some (len, t') => if len <? 128 then None else body t' len
         | None => None
         end
  | _ => None
  end.

(* with identifier octet 0x0c: class 0, primitive, tag 12; the decoder is the
   list view and in particular never panics *)
Lemma unmarshal_eq b1 t :
  unmarshal_utf8string (12 :: b1 :: t) =
  match unmarshal_list (12 :: b1 :: t) with Some p => DOk p | None => DErr end.
Proof.
  unfold unmarshal_utf8string, parse_tag_len, unmarshal_list.
  cbn [length Nat.eqb Nat.leb index_at nth_error].
  change (12 mod 32) with 12. change (12 =? 31) with false.
  change (12 / 64) with 0. change ((12 / 32) mod 2 =? 1) with false. cbv iota.
  destruct (b1 / 128 =? 0) eqn:E1.
  - cbn [tl_class tl_tag tl_compound tl_length].
    change (negb ((0 =? 0) && ((12 =? tag_utf8string) && negb false))) with false. cbv iota.
    rewrite utf8_body_list by (cbn [length]; lia). reflexivity.
  - destruct (b1 mod 128 =? 0) eqn:E2; [reflexivity|].
    rewrite length_octets_list. cbn [skipn].
    destruct (lo_list t (N.to_nat (b1 mod 128)) 0) as [[len t']|] eqn:L; [|reflexivity].
    destruct (len <? 128) eqn:E3; [reflexivity|].
    cbn [tl_class tl_tag tl_compound tl_length].
    change (negb ((0 =? 0) && ((12 =? tag_utf8string) && negb false))) with false. cbv iota.
    apply lo_list_rest in L as [-> Hk].
    rewrite utf8_body_list by (cbn [length]; lia). reflexivity.
Qed.

Lemma unmarshal_short v : (length v < 2)%nat -> unmarshal_list v = None.
Proof. destruct v as [|a [|b t]]; cbn [length]; intros H; try reflexivity. lia. Qed.

Lemma unmarshal_nonminimal b0 b t : b < 128 -> unmarshal_list (b0 :: 0x81 :: b :: t) = None.
Proof.
  intros Hb. cbn [unmarshal_list]. change (129 / 128 =? 0) with false. change (129 mod 128) with 1.
  change (1 =? 0) with false. change (N.to_nat 1) with 1%nat. cbn [lo_list].
  destruct (2 ^ 23 <=? 0); [reflexivity|]. destruct (0 * 256 + b =? 0); [reflexivity|].
  destruct (0 * 256 + b <? 128) eqn:E; [reflexivity|lia].
Qed.

Lemma unmarshal_long b0 b1 t : 128 <= b1 ->
  (forall k, N.to_nat (b1 mod 128) = S k -> lo_list t (S k) 0 = None) ->
  unmarshal_list (b0 :: b1 :: t) = None.
Proof.
  intros Hb L. cbn [unmarshal_list]. destruct (b1 / 128 =? 0) eqn:E1; [lia|].
  destruct (b1 mod 128 =? 0) eqn:E2; [reflexivity|].
  destruct (N.to_nat (b1 mod 128)) as [|k] eqn:Ek; [lia|]. rewrite (L k eq_refl). reflexivity.
Qed.

Lemma body_sound t len s rest : body t len = Some (s, rest) ->
  t = s ++ rest /\ lenN s = len /\ utf8_valid s = true.
Proof.
  unfold body. destruct (lenN t <? len) eqn:E; [discriminate|].
  destruct (utf8_valid (firstn (N.to_nat len) t)) eqn:V; [|discriminate].
  intros H. inversion H; subst. split; [symmetry; apply firstn_skipn|]. split; [|exact V].
  unfold lenN in *. rewrite firstn_length_le by lia. lia.
Qed.

Lemma body_complete s rest :
  body (s ++ rest) (lenN s) = if utf8_valid s then Some (s, rest) else None.
Proof.
  unfold body, lenN. rewrite Nat2N.id, app_length.
  replace (N.of_nat (length s + length rest) <? N.of_nat (length s)) with false by lia.
  rewrite firstn_app, firstn_all, Nat.sub_diag, firstn_O, app_nil_r.
  rewrite skipn_app, skipn_all, Nat.sub_diag, skipn_O. reflexivity.
Qed.

Lemma body_truncated t len : lenN t < len -> body t len = None.
Proof. intros H. unfold body. destruct (lenN t <? len) eqn:E; [reflexivity|lia]. Qed.

Lemma lo_list_app j : forall t k acc,
  lo_list t (j + k) acc =
  match lo_list t j acc with Some (v, t') => lo_list t' k v | None => None end.
Proof.
  induction j as [|j IH]; intros t k acc; [reflexivity|]. cbn [Nat.add lo_list].
  destruct t as [|b t]; [reflexivity|].
  destruct (2 ^ 23 <=? acc); [reflexivity|]. destruct (acc * 256 + b =? 0); [reflexivity|]. apply IH.
Qed.

(* The loop accepts the digits of n and returns n: the last digit is read
   after those of n / 256, which is below 2^23. *)
Lemma lo_list_digits t' : forall n, n < 2 ^ 31 ->
  lo_list (be_digits n ++ t') (length (be_digits n)) 0 = Some (n, t').
Proof.
  intros n. revert t'. induction n as [n IH] using (well_founded_induction N.lt_wf_0).
  intros t' Hn. rewrite be_digits_eq. destruct (n =? 0) eqn:E0.
  { apply N.eqb_eq in E0. subst n. reflexivity. }
  rewrite app_length, <- app_assoc, lo_list_app, IH by lia. cbn [length app lo_list].
  replace (2 ^ 23 <=? n / 256) with false by lia.
  replace (n / 256 * 256 + n mod 256) with n by lia. rewrite E0. reflexivity.
Qed.

(* Conversely the octets it has read are digits of what it returns: reading b
   puts b behind the digits of the accumulator, which is not zero afterwards. *)
Lemma lo_list_read k : forall t acc len t', bytesb t = true -> acc < 2 ^ 31 ->
  lo_list t k acc = Some (len, t') ->
  be_digits len = be_digits acc ++ firstn k t /\ len < 2 ^ 31.
Proof.
  induction k as [|k IH]; intros t acc len t' Hb Ha H; cbn [lo_list firstn] in *.
  - inversion H; subst. rewrite app_nil_r. split; [reflexivity|exact Ha].
  - destruct t as [|b t]; [discriminate|]. apply bytesb_cons in Hb as [Hb Ht].
    destruct (2 ^ 23 <=? acc) eqn:E1; [discriminate|].
    destruct (acc * 256 + b =? 0) eqn:E2; [discriminate|].
    apply IH in H as [H Hl]; [|exact Ht|lia]. split; [|exact Hl].
    rewrite H, (be_digits_eq (acc * 256 + b)), E2, <- app_assoc.
    replace ((acc * 256 + b) / 256) with acc by lia.
    replace ((acc * 256 + b) mod 256) with b by lia. reflexivity.
Qed.

(* five or more length octets never pass: the first must be non-zero, so the
   value is at least 2^24 when the fifth is read *)
Lemma lo_list_5 t k : lo_list t (S (S (S (S (S k))))) 0 = None.
Proof.
  destruct t as [|a [|b [|c [|d [|e t]]]]]; cbn [lo_list]; split_ifs; reflexivity.
Qed.

Lemma lo_list_zero t k : lo_list (0 :: t) (S k) 0 = None.
Proof. cbn [lo_list]. split_ifs; reflexivity. Qed.

Lemma lo_list_short t k acc : (length t < k)%nat -> lo_list t k acc = None.
Proof.
  intros H. destruct (lo_list t k acc) as [[len t']|] eqn:L; [|reflexivity].
  apply lo_list_rest in L. lia.
Qed.

Lemma unmarshal_list_sound b0 b1 t s rest : bytesb (b1 :: t) = true ->
  unmarshal_list (b0 :: b1 :: t) = Some (s, rest) ->
  b1 :: t = der_len (lenN s) ++ s ++ rest /\ utf8_valid s = true /\ lenN s < 2 ^ 31.
Proof.
  intros Hb H. apply bytesb_cons in Hb as [Hb1 Hbt]. cbn [unmarshal_list] in H.
  destruct (b1 / 128 =? 0) eqn:E1.
  { apply body_sound in H as (-> & Hl & Hv). rewrite Hl, der_len_short by lia.
    cbn [app]. repeat split; [f_equal; lia|exact Hv|lia]. }
  destruct (b1 mod 128 =? 0) eqn:E2; [discriminate|].
  destruct (lo_list t (N.to_nat (b1 mod 128)) 0) as [[len t']|] eqn:L; [|discriminate].
  destruct (len <? 128) eqn:E3; [discriminate|].
  apply body_sound in H as (-> & Hl & Hv). rewrite Hl.
  destruct (lo_list_read _ _ _ _ _ Hbt (eq_refl : 0 < 2 ^ 31) L) as [Hd Hlen].
  apply lo_list_rest in L as [L Hk]. rewrite be_digits_0 in Hd. cbn [app] in Hd.
  repeat split; [|exact Hv|exact Hlen].
  rewrite <- (firstn_skipn (N.to_nat (b1 mod 128)) t), <- L, <- Hd.
  unfold der_len. rewrite E3. cbn [app]. f_equal.
  unfold lenN. rewrite Hd, firstn_length_le by exact Hk. lia.
Qed.

Lemma unmarshal_list_header b0 n t : n < 2 ^ 31 ->
  unmarshal_list (b0 :: der_len n ++ t) = body t n.
Proof.
  intros Hn. unfold der_len. destruct (n <? 128) eqn:E; cbn [app unmarshal_list].
  { replace (n / 128 =? 0) with true by lia. replace (n mod 128) with n by lia. reflexivity. }
  pose proof (be_digits_length n) as Hlen. unfold lenN.
  assert (0 < length (be_digits n))%nat.
  { rewrite be_digits_eq. destruct (n =? 0) eqn:E0; [lia|]. rewrite app_length. cbn [length]. lia. }
  assert (N.log2 n < 31) by (apply N.log2_lt_pow2; lia).
  replace (_ / 128 =? 0) with false by lia.
  replace ((128 + N.of_nat _) mod 128) with (N.of_nat (length (be_digits n))) by lia.
  replace (N.of_nat _ =? 0) with false by lia.
  rewrite Nat2N.id, lo_list_digits, E by exact Hn. reflexivity.
Qed.

Lemma unmarshal_list_complete s rest : lenN s < 2 ^ 31 ->
  unmarshal_list (der_utf8string s ++ rest) = if utf8_valid s then Some (s, rest) else None.
Proof.
  intros H. unfold der_utf8string. rewrite <- app_comm_cons, <- app_assoc.
  rewrite unmarshal_list_header by exact H. apply body_complete.
Qed.

Lemma der_len_nonempty n : der_len n <> [].
Proof. unfold der_len. destruct (n <? 128); discriminate. Qed.
