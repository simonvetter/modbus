(* server.go handleTransport as translated from the Go source: the iteration
   for an unsupported function code, the iteration in which ReadRequest fails,
   the endless loop and the whole function, against the model's srv_loop. *)
From Coq Require Import List NArith String Lia Bool.
Import ListNotations.
From Modbus Require Import Base.Bytes Model.GoLite Gen.SrcPure Model.Crc Model.Encoding.
From Modbus Require Import Model.Wire Model.Client Model.Server.
From Modbus Require Import Proofs.GoLiteP Proofs.GoLiteLinkP Proofs.SrcCrcP Proofs.SrcLinkP Proofs.SrcMiscP Proofs.SrcClientP Proofs.SrcServerP.
Open Scope string_scope.
Open Scope N_scope.

(* an unsupported function code: illegal-function exception, no handler call.
   The model and the switch both fall through all their tests. *)
Lemma srv_iter_unsupported fe fuel W started tt ca cr w rest req :
  world_hyp fe W -> srv_callee_hyp fe -> List.length rest = 18%nat ->
  snd (w_read W w) = RdOk req ->
  p_fc req <> 1 -> p_fc req <> 2 -> p_fc req <> 3 -> p_fc req <> 4 -> p_fc req <> 5 -> p_fc req <> 6 -> p_fc req <> 15 -> p_fc req <> 16 ->
  srv_iter_spec fe fuel W started tt ca cr w rest req.
Proof.
  intros HW _ Hlen Hrd H1 H2 H3 H4 H5 H6 H15 H16.
  destruct req as [u fc pl]. apply srv_iter_by_case; try assumption.
  intros w1 r9 r10 r11 r12 s14 s15 s16 s17 s18 s19 s20 s21 s22 _.
  cbn [p_fc] in *. apply N.eqb_neq in H1, H2, H3, H4, H5, H6, H15, H16.
  unfold server_process, class_of. cbn [p_fc]. rewrite H1, H2, H3, H4, H5, H6, H15, H16. cbn [orb].
  cbv [srv_case]. erewrite after_normal by (gl_run; reflexivity).
  apply (tail_ok fe fuel W HW) with (rp := [1]).
Qed.

Lemma srv_iter_end fe fuel W started tt ca cr w rest c :
  world_hyp fe W -> List.length rest = 18%nat -> snd (w_read W w) = RdErr c ->
  srv_iter_end_spec fe fuel W started tt ca cr w rest.
Proof. intros HW Hlen Hrd. split18 rest Hlen. exact (srv_front_end fe fuel W HW _ _ _ _ _ _ _ _ _ _ _ _ _ _ _ _ _ _ _ _ _ _ _ c Hrd). Qed.

(* the function body around a given loop statement: the loop stays folded
   while the statements before and after it are run *)
Definition srv_body_with (loop : stmt) : stmt :=
  Eval cbv in match f_body src_fn_ModbusServer_handleTransport with
              | SSeq a (SSeq b (SSeq c (SSeq d (SSeq e (SSeq _ r))))) =>
                  SSeq a (SSeq b (SSeq c (SSeq d (SSeq e (SSeq loop r)))))
              | _ => SSkip
              end.

Section Loop.
  Variables (fe : fenv) (fuel : nat) (W : world_fns) (started tt : val) (ca cr : N).
  Hypothesis HW : world_hyp fe W.
  Hypothesis Hiter : forall w rest req, List.length rest = 18%nat -> snd (w_read W w) = RdOk req ->
                       srv_iter_spec fe fuel W started tt ca cr w rest req.

  Lemma srv_for_loop : forall n w rest, List.length rest = 18%nat ->
    exists rest', for_go n (fun st => eval ge fe st (EB true)) (fun st => exec ge fe fuel st srv_parts)
                      (fun st => exec ge fe fuel st SSkip)
                      (srv_state started tt ca cr w rest) =
               match srv_loop W ca cr n w with
               | Some w' => OReturn (srv_state started tt ca cr w' rest') None
               | None => OFail GoLite.OutOfFuel
               end.
  Proof.
    induction n as [|n IH]; intros w rest Hlen.
    - exists rest. reflexivity.
    - cbn [srv_loop].
      destruct (w_read W w) as [w1 r] eqn:Er.
      destruct r as [req|c].
      + assert (Hrd : snd (w_read W w) = RdOk req) by (rewrite Er; reflexivity).
        destruct (Hiter w rest req Hlen Hrd) as (rest1 & Hlen1 & He).
        rewrite Er in He. cbn [fst] in He.
        destruct (srv_request W ca cr w1 req) as [w2 go_on].
        destruct go_on.
        * rewrite (for_go_step n _ _ _ _ _ _ eq_refl He eq_refl).
          apply IH. exact Hlen1.
        * rewrite (for_go_body_return n _ _ _ _ _ _ eq_refl He).
          exists rest1. reflexivity.
      + assert (Hrd : snd (w_read W w) = RdErr c) by (rewrite Er; reflexivity).
        destruct (srv_iter_end fe fuel W started tt ca cr w rest c HW Hlen Hrd) as (rest1 & Hlen1 & He).
        rewrite Er in He. cbn [fst] in He.
        rewrite (for_go_body_return n _ _ _ _ _ _ eq_refl He).
        exists rest1. reflexivity.
  Qed.

  Lemma run_handleTransport : forall w,
    run_fn ge fe fuel src_fn_ModbusServer_handleTransport [started; tt; VN ca; VN cr; w] =
    match srv_loop W ca cr fuel w with
    | Some w' => GOk [started; tt; w']
    | None => GoLite.OutOfFuel
    end.
  Proof.
    intros w. unfold run_fn.
    change (f_body src_fn_ModbusServer_handleTransport) with (srv_body_with (SFor (EB true) SSkip srv_parts)).
    unfold src_fn_ModbusServer_handleTransport. cbn [f_nparams f_zeros f_outs f_results].
    remember (SFor (EB true) SSkip srv_parts) as loop eqn:Eloop.
    unfold srv_body_with.
    gl_step.
    subst loop. rewrite exec_for.
    match goal with
    | |- context [for_go fuel _ _ _ (_ :: _ :: _ :: _ :: _ :: ?rest0)] =>
        destruct (srv_for_loop fuel w rest0 eq_refl) as [rest' Hloop]
    end.
    unfold srv_state in Hloop. rewrite Hloop. clear Hloop.
    destruct (srv_loop W ca cr fuel w) as [w'|]; gl_step; reflexivity.
  Qed.
End Loop.
