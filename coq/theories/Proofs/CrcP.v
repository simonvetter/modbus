(* Proofs about Model/Crc.v: table = bit-serial CRC-16/MODBUS, chunking,
   GF(2) linearity, residue form, detection of low-weight errors. The file
   begins with the definitions that the statements of Properties/C06.v and
   C06b.v are written in. *)
(* One byte step is eight bit steps (bit1 of Spec/ModbusSpec.v) of
   state xor byte. bit1 is linear over xor, halves even numbers, and is
   injective on 16-bit words because the polynomial 0xA001 has its top bit set.
   So the state after a byte string l is bit1 iterated 8*|l| times on
   state xor (little-endian value of l) (crc_from_bits), and everything except
   the double-bit bound, which is a fact about the period of the polynomial,
   follows from these three facts without enumeration. *)
From Modbus Require Import Base.Bytes Base.Enum Model.Crc Spec.ModbusSpec.

Fixpoint le_val (l : list N) : N :=
  match l with [] => 0 | b :: t => b + 256 * le_val t end.

Definition xor_bytes (a b : list N) : list N := map (fun p => N.lxor (fst p) (snd p)) (combine a b).

Definition zeros (n : nat) : list N := repeat 0 n.

(* bursts: a window of 1..3 bytes whose little-endian value is P * 2^o with
   0 < P < 2^16, o < 8 (i.e. first and last flipped bit less than 16 apart in
   transmission order, least significant bit first) *)
Definition burst_window (mid : list N) : Prop :=
  bytesb mid = true /\ (1 <= length mid <= 3)%nat /\
  exists o P, o < 8 /\ 0 < P < 65536 /\ le_val mid = P * 2 ^ o.

(* two flipped bits, k <= 254 zero bytes between the bytes that hold them: in a
   frame of at most maxRTUFrameLength = 256 bytes any two bytes are that close *)
Inductive low_weight : list N -> Prop :=
| lw_burst p mid q : burst_window mid -> low_weight (zeros p ++ mid ++ zeros q)
| lw_two p a k b q : a < 8 -> b < 8 -> (k <= 254)%nat ->
    low_weight (zeros p ++ ([2 ^ a] ++ zeros k ++ [2 ^ b]) ++ zeros q).

Lemma lxor_lt_pow2 a b n : a < 2 ^ n -> b < 2 ^ n -> N.lxor a b < 2 ^ n.
Proof.
  intros Ha Hb. destruct (N.eq_dec (N.lxor a b) 0) as [E|E].
  - rewrite E. apply N.neq_0_lt_0. apply N.pow_nonzero. lia.
  - apply N.log2_lt_pow2; [lia|].
    eapply N.le_lt_trans; [apply N.log2_lxor|].
    destruct (N.eq_dec a 0) as [Ea|Ea]; destruct (N.eq_dec b 0) as [Eb|Eb]; subst;
      try (rewrite N.lxor_0_l in *); try (rewrite N.lxor_0_r in *); try congruence.
    + rewrite N.max_r by (cbn; lia). apply N.log2_lt_pow2; lia.
    + rewrite N.max_l by (cbn; lia). apply N.log2_lt_pow2; lia.
    + apply N.max_lub_lt; apply N.log2_lt_pow2; lia.
Qed.

Lemma lxor_word a b : a < 65536 -> b < 65536 -> N.lxor a b < 65536.
Proof. apply (lxor_lt_pow2 a b 16). Qed.

Lemma lxor_byte a b : a < 256 -> b < 256 -> N.lxor a b < 256.
Proof. apply (lxor_lt_pow2 a b 8). Qed.

Lemma land_255_mod M : N.land M 255 = M mod 256.
Proof. change 255 with (N.ones 8). rewrite N.land_ones. reflexivity. Qed.

Lemma land_255_lt s : N.land s 255 < 256.
Proof. rewrite land_255_mod. lia. Qed.

Lemma shiftr8_word s : s < 65536 -> N.shiftr s 8 < 256.
Proof. intros Hs. rewrite N.shiftr_div_pow2. change (2 ^ 8) with 256. lia. Qed.

Lemma lxor_swap4 a b c d :
  N.lxor (N.lxor a b) (N.lxor c d) = N.lxor (N.lxor a c) (N.lxor b d).
Proof.
  rewrite !N.lxor_assoc. f_equal. rewrite <- !N.lxor_assoc. f_equal. apply N.lxor_comm.
Qed.

Lemma byte_cons_lxor b v : b < 256 -> b + 256 * v = N.lxor b (N.shiftl v 8).
Proof.
  intros Hb. rewrite N.shiftl_mul_pow2, (N.mul_comm 256). apply N.add_nocarry_lxor.
  apply N.bits_inj. intros i. rewrite N.land_spec, N.bits_0.
  destruct (N.ltb_spec i 8) as [Hi|Hi].
  - rewrite N.mul_pow2_bits_low by exact Hi. apply andb_false_r.
  - rewrite <- (N.mod_small b (2 ^ 8)) by exact Hb. rewrite N.mod_pow2_bits_high by exact Hi.
    reflexivity.
Qed.

Lemma bit1_lin a b : bit1 (N.lxor a b) = N.lxor (bit1 a) (bit1 b).
Proof.
  unfold bit1. rewrite Nxor_bit0, N.shiftr_lxor.
  destruct (N.odd a), (N.odd b); cbn [xorb].
  - rewrite lxor_swap4, N.lxor_nilpotent, N.lxor_0_r. reflexivity.
  - rewrite !N.lxor_assoc. f_equal. apply N.lxor_comm.
  - apply N.lxor_assoc.
  - reflexivity.
Qed.

Lemma bit1_double y : bit1 (N.double y) = y.
Proof.
  unfold bit1. rewrite Ndouble_bit0, <- N.div2_spec. apply N.div2_double.
Qed.

Lemma bit1_word s : s < 65536 -> bit1 s < 65536.
Proof.
  intros Hs. unfold bit1. rewrite N.shiftr_div_pow2. change (2 ^ 1) with 2.
  destruct (N.odd s); [apply lxor_word|]; lia.
Qed.

(* the top bit of bit1 s is the low bit of s *)
Lemma bit1_nonzero s : s < 65536 -> s <> 0 -> bit1 s <> 0.
Proof.
  intros Hs Hn. unfold bit1. rewrite <- N.div2_spec. pose proof (N.div2_odd s) as E.
  destruct (N.odd s); cbn [N.b2n] in E.
  - intros H. apply N.lxor_eq in H. lia.
  - lia.
Qed.

Notation bits n := (N.iter n bit1).

Lemma bits_lin n a b : bits n (N.lxor a b) = N.lxor (bits n a) (bits n b).
Proof.
  induction n as [|n IH] using N.peano_ind; [reflexivity|].
  rewrite !N.iter_succ, IH. apply bit1_lin.
Qed.

Lemma bits_word n s : s < 65536 -> bits n s < 65536.
Proof. apply (N.iter_invariant n _ bit1 (fun x => x < 65536)). exact bit1_word. Qed.

Lemma bits_nonzero n s : s < 65536 -> s <> 0 -> bits n s <> 0.
Proof.
  intros Hs Hn.
  apply (N.iter_invariant n _ bit1 (fun x => x < 65536 /\ x <> 0)); [|split; assumption].
  intros x [Hx Hx0]. split; [apply bit1_word|apply bit1_nonzero]; assumption.
Qed.

Lemma bits_shiftl n y : bits n (N.shiftl y n) = y.
Proof.
  induction n as [|n IH] using N.peano_ind; [apply N.shiftl_0_r|].
  rewrite N.iter_succ_r, N.shiftl_succ_r, bit1_double. exact IH.
Qed.

Lemma bit8_bits s : bit8 s = bits 8 s.
Proof. reflexivity. Qed.

Lemma bits_0 n : bits n 0 = 0.
Proof. rewrite <- (N.shiftl_0_l n) at 1. apply bits_shiftl. Qed.

(* vm_cast_no_check leaves the evaluation to the kernel at Qed, so it is done
   once; `vm_compute. reflexivity`, as in orbit_of_1_fin below, does it in the
   tactic and again at Qed. Both facts are finite tables and either form would
   do for either. *)
Definition chk_table (i : N) : bool := tbl i =? bit8 i.
Lemma table_is_bitserial_fin : forallb chk_table bytes_all = true.
Proof. vm_cast_no_check (eq_refl true). Qed.

Lemma tbl_is_bitserial i : i < 256 -> tbl i = bit8 i.
Proof.
  intros Hi. pose proof (forall_bytes chk_table table_is_bitserial_fin i Hi) as H.
  apply N.eqb_eq in H. exact H.
Qed.

(* the high part of the state is shifted out unchanged, the low byte goes
   through the table *)
Lemma crc_step_ref s b : b < 256 -> crc_step s b = step_ref s b.
Proof.
  intros Hb. unfold crc_step, step_ref. rewrite land_255_mod, N.shiftr_div_pow2.
  change (2 ^ 8) with 256.
  rewrite (N.div_mod' s 256) at 3. rewrite (N.add_comm (256 * _)), byte_cons_lxor by lia.
  rewrite (N.lxor_comm (s mod 256)), N.lxor_assoc, (N.lxor_comm (s mod 256)).
  rewrite tbl_is_bitserial by (apply lxor_byte; lia).
  rewrite !bit8_bits, (bits_lin 8 (N.shiftl _ 8)), bits_shiftl. reflexivity.
Qed.

Lemma crc_step_word s b : s < 65536 -> b < 256 -> crc_step s b < 65536.
Proof.
  intros Hs Hb. rewrite crc_step_ref by exact Hb. unfold step_ref. rewrite bit8_bits.
  apply bits_word, lxor_word; lia.
Qed.

Lemma crc_from_ref l : forall s, s < 65536 -> bytesb l = true ->
  crc_from s l = fold_left step_ref l s /\ crc_from s l < 65536.
Proof.
  induction l as [|b t IH]; intros s Hs Hl.
  - cbn. split; [reflexivity|exact Hs].
  - apply bytesb_cons in Hl as [Hb Ht].
    unfold crc_from in *. cbn [fold_left]. rewrite <- crc_step_ref by exact Hb.
    apply IH; [apply crc_step_word|]; assumption.
Qed.

(* T1 *)
Lemma crc16_is_ref l : bytesb l = true -> crc16 l = crc_ref l.
Proof. intros Hl. apply (crc_from_ref l crc_init); [reflexivity|exact Hl]. Qed.

Lemma crc16_word l : bytesb l = true -> crc16 l < 65536.
Proof. intros Hl. apply (crc_from_ref l crc_init); [reflexivity|exact Hl]. Qed.

(* T2 *)
Lemma crc_from_app s a b : crc_from s (a ++ b) = crc_from (crc_from s a) b.
Proof. unfold crc_from. apply fold_left_app. Qed.

Lemma crc_from_concat s chunks :
  crc_from s (concat chunks) = fold_left crc_from chunks s.
Proof.
  revert s; induction chunks as [|c cs IH]; intros s; [reflexivity|].
  cbn [concat fold_left]. rewrite crc_from_app. apply IH.
Qed.

Lemma crc_from_bits l : forall s, bytesb l = true ->
  crc_from s l = bits (8 * lenN l) (N.lxor s (le_val l)).
Proof.
  induction l as [|b t IH]; intros s Hl.
  - cbn. rewrite N.lxor_0_r. reflexivity.
  - apply bytesb_cons in Hl as [Hb Ht].
    unfold crc_from in *. cbn [fold_left le_val]. rewrite IH, crc_step_ref by assumption.
    replace (8 * lenN (b :: t)) with (8 * lenN t + 8) by (unfold lenN; cbn [length]; lia).
    rewrite N.iter_add, byte_cons_lxor, <- N.lxor_assoc by exact Hb.
    unfold step_ref. rewrite bit8_bits, (bits_lin 8 (N.lxor s b)), bits_shiftl. reflexivity.
Qed.

Lemma crc_step_lin s s' b b' : b < 256 -> b' < 256 ->
  crc_step (N.lxor s s') (N.lxor b b') = N.lxor (crc_step s b) (crc_step s' b').
Proof.
  intros Hb Hb'. rewrite !crc_step_ref by (try apply lxor_byte; assumption).
  unfold step_ref. rewrite lxor_swap4, !bit8_bits. apply bits_lin.
Qed.

Lemma xor_bytes_len a b : length a = length b -> length (xor_bytes a b) = length a.
Proof.
  intros H. unfold xor_bytes. rewrite map_length, combine_length. lia.
Qed.

Lemma xor_bytes_bytes a b : bytesb a = true -> bytesb b = true -> bytesb (xor_bytes a b) = true.
Proof.
  intros Ha Hb. rewrite bytesb_Forall in *. unfold xor_bytes. rewrite Forall_forall in *.
  intros x Hin. apply in_map_iff in Hin as [[u v] [<- Hin]]. cbn [fst snd].
  apply lxor_byte; [apply Ha; eapply in_combine_l; eauto|apply Hb; eapply in_combine_r; eauto].
Qed.

Lemma crc_from_lin m : forall e s s', length m = length e ->
  bytesb m = true -> bytesb e = true ->
  crc_from (N.lxor s s') (xor_bytes m e) = N.lxor (crc_from s m) (crc_from s' e).
Proof.
  induction m as [|x m IH]; intros [|y e] s s' Hl Hm He; try discriminate.
  - reflexivity.
  - apply bytesb_cons in Hm as [Hx Hm]. apply bytesb_cons in He as [Hy He].
    unfold xor_bytes, crc_from in *. cbn [combine map fold_left fst snd].
    rewrite crc_step_lin by assumption. apply IH; [cbn in Hl; lia|assumption|assumption].
Qed.

(* T4 *)
Lemma crc_from_xor s m e : length m = length e -> bytesb m = true -> bytesb e = true ->
  crc_from s (xor_bytes m e) = N.lxor (crc_from s m) (crc_from 0 e).
Proof. intros. rewrite <- (N.lxor_0_r s) at 1. apply crc_from_lin; assumption. Qed.

Lemma residue_zero_iff s lo hi : s < 65536 -> lo < 256 -> hi < 256 ->
  crc_from s [lo; hi] = 0 <-> [lo; hi] = crc_value s.
Proof.
  intros Hs Hlo Hhi.
  rewrite crc_from_bits by (unfold bytesb, is_byte; cbn [forallb]; lia). cbn [le_val].
  assert (Hv : lo + 256 * (hi + 256 * 0) < 65536) by lia.
  unfold crc_value, le16. split.
  - intros E. destruct (N.eq_dec (N.lxor s (lo + 256 * (hi + 256 * 0))) 0) as [Z|Z].
    + apply N.lxor_eq in Z. subst s. f_equal; [|f_equal]; lia.
    + exfalso. revert E. apply bits_nonzero; [apply lxor_word; assumption|exact Z].
  - intros E. injection E as -> ->.
    replace (_ + _) with s by lia. rewrite N.lxor_nilpotent. apply bits_0.
Qed.

Lemma crc_residue s : s < 65536 -> crc_from s (crc_value s) = 0.
Proof.
  intros Hs. unfold crc_value, le16. apply residue_zero_iff; [exact Hs|lia..|reflexivity].
Qed.

Lemma crc_is_equal_iff s lo hi : s < 65536 -> lo < 256 -> hi < 256 ->
  crc_is_equal s lo hi = true <-> [lo; hi] = crc_value s.
Proof.
  intros Hs Hlo Hhi. unfold crc_is_equal, crc_value, le16. rewrite N.eqb_eq. split.
  - intros E. subst s. f_equal; [|f_equal]; lia.
  - intros E. injection E as -> ->. lia.
Qed.

Lemma zeros_bytes n : bytesb (zeros n) = true.
Proof. induction n as [|n IH]; [reflexivity|exact IH]. Qed.

Lemma le_val_zeros n : le_val (zeros n) = 0.
Proof. induction n as [|n IH]; [reflexivity|]. cbn [zeros repeat le_val]. fold (zeros n). lia. Qed.

Lemma crc_from_zeros s n : crc_from s (zeros n) = bits (8 * lenN (zeros n)) s.
Proof. rewrite crc_from_bits, le_val_zeros, N.lxor_0_r by apply zeros_bytes. reflexivity. Qed.

Lemma zeros_keep_nonzero n s : s < 65536 -> s <> 0 ->
  crc_from s (zeros n) <> 0 /\ crc_from s (zeros n) < 65536.
Proof.
  intros Hs Hn. rewrite crc_from_zeros. split; [apply bits_nonzero|apply bits_word]; assumption.
Qed.

(* the o zero bits below P are shifted out, and P is a non-zero word *)
Lemma burst_nonzero mid : burst_window mid ->
  crc_from 0 mid <> 0 /\ crc_from 0 mid < 65536.
Proof.
  intros (Hb & Hlen & o & P & Ho & HP & HM).
  rewrite crc_from_bits, N.lxor_0_l, HM, <- N.shiftl_mul_pow2 by exact Hb.
  replace (8 * lenN mid) with (8 * lenN mid - o + o) by (unfold lenN; lia).
  rewrite N.iter_add, bits_shiftl. split; [apply bits_nonzero|apply bits_word]; lia.
Qed.

(* two flipped bits in different bytes, at most 254 bytes apart. The pattern is
   (1 + 2^d) * 2^a where d, the distance of the two bits, is at most
   8 * 254 + 8 + 7 = 2047; after a + d bit steps the state is bits d 1 xor 1.
   That bits d 1 <> 1 for 1 <= d <= 2047 says that x^d + 1 is not a multiple of
   the polynomial, a fact about its period: it is read off the orbit of 1. *)
Fixpoint bit_orbit (n : nat) (s : N) : list N :=
  match n with O => [] | S n' => s :: bit_orbit n' (bit1 s) end.

Lemma bit_orbit_nth n : forall s j, (j < n)%nat ->
  nth_error (bit_orbit n s) j = Some (bits (N.of_nat j) s).
Proof.
  induction n as [|n IH]; intros s j Hj; [lia|].
  destruct j as [|j]; [reflexivity|].
  cbn [bit_orbit nth_error]. rewrite IH, Nat2N.inj_succ, N.iter_succ_r by lia. reflexivity.
Qed.

Lemma orbit_of_1_fin : forallb (fun s => negb (s =? 1)) (bit_orbit 2047 (bit1 1)) = true.
Proof. vm_compute. reflexivity. Qed.

Lemma orbit_of_1 d : 1 <= d <= 2047 -> bits d 1 <> 1.
Proof.
  intros Hd. pose proof (bit_orbit_nth 2047 (bit1 1) (N.to_nat (N.pred d)) ltac:(lia)) as Hn.
  rewrite N2Nat.id, <- N.iter_succ_r, N.succ_pred in Hn by lia.
  apply nth_error_In in Hn. pose proof orbit_of_1_fin as H. rewrite forallb_forall in H.
  apply H in Hn. apply negb_true_iff, N.eqb_neq in Hn. exact Hn.
Qed.

Lemma le_val_app x y : le_val (x ++ y) = le_val x + 256 ^ lenN x * le_val y.
Proof.
  unfold lenN. induction x as [|c x IH]; cbn [app le_val length].
  - change (N.of_nat 0) with 0. rewrite N.pow_0_r. lia.
  - rewrite IH, Nat2N.inj_succ, N.pow_succ_r'. lia.
Qed.

Lemma two_bits_val a b k : a < 8 ->
  le_val ([2 ^ a] ++ zeros k ++ [2 ^ b]) =
  N.shiftl (N.lxor 1 (N.shiftl 1 (8 * lenN (zeros k) + 8 + b - a))) a.
Proof.
  intros Ha. set (n := lenN (zeros k)). set (d := 8 * n + 8 + b - a).
  rewrite <- N.add_nocarry_lxor.
  - rewrite !le_val_app, le_val_zeros. fold n. cbn [le_val]. unfold lenN. cbn [length].
    rewrite !N.shiftl_mul_pow2, !N.mul_1_l, N.mul_add_distr_r, <- N.pow_add_r.
    replace (d + a) with (8 * n + 8 + b) by lia.
    change (N.of_nat 1) with 1. rewrite N.pow_1_r.
    replace (256 ^ n) with (2 ^ (8 * n)) by (change 256 with (2 ^ 8); apply N.pow_mul_r).
    rewrite !N.pow_add_r. change (2 ^ 8) with 256. lia.
  - rewrite N.land_comm, N.shiftl_1_l. change 1 with (N.ones 1). rewrite N.land_ones.
    replace d with (N.succ (N.pred d)) by lia.
    rewrite N.pow_succ_r', N.mul_comm. apply N.mod_mul. discriminate.
Qed.

Lemma pow2_byte a : a < 8 -> 2 ^ a < 256.
Proof. intros Ha. change 256 with (2 ^ 8). apply N.pow_lt_mono_r; lia. Qed.

Lemma two_bits_nonzero a b k : a < 8 -> b < 8 -> (k <= 254)%nat ->
  let s := crc_from 0 ([2 ^ a] ++ zeros k ++ [2 ^ b]) in s <> 0 /\ s < 65536.
Proof.
  intros Ha Hb Hk. cbn zeta.
  assert (Hl : bytesb ([2 ^ a] ++ zeros k ++ [2 ^ b]) = true).
  { rewrite !bytesb_app, zeros_bytes. unfold bytesb, is_byte. cbn [forallb].
    pose proof (pow2_byte a Ha). pose proof (pow2_byte b Hb). lia. }
  rewrite crc_from_bits, N.lxor_0_l, two_bits_val by assumption.
  assert (Hn : lenN (zeros k) <= 254) by (unfold lenN, zeros; rewrite repeat_length; lia).
  assert (Hlen : lenN ([2 ^ a] ++ zeros k ++ [2 ^ b]) = lenN (zeros k) + 2)
    by (unfold lenN; rewrite !app_length; cbn [length]; lia).
  rewrite Hlen. generalize dependent (lenN (zeros k)). intros n Hn _.
  set (d := 8 * n + 8 + b - a).
  replace (8 * (n + 2)) with (8 - b + d + a) by lia.
  rewrite !N.iter_add, bits_shiftl, bits_lin, bits_shiftl.
  assert (Hw : N.lxor (bits d 1) 1 < 65536) by (apply lxor_word; [apply bits_word|]; lia).
  split; [apply bits_nonzero; [exact Hw|]|apply bits_word, Hw].
  intros E. apply N.lxor_eq in E. revert E. apply orbit_of_1. lia.
Qed.

(* T5 *)
Lemma detect_low_weight e : low_weight e -> crc_from 0 e <> 0.
Proof.
  intros [p mid q Hw | p a k b q Ha Hb Hk];
    rewrite crc_from_app, crc_from_zeros, bits_0, crc_from_app.
  - destruct (burst_nonzero mid Hw) as [H1 H2]. apply zeros_keep_nonzero; assumption.
  - destruct (two_bits_nonzero a b k Ha Hb Hk) as [H1 H2]. apply zeros_keep_nonzero; assumption.
Qed.

Lemma corrupted_frame_rejected body e body' lo hi :
  bytesb body = true -> bytesb e = true -> low_weight e ->
  length e = length (body ++ crc_bytes body) ->
  xor_bytes (body ++ crc_bytes body) e = body' ++ [lo; hi] ->
  crc_is_equal (crc16 body') lo hi = false.
Proof.
  intros Hb He Hlw Hlen Hx.
  assert (Hcb : bytesb (crc_bytes body) = true) by apply le16_bytes.
  assert (Hfb : bytesb (body ++ crc_bytes body) = true) by (rewrite bytesb_app, Hb, Hcb; reflexivity).
  assert (Hxb : bytesb (xor_bytes (body ++ crc_bytes body) e) = true)
    by (apply xor_bytes_bytes; assumption).
  rewrite Hx, bytesb_app in Hxb. apply andb_true_iff in Hxb as [Hb' Hlh].
  unfold bytesb, is_byte in Hlh. cbn [forallb] in Hlh.
  destruct (crc_is_equal (crc16 body') lo hi) eqn:Eq; [exfalso|reflexivity].
  apply crc_is_equal_iff in Eq; [|apply crc16_word; exact Hb'|lia|lia].
  assert (R : crc_from crc_init (body' ++ [lo; hi]) = 0).
  { rewrite crc_from_app. fold (crc16 body'). rewrite Eq. apply crc_residue, crc16_word, Hb'. }
  rewrite <- Hx in R. rewrite crc_from_xor in R by (try assumption; symmetry; exact Hlen).
  rewrite crc_from_app in R. fold (crc16 body) in R. unfold crc_bytes in R.
  rewrite crc_residue in R by (apply crc16_word; exact Hb). rewrite N.lxor_0_l in R.
  exact (detect_low_weight e Hlw R).
Qed.
