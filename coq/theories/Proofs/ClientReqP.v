(* Proofs for C01: the request built by the client model is exactly the
   specified PDU (or a local rejection), and exactly one frame is written. *)
From Modbus Require Import Base.Bytes Model.Crc Model.Encoding Model.Wire Model.Client
  Model.EncLists Spec.ModbusSpec Spec.ClientSpec
  Proofs.EncodingP Proofs.BoolsP Proofs.CrcP Proofs.FramingP Proofs.EncListsP.

(* the w of an operation (registers per value) as a width of Model/EncLists.v;
   like enc_value and the reply decoder, anything but 1 and 2 is 64 bits *)
Definition width_of (w : N) : vwidth := if w =? 1 then W16 else if w =? 2 then W32 else W64.

Lemma width_of_cases w : w = 1 \/ w = 2 \/ w = 4 ->
  N.to_nat w = vregs (width_of w) /\ 2 ^ (16 * w) = vbound (width_of w).
Proof. intros [-> | [-> | ->]]; split; reflexivity. Qed.

Lemma enc_value_list cfg w vs :
  flat_map (enc_value cfg w) vs = enc_list (width_of w) (c_endian cfg) (c_word cfg) vs.
Proof.
  rewrite enc_list_flat. unfold enc_value, width_of.
  destruct (w =? 1); [|destruct (w =? 2)]; reflexivity.
Qed.

Lemma spec_bytes_1_word e w v : spec_bytes 1 e w v = spec_bytes 1 e HighFirst v.
Proof. destruct w; reflexivity. Qed.

Lemma spec16_enc e w v : v < 65536 -> spec_bytes 1 e w v = u16_to_bytes e v.
Proof. intros Hv. rewrite spec_bytes_1_word. symmetry. apply u16_layout. exact Hv. Qed.

Lemma spec_list_width e wo w vs : w = 1 \/ w = 2 \/ w = 4 ->
  flat_map (spec_bytes (N.to_nat w) e wo) vs = spec_list (width_of w) e wo vs.
Proof.
  intros [-> | [-> | ->]]; try reflexivity.
  apply flat_map_ext. intros v. apply spec_bytes_1_word.
Qed.

Lemma enc_values_spec cfg w vs : (w = 1 \/ w = 2 \/ w = 4) ->
  Forall (fun v => v < 2 ^ (16 * w)) vs ->
  flat_map (enc_value cfg w) vs =
  flat_map (spec_bytes (N.to_nat w) (c_endian cfg) (c_word cfg)) vs.
Proof.
  intros Hw Hvs. rewrite enc_value_list, spec_list_width by exact Hw.
  apply enc_list_layout. rewrite <- (proj2 (width_of_cases w Hw)). exact Hvs.
Qed.

Lemma enc_values_len cfg w vs : (w = 1 \/ w = 2 \/ w = 4) ->
  lenN (flat_map (enc_value cfg w) vs) = 2 * w * lenN vs.
Proof.
  intros Hw. unfold lenN. rewrite enc_value_list, enc_list_length, <- (proj1 (width_of_cases w Hw)). lia.
Qed.

Lemma enc_values_bytes cfg w vs : bytesb (flat_map (enc_value cfg w) vs) = true.
Proof. rewrite enc_value_list. apply enc_list_bytes. Qed.

Lemma dec16_sound e w : forall xs data, bytesb data = true ->
  bytes_to_u16s e data = Some xs ->
  data = flat_map (spec_bytes 1 e w) xs /\ Forall (fun v => v < 65536) xs.
Proof.
  intros xs data Hb H. destruct (dec_list_sound W16 e w xs data Hb H) as [-> HF].
  split; [|exact HF]. rewrite enc_list_flat.
  apply (flat_map_ext_forall _ _ (fun v => v < 65536)); [|exact HF].
  intros v Hv. symmetry. apply spec16_enc. exact Hv.
Qed.

Lemma dec16_total e : forall n data, length data = (2 * n)%nat ->
  exists xs, bytes_to_u16s e data = Some xs.
Proof. exact (dec_list_total W16 e HighFirst). Qed.

Lemma swap_pairs_len l : length (swap_pairs l) = length l.
Proof.
  induction l as [|a|a b t IH] using list_ind2; [reflexivity|reflexivity|].
  cbn [swap_pairs length]. rewrite IH. reflexivity.
Qed.

Lemma swap_pairs_bytes l : bytesb l = true -> bytesb (swap_pairs l) = true.
Proof.
  unfold bytesb.
  induction l as [|a|a b t IH] using list_ind2; intros H; [reflexivity|exact H|].
  cbn [swap_pairs forallb] in *.
  apply andb_true_iff in H as [Ha H]. apply andb_true_iff in H as [Hb Ht].
  rewrite Ha, Hb, (IH Ht). reflexivity.
Qed.

(* pair_swap of Spec/ClientSpec.v and swap_pairs of Model/Client.v are the same
   function written twice: on this point the specification is not independent
   of the model *)
Lemma image_spec cfg raw bs : write_bytes_image cfg raw bs = spec_byte_image cfg raw bs.
Proof.
  unfold write_bytes_image, spec_byte_image, Nat.odd.
  destruct (Nat.even (length bs)); cbn [negb]; destruct raw, (c_endian cfg); reflexivity.
Qed.

Definition padded (bs : list N) : list N :=
  if Nat.odd (length bs) then bs ++ [0] else bs.

Lemma padded_len bs : lenN (padded bs) = 2 * ((lenN bs + 1) / 2).
Proof.
  unfold padded, lenN. destruct (Nat.odd (length bs)) eqn:E.
  - apply Nat.odd_spec in E. destruct E as [m Hm]. rewrite app_length. cbn [length]. lia.
  - assert (E' : Nat.even (length bs) = true).
    { rewrite <- Nat.negb_odd, E. reflexivity. }
    apply Nat.even_spec in E'. destruct E' as [m Hm]. lia.
Qed.

Lemma padded_bytes bs : bytesb bs = true -> bytesb (padded bs) = true.
Proof.
  intros H. unfold padded. destruct (Nat.odd (length bs)); [|exact H].
  rewrite bytesb_app, H. reflexivity.
Qed.

Lemma image_len cfg raw bs :
  lenN (write_bytes_image cfg raw bs) = 2 * ((lenN bs + 1) / 2).
Proof.
  unfold write_bytes_image. fold (padded bs).
  destruct raw, (c_endian cfg); try apply padded_len.
  unfold lenN. rewrite swap_pairs_len. apply padded_len.
Qed.

Lemma image_bytes cfg raw bs : bytesb bs = true ->
  bytesb (write_bytes_image cfg raw bs) = true.
Proof.
  intros H. unfold write_bytes_image. fold (padded bs).
  destruct raw, (c_endian cfg); try (apply padded_bytes; exact H).
  apply swap_pairs_bytes, padded_bytes, H.
Qed.

Lemma encode_bools_lenN vs : lenN (encode_bools vs) = (lenN vs + 7) / 8.
Proof. unfold lenN. rewrite encode_bools_len. lia. Qed.

(* one model test: either it rejects (and so does the spec) or we go on *)
Ltac reject c E :=
  destruct c eqn:E; [first [reflexivity | exfalso; lia]|].

Ltac unfold_valid :=
  unfold valid_op; cbn [op_regtype_ok op_count op_limit op_addr andb].

Ltac case_valid V :=
  match goal with
  | |- _ = if ?b then _ else _ => destruct b eqn:V
  end.

Ltac open_valid V := unfold_valid; case_valid V.

Lemma exact_read_bools cfg di a q : a < 65536 -> q < 65536 ->
  client_request cfg (OpReadBools di a q) =
  if valid_op (OpReadBools di a q) then Ok (spec_pdu cfg (OpReadBools di a q)) else Err EParams.
Proof.
  intros Ha Hq. cbn [client_request]. unfold req_read_bools, spec_pdu.
  cbn [spec_fc spec_payload op_count]. open_valid V.
  - reject (q =? 0) E0. reject (2000 <? q) E1. reject (65535 <? a + q - 1) E2.
    destruct di; reflexivity.
  - reject (q =? 0) E0. reject (2000 <? q) E1. reject (65535 <? a + q - 1) E2.
    exfalso; lia.
Qed.

Lemma req_read_regs_exact cfg a n rt :
  req_read_regs cfg a n rt =
  if (match rt with BadRegType => false | _ => true end)
     && (1 <=? n) && (n <=? 125) && (a + n - 1 <=? 65535)
  then Ok (mkpdu (c_unit cfg) (match rt with Holding => 3 | _ => 4 end) (be16 a ++ be16 n))
  else Err EParams.
Proof.
  unfold req_read_regs.
  destruct rt; cbn [andb]; try reflexivity;
    (destruct (1 <=? n) eqn:V1; destruct (n <=? 125) eqn:V2;
     destruct (a + n - 1 <=? 65535) eqn:V3; cbn [andb];
     reject (n =? 0) E0; reject (125 <? n) E1; reject (65535 <? a + n - 1) E2;
     first [reflexivity | exfalso; lia]).
Qed.

(* registerCount saturates; a 16-bit quantity of single registers does not need it *)
Lemma reg_count_eq w q : (w = 1 \/ w = 2 \/ w = 4) -> q < 65536 ->
  (if w =? 1 then q else register_count q w) = N.min 65535 (q * w).
Proof.
  intros [-> | [-> | ->]] Hq; cbn [N.eqb Pos.eqb]; unfold register_count; [lia| |].
  - destruct (65535 <? q * 2) eqn:E; lia.
  - destruct (65535 <? q * 4) eqn:E; lia.
Qed.

Lemma exact_read_regs cfg w a q rt : (w = 1 \/ w = 2 \/ w = 4) -> a < 65536 -> q < 65536 ->
  client_request cfg (OpReadRegs w a q rt) =
  if valid_op (OpReadRegs w a q rt) then Ok (spec_pdu cfg (OpReadRegs w a q rt)) else Err EParams.
Proof.
  intros Hw Ha Hq. cbn [client_request]. rewrite req_read_regs_exact, reg_count_eq by assumption.
  unfold spec_pdu, valid_op. cbn [spec_payload op_count op_limit op_addr].
  remember (q * w) as m eqn:Hm. clear Hm.
  destruct (N.le_gt_cases m 65535) as [H|H].
  - rewrite N.min_r by exact H. destruct rt; reflexivity.
  - (* saturated: above every limit, like the unbounded count *)
    rewrite N.min_l by lia.
    replace (m <=? 125) with false by lia. rewrite !andb_false_r. reflexivity.
Qed.

Lemma exact_read_bytes cfg raw a q rt : a < 65536 -> q < 65536 ->
  client_request cfg (OpReadBytes raw a q rt) =
  if valid_op (OpReadBytes raw a q rt) then Ok (spec_pdu cfg (OpReadBytes raw a q rt)) else Err EParams.
Proof.
  intros Ha Hq. cbn [client_request]. rewrite req_read_regs_exact.
  unfold spec_pdu, valid_op. cbn [spec_payload op_count op_limit op_addr].
  replace (q / 2 + q mod 2) with ((q + 1) / 2) by lia.
  destruct rt; reflexivity.
Qed.

Lemma exact_write_coil cfg a v : a < 65536 ->
  client_request cfg (OpWriteCoil a v) =
  if valid_op (OpWriteCoil a v) then Ok (spec_pdu cfg (OpWriteCoil a v)) else Err EParams.
Proof.
  intros Ha. cbn [client_request]. open_valid V; [reflexivity|exfalso; lia].
Qed.

Lemma exact_write_reg cfg a v : a < 65536 -> v < 65536 ->
  client_request cfg (OpWriteReg a v) =
  if valid_op (OpWriteReg a v) then Ok (spec_pdu cfg (OpWriteReg a v)) else Err EParams.
Proof.
  intros Ha Hv. cbn [client_request]. open_valid V; [|exfalso; lia].
  unfold spec_pdu. cbn [spec_fc spec_payload].
  rewrite spec16_enc by exact Hv. reflexivity.
Qed.

Lemma exact_write_coils cfg a vs : a < 65536 ->
  client_request cfg (OpWriteCoils a vs) =
  if valid_op (OpWriteCoils a vs) then Ok (spec_pdu cfg (OpWriteCoils a vs)) else Err EParams.
Proof.
  intros Ha. cbn [client_request]. unfold spec_pdu. cbn [spec_fc spec_payload].
  rewrite encode_bools_lenN, <- encode_bools_spec.
  unfold_valid. remember (lenN vs) as n eqn:Hn. clear Hn.
  case_valid V.
  - reject (1968 <? n) E0. unfold u16. rewrite (N.mod_small n 65536) by lia.
    reject (n =? 0) E1. reject (1968 <? n) E2. reject (65535 <? a + n - 1) E3.
    unfold u8. rewrite (N.mod_small ((n + 7) / 8) 256) by lia. reflexivity.
  - reject (1968 <? n) E0. unfold u16. rewrite (N.mod_small n 65536) by lia.
    reject (n =? 0) E1. reject (1968 <? n) E2. reject (65535 <? a + n - 1) E3.
    exfalso; lia.
Qed.

Lemma exact_write_image cfg a bytes c : a < 65536 -> lenN bytes = 2 * c ->
  req_write_regs cfg a bytes =
  if (1 <=? c) && (c <=? 123) && (a + c - 1 <=? 65535)
  then Ok (mkpdu (c_unit cfg) 16 (be16 a ++ be16 c ++ [2 * c] ++ bytes))
  else Err EParams.
Proof.
  intros Ha HL. unfold req_write_regs. rewrite HL.
  destruct (1 <=? c) eqn:V1; destruct (c <=? 123) eqn:V2;
    destruct (a + c - 1 <=? 65535) eqn:V3; cbn [andb];
    reject (246 <? 2 * c) E0; unfold u16, u8;
    rewrite (N.mod_small (2 * c) 65536) by lia;
    replace (2 * c / 2) with c by lia;
    reject (c =? 0) E1; reject (123 <? c) E2; reject (65535 <? a + c - 1) E3;
    try (exfalso; lia).
  rewrite (N.mod_small (2 * c) 256) by lia. reflexivity.
Qed.

Lemma exact_write_regs cfg w a vs : (w = 1 \/ w = 2 \/ w = 4) -> a < 65536 ->
  Forall (fun v => v < 2 ^ (16 * w)) vs ->
  client_request cfg (OpWriteRegs w a vs) =
  if valid_op (OpWriteRegs w a vs) then Ok (spec_pdu cfg (OpWriteRegs w a vs)) else Err EParams.
Proof.
  intros Hw Ha Hvs. cbn [client_request].
  rewrite (exact_write_image cfg a _ (w * lenN vs) Ha)
    by (rewrite enc_values_len by exact Hw; lia).
  rewrite (enc_values_spec cfg w vs Hw Hvs). reflexivity.
Qed.

Lemma exact_write_bytes cfg raw a bs : a < 65536 ->
  client_request cfg (OpWriteBytes raw a bs) =
  if valid_op (OpWriteBytes raw a bs) then Ok (spec_pdu cfg (OpWriteBytes raw a bs)) else Err EParams.
Proof.
  intros Ha. cbn [client_request].
  rewrite (exact_write_image cfg a _ ((lenN bs + 1) / 2) Ha) by apply image_len.
  rewrite image_spec. reflexivity.
Qed.

Lemma client_request_exact : forall cfg o, op_wf o ->
  client_request cfg o = if valid_op o then Ok (spec_pdu cfg o) else Err EParams.
Proof.
  intros cfg o Hwf. destruct o as [di a q|w a q rt|raw a q rt|a v|a vs|a v|w a vs|raw a bs];
    cbn [op_wf] in Hwf.
  - destruct Hwf as [Ha Hq]. apply exact_read_bools; assumption.
  - destruct Hwf as [Hw [Ha Hq]]. apply exact_read_regs; assumption.
  - destruct Hwf as [Ha Hq]. apply exact_read_bytes; assumption.
  - apply exact_write_coil; assumption.
  - apply exact_write_coils; assumption.
  - destruct Hwf as [Ha Hv]. apply exact_write_reg; assumption.
  - destruct Hwf as [Hw [Ha Hvs]]. apply exact_write_regs; assumption.
  - destruct Hwf as [Ha Hbs]. apply exact_write_bytes; assumption.
Qed.

Lemma ok_inj {A} (a b : A) : Ok a = Ok b -> a = b.
Proof. intros H. injection H as H. exact H. Qed.

Lemma req_write_regs_bytes cfg a bytes p : bytesb bytes = true ->
  req_write_regs cfg a bytes = Ok p ->
  p_unit p = c_unit cfg /\ p_fc p < 256 /\ bytesb (p_payload p) = true.
Proof.
  intros Hb. unfold req_write_regs.
  destruct (246 <? lenN bytes); [discriminate|].
  destruct (u16 (lenN bytes) / 2 =? 0); [discriminate|].
  destruct (123 <? u16 (lenN bytes) / 2); [discriminate|].
  destruct (65535 <? a + u16 (lenN bytes) / 2 - 1); [discriminate|].
  intros H. apply ok_inj in H; subst p. cbv [p_unit p_fc p_payload].
  split; [reflexivity|]. split; [lia|].
  rewrite !bytesb_app, !be16_bytes, Hb. unfold bytesb, is_byte, u8. cbn [forallb andb]. lia.
Qed.

Lemma req_read_regs_bytes cfg a n rt p :
  req_read_regs cfg a n rt = Ok p ->
  p_unit p = c_unit cfg /\ p_fc p < 256 /\ bytesb (p_payload p) = true.
Proof.
  unfold req_read_regs.
  destruct rt; try discriminate;
    (destruct (n =? 0); [discriminate|]; destruct (125 <? n); [discriminate|];
     destruct (65535 <? a + n - 1); [discriminate|];
     intros H; apply ok_inj in H; subst p; cbv [p_unit p_fc p_payload];
     split; [reflexivity|]; split; [lia|];
     rewrite bytesb_app, !be16_bytes; reflexivity).
Qed.

Lemma client_request_bytes cfg o p : op_wf o ->
  client_request cfg o = Ok p ->
  p_unit p = c_unit cfg /\ p_fc p < 256 /\ bytesb (p_payload p) = true.
Proof.
  intros Hwf. destruct o as [di a q|w a q rt|raw a q rt|a v|a vs|a v|w a vs|raw a bs];
    cbn [op_wf client_request] in *.
  - unfold req_read_bools.
    destruct (q =? 0); [discriminate|]. destruct (2000 <? q); [discriminate|].
    destruct (65535 <? a + q - 1); [discriminate|].
    intros H; apply ok_inj in H; subst p; cbv [p_unit p_fc p_payload].
    split; [reflexivity|]. split; [destruct di; lia|].
    rewrite bytesb_app, !be16_bytes; reflexivity.
  - apply req_read_regs_bytes.
  - apply req_read_regs_bytes.
  - intros H; apply ok_inj in H; subst p; cbv [p_unit p_fc p_payload].
    split; [reflexivity|]. split; [lia|].
    rewrite bytesb_app, be16_bytes. destruct v; reflexivity.
  - destruct (1968 <? lenN vs); [discriminate|].
    destruct (u16 (lenN vs) =? 0); [discriminate|].
    destruct (1968 <? u16 (lenN vs)); [discriminate|].
    destruct (65535 <? a + u16 (lenN vs) - 1); [discriminate|].
    intros H; apply ok_inj in H; subst p; cbv [p_unit p_fc p_payload].
    split; [reflexivity|]. split; [lia|].
    rewrite !bytesb_app, !be16_bytes, encode_bools_bytes.
    unfold bytesb, is_byte, u8. cbn [forallb andb]. lia.
  - intros H; apply ok_inj in H; subst p; cbv [p_unit p_fc p_payload].
    split; [reflexivity|]. split; [lia|].
    rewrite bytesb_app, be16_bytes, u16_to_bytes_bytes. reflexivity.
  - apply req_write_regs_bytes. apply enc_values_bytes.
  - apply req_write_regs_bytes. apply image_bytes. apply Hwf.
Qed.

(* FramingP.assemble_rtu_spec and assemble_mbap_is_spec, in the form in which
   Proofs/CutSessionP.v, TxnP.v, TimedSteadyP.v and CliDevP.v use them *)
Lemma rtu_frame_spec p : p_unit p < 256 -> p_fc p < 256 -> bytesb (p_payload p) = true ->
  assemble_rtu p = spec_frame FRtu 0 p.
Proof. intros Hu Hf Hp. apply assemble_rtu_spec, body_bytes; assumption. Qed.

Lemma mbap_frame_spec txn p : assemble_mbap txn p = spec_frame FMbap txn p.
Proof. apply assemble_mbap_is_spec. Qed.

Lemma transport_writes fr txn req e s r w rest t' :
  p_unit req < 256 -> p_fc req < 256 -> bytesb (p_payload req) = true ->
  transport_exchange fr txn req e s = (r, w, rest, t') ->
  w = [spec_frame fr (u16 (txn + 1)) req].
Proof.
  intros Hu Hf Hp. unfold transport_exchange. destruct fr.
  - destruct (mbap_read_response (S (length s)) e (u16 (txn + 1)) s) as [r0 rest0].
    intros H. injection H as _ <- _ _. rewrite assemble_mbap_is_spec. reflexivity.
  - destruct (rtu_read_response e s) as [r0 rest0].
    intros H. injection H as _ <- _ _.
    rewrite (assemble_rtu_spec (u16 (txn + 1)) req (body_bytes _ _ _ Hu Hf Hp)). reflexivity.
Qed.

Lemma client_transmit : forall fr cfg txn o e s,
  op_wf o -> cfg_wf cfg -> txn < 65536 ->
  let r := client_call fr cfg txn o e s in
  (valid_op o = true -> cr_writes r = [spec_frame fr (u16 (txn + 1)) (spec_pdu cfg o)]) /\
  (valid_op o = false -> cr_writes r = [] /\ cr_res r = Err EParams /\ cr_rest r = s).
Proof.
  intros fr cfg txn o e s Hwf Hcfg Htxn r. subst r. unfold client_call.
  pose proof (client_request_bytes cfg o (spec_pdu cfg o) Hwf) as Hb.
  rewrite (client_request_exact cfg o Hwf) in *.
  destruct (valid_op o) eqn:V; split; intros HV; try discriminate HV.
  - destruct (Hb eq_refl) as [Hu [Hf Hp]]. unfold cfg_wf in Hcfg. rewrite <- Hu in Hcfg.
    destruct (transport_exchange fr txn (spec_pdu cfg o) e s) as [[[r0 w] rest] t'] eqn:TE.
    apply (transport_writes fr txn _ e s r0 w rest t' Hcfg Hf Hp) in TE. subst w.
    destruct r0 as [res|x| |]; try reflexivity.
    destruct (unit_check (spec_pdu cfg o) res); reflexivity.
  - cbn [cr_writes cr_res cr_rest]. repeat split; reflexivity.
Qed.
