(* C01 seen from the network (Model/PeerView.v): whatever the peer holding the
   call's connection does (reads the request and closes, answers in part and
   closes, hangs up before or inside the request), the listener receives one
   connection carrying a prefix of the ONE specified frame, never a second frame
   or connection; a rejected call puts nothing on any; and such a call fails. *)
From Modbus Require Import Base.Bytes Model.Crc Model.Encoding Model.Wire Model.Client
  Model.PeerView
  Spec.ModbusSpec Spec.ClientSpec Spec.CutSpec
  Proofs.ClientReqP Proofs.CutP.

Lemma hangup_view fr cfg txn o h :
  op_wf o -> cfg_wf cfg -> txn < 65536 ->
  let v := client_call_hangup fr cfg txn o h in
  let f := spec_frame fr (u16 (txn + 1)) (spec_pdu cfg o) in
  (valid_op o = true ->
     pv_conns v = match h with
                  | HangAfter _ _ => [f]
                  | HangEarly _ k => [firstn k f]
                  end) /\
  (valid_op o = false -> pv_conns v = [[]] /\ pv_res v = Err EParams).
Proof.
  intros Hwf Hcfg Ht v f. subst v f.
  destruct h as [e sent|e k]; cbn [client_call_hangup pv_conns pv_res].
  - destruct (client_transmit fr cfg txn o e sent Hwf Hcfg Ht) as [Hv Hi].
    split; intros V.
    + rewrite (Hv V). cbn [concat]. rewrite app_nil_r. reflexivity.
    + destruct (Hi V) as (Hw & Hr & _). rewrite Hw, Hr. split; reflexivity.
  - destruct (client_transmit fr cfg txn o e [] Hwf Hcfg Ht) as [Hv Hi].
    split; intros V.
    + rewrite (Hv V). cbn [concat]. rewrite app_nil_r. reflexivity.
    + destruct (Hi V) as (Hw & Hr & _). rewrite Hw, Hr. cbn [concat].
      rewrite firstn_nil. split; reflexivity.
Qed.

Lemma hangup_fails fr cfg txn o res vs h :
  op_wf o -> cfg_wf cfg -> txn < 65536 -> valid_op o = true ->
  bytesb (p_payload res) = true -> answers cfg o res vs ->
  match h with
  | HangAfter _ sent =>
      exists k, (k < length (spec_frame fr (u16 (txn + 1)) res))%nat /\
                sent = firstn k (spec_frame fr (u16 (txn + 1)) res)
  | HangEarly _ _ => True
  end ->
  cut_failed (pv_res (client_call_hangup fr cfg txn o h)).
Proof.
  intros Hwf Hcfg Ht V Hb Hans Hh.
  assert (Hfr : match fr with
                | FMbap => txn < 65536 /\ Forall (skippable (u16 (txn + 1))) []
                | FRtu => @nil (list N) = []
                end) by (destruct fr; [split; [exact Ht|constructor]|reflexivity]).
  assert (Hpos : (0 < length (spec_frame fr (u16 (txn + 1)) res))%nat).
  { destruct fr; cbn [spec_frame]; repeat rewrite app_length; cbn [length]; lia. }
  destruct h as [e sent|e k0]; cbn [client_call_hangup pv_res].
  - destruct Hh as (k & Hk & ->).
    pose proof (client_cut_never_ok fr cfg txn o e res vs [] k Hwf Hcfg V Hb Hans Hfr) as H.
    cbn [concat app] in H. exact (proj1 (H Hk)).
  - pose proof (client_cut_never_ok fr cfg txn o e res vs [] 0%nat Hwf Hcfg V Hb Hans Hfr) as H.
    cbn [concat app] in H. rewrite firstn_O in H. exact (proj1 (H Hpos)).
Qed.
