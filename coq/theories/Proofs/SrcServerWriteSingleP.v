(* server.go handleTransport as translated from the Go source (Gen/SrcPure.v):
   one iteration of the loop on a write-single request (function code 5, write
   single coil; function code 6, write single register) does what the model
   (Model/Server.v server_process, then the response written or the link
   closed) says. *)
From Coq Require Import List NArith String Lia Bool.
Import ListNotations.
From Modbus Require Import Base.Bytes Model.GoLite Gen.SrcPure Model.Crc Model.Encoding.
From Modbus Require Import Model.Wire Model.Client Model.Server.
From Modbus Require Import Proofs.GoLiteP Proofs.GoLiteLinkP Proofs.SrcCrcP Proofs.SrcLinkP Proofs.SrcMiscP Proofs.SrcClientP Proofs.SrcServerP.
Open Scope string_scope.
Open Scope N_scope.

Lemma srv_iter_write_single fe fuel W started tt ca cr w rest req :
  world_hyp fe W -> srv_callee_hyp fe -> List.length rest = 18%nat ->
  snd (w_read W w) = RdOk req -> (p_fc req = 5 \/ p_fc req = 6) ->
  srv_iter_spec fe fuel W started tt ca cr w rest req.
Proof.
  intros HW HC Hlen Hrd Hfc.
  destruct req as [u fc pl]. cbn [p_fc] in Hfc.
  apply srv_iter_by_case; try assumption. clear w rest Hlen Hrd.
  intros w1 r9 r10 r11 r12 s14 s15 s16 s17 s18 s19 s20 s21 s22 _.
  unfold server_process. cbn [p_fc p_payload p_unit].
  destruct Hfc as [-> | ->]; cbn [class_of N.eqb Pos.eqb orb]; cbv [srv_case].
  - (* write single coil *)
    apply (len4_check fe fuel W HW). intros b0 b1 b2 b3 ->.
    cbn [be_word nth skipn].
    (* addr = bytesToUint16(BIG_ENDIAN, req.payload[0:2]) *)
    erewrite seq_normal by (gl_run; rewrite (b2u16_pair fe HC); reflexivity).
    (* (payload[2] != 0xff && payload[2] != 0x00) || payload[3] != 0x00 *)
    erewrite seq_guard by first [exact I | try (apply eval_orelse; [apply eval_andalso|]); gl_run; reflexivity].
    destruct (orb (andb (negb (b2 =? 255)) (negb (b2 =? 0))) (negb (b3 =? 0))) eqn:Ev;
      [apply (tail_close fe fuel W HW)|].
    unfold model_handler.
    pose proof (handle_code fe W HW w1 ca cr (mkhreq HCoils u (b0 * 256 + b1) 1 true [b2 =? 255] [])) as Hin.
    destruct (w_handle W w1 ca cr _) as [w2 [xb xr c]] eqn:Eh. cbn [snd hr_code r_err] in *.
    erewrite seq_normal by (gl_run; rewrite (coils_call fe W HW _ _ _ _ _ _ true [b2 =? 255]), Eh; reflexivity).
    cbn [hr_code]. rewrite hfinish_code. apply (handler_done fe fuel W HW HC); [exact Hin|].
    (* the response echoes the request: the address, then payload[2], payload[3] *)
    gl_seq. (* res = &pdu{unitId, functionCode} *)
    erewrite seq_normal by (gl_run; rewrite (u16tb_be fe HC); gl_run; reflexivity).
    erewrite after_normal by (gl_run; reflexivity).
    apply (tail_ok fe fuel W HW) with (rp := (be16 (b0 * 256 + b1) ++ [b2; b3])%list).
  - (* write single register *)
    gl_seq. (* var value uint16 *)
    apply (len4_check fe fuel W HW). intros b0 b1 b2 b3 ->.
    cbn [be_word nth skipn].
    (* addr, value = bytesToUint16(BIG_ENDIAN, req.payload[0:2]), ...(req.payload[2:4]) *)
    erewrite seq_normal by (gl_run; rewrite (b2u16_pair fe HC); reflexivity).
    erewrite seq_normal by (gl_run; rewrite (b2u16_pair fe HC); reflexivity).
    unfold model_handler.
    pose proof (handle_code fe W HW w1 ca cr (mkhreq HHolding u (b0 * 256 + b1) 1 true [] [b2 * 256 + b3])) as Hin.
    destruct (w_handle W w1 ca cr _) as [w2 [xb xr c]] eqn:Eh. cbn [snd hr_code r_err] in *.
    erewrite seq_normal
      by (gl_run; rewrite (holding_call fe W HW _ _ _ _ _ _ true [b2 * 256 + b3]), Eh; reflexivity).
    cbn [hr_code]. rewrite hfinish_code. apply (handler_done fe fuel W HW HC); [exact Hin|].
    (* the response echoes address and value *)
    gl_seq. (* res = &pdu{unitId, functionCode} *)
    erewrite seq_normal by (gl_run; rewrite (u16tb_be fe HC); gl_run; reflexivity).
    erewrite after_normal by (gl_run; rewrite (u16tb_be fe HC); gl_run; reflexivity).
    apply (tail_ok fe fuel W HW) with (rp := (be16 (b0 * 256 + b1) ++ be16 (b2 * 256 + b3))%list).
Qed.
