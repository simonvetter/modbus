(* Proofs about Model/ConcGarble.v: when every answer of the device is settled
   (its own exchange leaves nothing on the line), the exchanges of a shared RTU
   client return, in every order, what each call returns on a quiet line facing
   its own answer - a garbled reply has no effect on the exchange after it. *)
From Coq Require Import List Bool NArith Permutation.
Import ListNotations.
From Modbus Require Import Base.Bytes Model.Wire Model.Client Spec.ModbusSpec Model.ConcGarble.

Lemma cg_settled_rest cfg c : cg_settled cfg c = true -> cr_rest (cg_own cfg c) = [].
Proof.
  unfold cg_settled. destruct (cr_rest (cg_own cfg c)); [reflexivity|discriminate].
Qed.

(* the line is quiet before every exchange *)
Lemma cg_serial_own cfg l : cg_all_settled cfg l = true -> cg_serial cfg [] l = cg_expected cfg l.
Proof.
  unfold cg_all_settled, cg_expected.
  induction l as [|c t IH]; intros H; [reflexivity|].
  cbn [forallb] in H. apply andb_true_iff in H. destruct H as [Hc Ht].
  cbn [cg_serial map]. rewrite app_nil_l.
  change (client_call FRtu cfg 0 (fst c) Stall (snd c)) with (cg_own cfg c).
  rewrite (cg_settled_rest _ _ Hc). f_equal. exact (IH Ht).
Qed.

Lemma cg_all_settled_perm cfg l l' : Permutation l l' ->
  cg_all_settled cfg l = true -> cg_all_settled cfg l' = true.
Proof.
  unfold cg_all_settled. intros Hp H. apply forallb_forall. intros c Hin.
  apply (proj1 (forallb_forall _ _) H). apply (Permutation_in c (Permutation_sym Hp) Hin).
Qed.

Lemma cg_serial_any_order cfg l l' : Permutation l l' -> cg_all_settled cfg l = true ->
  cg_serial cfg [] l' = cg_expected cfg l'.
Proof.
  intros Hp H. apply cg_serial_own. exact (cg_all_settled_perm _ _ _ Hp H).
Qed.
