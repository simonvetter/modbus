(* Proofs for C18 / C18b over the heap / slice model (Model/Heap.v). Frame (hp_keeps, hp_fr;
   lemmas fr_): a client call only allocates, and stores only into arrays it allocated itself.
   Refinement (hp_tr, hp_hd; lemmas tr_, hd_, hvp_): request, frame and returned values are those
   of Model/Client.v on the content of the argument slice. Both for hj_call (Model/HeapJunk.v);
   hp_call is the case without left-overs. Properties/C18*.v speak Spec/AliasSpec.v (keeps_memory). *)
From Coq Require Import Arith Lia List.
From Modbus Require Import Base.Bytes Base.Trace Model.Crc Model.Encoding Model.Wire Model.Client Model.Heap
  Model.HeapJunk Spec.AliasSpec Spec.AliasValuesSpec Proofs.FramingP.
Local Open Scope nat_scope.

Lemma hp_upd_length h id a : length (hp_upd h id a) = length h.
Proof.
  unfold hp_upd. destruct (id <? length h) eqn:E; [|reflexivity].
  apply Nat.ltb_lt in E. rewrite app_length, firstn_length. cbn [length].
  rewrite skipn_length. lia.
Qed.

Lemma hp_upd_firstn b h id a : b <= id -> firstn b (hp_upd h id a) = firstn b h.
Proof.
  intros Hb. unfold hp_upd. destruct (id <? length h) eqn:E; [|reflexivity].
  apply Nat.ltb_lt in E.
  rewrite firstn_app_le by (rewrite firstn_length; lia).
  rewrite firstn_firstn. f_equal. lia.
Qed.

Lemma hp_upd_same h id : hp_upd h id (hp_arr h id) = h.
Proof.
  unfold hp_upd, hp_arr. destruct (id <? length h) eqn:E; [|reflexivity].
  apply Nat.ltb_lt in E. apply firstn_nth_skipn. exact E.
Qed.

Lemma hp_arr_upd_same h id a : id < length h -> hp_arr (hp_upd h id a) id = a.
Proof.
  intros H. unfold hp_arr, hp_upd. apply Nat.ltb_lt in H as E. rewrite E.
  rewrite app_nth2 by (rewrite firstn_length; lia).
  rewrite firstn_length. replace (id - Nat.min id (length h)) with 0 by lia. reflexivity.
Qed.

Lemma hp_upd_app_new h a a' : hp_upd (h ++ [a]) (length h) a' = h ++ [a'].
Proof.
  unfold hp_upd. rewrite app_length. cbn [length].
  replace (length h <? length h + 1) with true by (symmetry; apply Nat.ltb_lt; lia).
  rewrite firstn_app_length, skipn_all2 by (rewrite app_length; cbn [length]; lia). reflexivity.
Qed.

Lemma arr_write_nil a p : arr_write a p [] = a.
Proof. unfold arr_write. cbn [length app]. rewrite Nat.add_0_r. apply firstn_skipn. Qed.

Lemma hp_store_nil s p h : hp_store s p [] h = h.
Proof. unfold hp_store. rewrite arr_write_nil. apply hp_upd_same. Qed.

Lemma hp_store_length s p xs h : length (hp_store s p xs h) = length h.
Proof. apply hp_upd_length. Qed.

Lemma hp_arr_app_old h l id : id < length h -> hp_arr (h ++ l) id = hp_arr h id.
Proof. intros H. unfold hp_arr. apply app_nth1. exact H. Qed.

Lemma hp_arr_app_new h a : hp_arr (h ++ [a]) (length h) = a.
Proof. unfold hp_arr. rewrite app_nth2, Nat.sub_diag by lia. reflexivity. Qed.

Lemma arr_prefix n h h' id : firstn n h' = firstn n h -> id < n -> hp_arr h' id = hp_arr h id.
Proof.
  intros E Hid. unfold hp_arr. rewrite <- (nth_firstn_lt h' n id [] Hid), E.
  apply nth_firstn_lt. exact Hid.
Qed.

Definition hp_keeps (b : nat) (h h' : hp_heap) : Prop :=
  firstn b h' = firstn b h /\ length h <= length h'.

Lemma keeps_refl b h : hp_keeps b h h.
Proof. split; [reflexivity|lia]. Qed.

Lemma keeps_trans b h1 h2 h3 : hp_keeps b h1 h2 -> hp_keeps b h2 h3 -> hp_keeps b h1 h3.
Proof. intros [A1 A2] [B1 B2]. split; [congruence|lia]. Qed.

Lemma keeps_app b h j : b <= length h -> hp_keeps b h (h ++ j).
Proof. intros H. split; [apply firstn_app_le; exact H|rewrite app_length; lia]. Qed.

Lemma keeps_store b s p xs h : b <= hs_arr s -> hp_keeps b h (hp_store s p xs h).
Proof.
  intros H. split; [apply hp_upd_firstn; exact H|rewrite hp_store_length; lia].
Qed.

Lemma keeps_weaken b b' h h' : b' <= b -> hp_keeps b h h' -> hp_keeps b' h h'.
Proof.
  intros Hb [K1 K2]. split; [|exact K2].
  rewrite <- (Nat.min_l b' b) by exact Hb. rewrite <- !firstn_firstn. rewrite K1. reflexivity.
Qed.

Lemma keeps_all h h' : hp_keeps (length h) h h' -> firstn (length h) h' = h.
Proof. intros [K _]. rewrite K. apply firstn_all. Qed.

Lemma keeps_memory h h' : hp_keeps (length h) h h' -> memory_untouched h h'.
Proof.
  intros K id a H. rewrite <- (firstn_skipn (length h) h'), (keeps_all _ _ K).
  rewrite nth_error_app1; [exact H|apply nth_error_Some; congruence].
Qed.

Lemma fold_frame {C E} (hp : C -> hp_heap) (st : C -> E -> C) :
  (forall c e, hp_keeps (length (hp c)) (hp c) (hp (st c e))) ->
  forall es c, hp_keeps (length (hp c)) (hp c) (hp (fold_left st es c)).
Proof.
  intros Hst es c. apply run_keeps; [|apply keeps_refl].
  intros c' e K. eapply keeps_trans; [exact K|]. eapply keeps_weaken; [apply K|apply Hst].
Qed.

(* a slice of the current call: its array (capacity 0: it has none) was
   allocated at or after position b and exists (below n) *)
Definition hs_in (b n : nat) (s : hslice) : Prop :=
  hs_len s <= hs_cap s /\ (hs_cap s = 0 \/ (b <= hs_arr s /\ hs_arr s < n)).

Lemma hs_in_mono b n n' s : hs_in b n s -> n <= n' -> hs_in b n' s.
Proof. intros [H1 [H2|[H2 H3]]] Hn; split; try exact H1; [left; exact H2|right; lia]. Qed.

Lemma hs_in_nil b n : hs_in b n hs_nil.
Proof. split; [cbn; lia|left; reflexivity]. Qed.

Lemma hs_in_weak b n s : hs_in b n s -> hs_in 0 n s.
Proof. intros [H1 [H2|[_ H3]]]; split; try exact H1; [left; exact H2|right; lia]. Qed.

Lemma cells_prefix n h h' s k : firstn n h' = firstn n h -> hs_in 0 n s -> k <= hs_cap s ->
  spec_cells h' s k = spec_cells h s k.
Proof.
  intros E [Hl [Hc|[_ Ha]]] Hk; unfold spec_cells.
  - replace k with 0 by lia. reflexivity.
  - do 2 f_equal. exact (arr_prefix n h h' _ E Ha).
Qed.

Lemma cells_firstn n h s k : hs_in 0 n s -> k <= hs_cap s ->
  spec_cells (firstn n h) s k = spec_cells h s k.
Proof. apply cells_prefix. rewrite firstn_firstn, Nat.min_id. reflexivity. Qed.

Lemma keeps_read h h' s : hp_keeps (length h) h h' -> hs_in 0 (length h) s ->
  h_read s h' = h_read s h.
Proof. intros [K _] Hs. exact (cells_prefix _ _ _ s (hs_len s) K Hs (proj1 Hs)). Qed.

Lemma keeps_slice_untouched h h' t : hp_keeps (length h) h h' -> hs_in 0 (length h) t ->
  slice_untouched h h' t.
Proof. intros [K _] Ht. split; apply (cells_prefix _ _ _ t _ K Ht); [apply Ht|lia]. Qed.

Definition hp_fr {A} (b n : nat) (m : hpM A) (Q : nat -> A -> Prop) : Prop :=
  forall h, b <= length h -> n <= length h ->
    hp_keeps b h (hp_heap_of (m h)) /\
    forall a h', m h = HpVal a h' -> Q (length h') a.

Lemma fr_bind {A B} b n (m : hpM A) (f : A -> hpM B) Q R :
  hp_fr b n m Q ->
  (forall n' a, n <= n' -> Q n' a -> hp_fr b n' (f a) R) ->
  hp_fr b n (hp_bind m f) R.
Proof.
  intros Hm Hf h Hb Hn. destruct (Hm h Hb Hn) as [Hk HQ]. unfold hp_bind.
  destruct (m h) as [a h1|h1] eqn:E; cbn [hp_heap_of] in *.
  - specialize (HQ a h1 eq_refl). destruct Hk as [Hk1 Hk2].
    assert (Hn1 : n <= length h1) by lia.
    destruct (Hf (length h1) a Hn1 HQ h1 ltac:(lia) ltac:(lia)) as [Hk' HR].
    split; [|exact HR]. eapply keeps_trans; [split; eassumption|exact Hk'].
  - split; [exact Hk|]. intros a h' H. discriminate H.
Qed.

Lemma fr_ret {A} b n (a : A) (Q : nat -> A -> Prop) :
  (forall n', n <= n' -> Q n' a) -> hp_fr b n (hp_ret a) Q.
Proof.
  intros HQ h Hb Hn. unfold hp_ret. cbn [hp_heap_of]. split; [apply keeps_refl|].
  intros a' h' H. injection H as <- <-. apply HQ. exact Hn.
Qed.

Lemma fr_panic {A} b n (Q : nat -> A -> Prop) : hp_fr b n hp_panic Q.
Proof.
  intros h Hb Hn. unfold hp_panic. cbn [hp_heap_of]. split; [apply keeps_refl|].
  intros a' h' H. discriminate H.
Qed.

Lemma fr_if {A} b n (c : bool) (m1 m2 : hpM A) Q :
  hp_fr b n m1 Q -> hp_fr b n m2 Q -> hp_fr b n (if c then m1 else m2) Q.
Proof. destruct c; auto. Qed.

Lemma fr_weaken {A} b n (m : hpM A) (Q Q' : nat -> A -> Prop) :
  hp_fr b n m Q -> (forall n' a, n <= n' -> Q n' a -> Q' n' a) -> hp_fr b n m Q'.
Proof.
  intros Hm HQ h Hb Hn. destruct (Hm h Hb Hn) as [Hk H]. split; [exact Hk|].
  intros a h' E. apply HQ; [|apply H; exact E].
  rewrite E in Hk. cbn [hp_heap_of] in Hk. destruct Hk. lia.
Qed.

Lemma fr_run {A} h0 h (m : hpM A) Q : hp_fr (length h0) (length h) m Q -> hp_keeps (length h0) h0 h ->
  hp_keeps (length h0) h0 (hp_heap_of (m h)) /\ forall a h', m h = HpVal a h' -> Q (length h') a.
Proof.
  intros Hm K. destruct (Hm h (proj2 K) (le_n _)) as [K' HQ].
  split; [eapply keeps_trans; eassumption|exact HQ].
Qed.

Definition any_nat {A} : nat -> A -> Prop := fun _ _ => True.

Lemma fr_load b n s : hp_fr b n (hp_load s) any_nat.
Proof.
  intros h Hb Hn. unfold hp_load. cbn [hp_heap_of]. split; [apply keeps_refl|]. intros; exact I.
Qed.

Lemma fr_make b n k c : hp_fr b n (h_make k c) (hs_in b).
Proof.
  intros h Hb Hn. unfold h_make. destruct (c <? k) eqn:E; cbn [hp_heap_of].
  - split; [apply keeps_refl|]. intros a h' H. discriminate H.
  - apply Nat.ltb_ge in E. split; [apply keeps_app; exact Hb|].
    intros a h' H. injection H as <- <-. rewrite app_length. cbn [length].
    split; cbn [hs_len hs_cap hs_arr]; [exact E|right; lia].
Qed.

Lemma fr_get b n s i : hp_fr b n (h_get s i) any_nat.
Proof.
  intros h Hb Hn. unfold h_get.
  destruct (i <? hs_len s); [destruct (nth_error _ _)|]; cbn [hp_heap_of];
    (split; [apply keeps_refl|intros; exact I]).
Qed.

Lemma fr_set b n s i v : hs_in b n s -> hp_fr b n (h_set s i v) any_nat.
Proof.
  intros [Hl Hs] h Hb Hn. unfold h_set. destruct (i <? hs_len s) eqn:E; cbn [hp_heap_of].
  - apply Nat.ltb_lt in E. destruct Hs as [Hs|[Hs _]]; [lia|].
    split; [apply keeps_store; exact Hs|intros; exact I].
  - split; [apply keeps_refl|intros; exact I].
Qed.

Lemma fr_slice b n s lo hi : hs_in b n s -> hp_fr b n (h_slice s lo hi) (hs_in b).
Proof.
  intros Hs. unfold h_slice. destruct (andb (lo <=? hi) (hi <=? hs_cap s)) eqn:E; [|apply fr_panic].
  apply andb_true_iff in E as [E1 E2]. apply Nat.leb_le in E1, E2.
  apply fr_ret. intros n' Hn. destruct Hs as [Hl Hs].
  split; cbn [hs_len hs_cap hs_arr]; [lia|].
  destruct Hs as [Hs|[Hs1 Hs2]]; [left; lia|right; lia].
Qed.

Lemma fr_append b n gr s xs : hs_in b n s -> hp_fr b n (h_append gr s xs) (hs_in b).
Proof.
  intros Hs h Hb Hn. unfold h_append. destruct xs as [|x xs'].
  - cbn [hp_heap_of]. split; [apply keeps_refl|].
    intros a h' H. injection H as <- <-. eapply hs_in_mono; eassumption.
  - remember (x :: xs') as xs eqn:Hxs.
    assert (Hlen : 1 <= length xs) by (subst xs; cbn; lia).
    destruct (hs_len s + length xs <=? hs_cap s) eqn:E; cbn [hp_heap_of].
    + apply Nat.leb_le in E. destruct Hs as [Hl [Hs|[Hs1 Hs2]]]; [lia|].
      split; [apply keeps_store; exact Hs1|].
      intros a h' H. injection H as <- <-. rewrite hp_store_length.
      split; cbn [hs_len hs_cap hs_arr]; [exact E|right; lia].
    + split; [apply keeps_app; exact Hb|].
      intros a h' H. injection H as <- <-. rewrite app_length. cbn [length].
      split; cbn [hs_len hs_cap hs_arr]; [lia|right; lia].
Qed.

Lemma fr_copy b n s xs : hs_in b n s -> hp_fr b n (h_copy s xs) any_nat.
Proof.
  intros [Hl Hs] h Hb Hn. unfold h_copy. cbn [hp_heap_of]. split; [|intros; exact I].
  destruct Hs as [Hs|[Hs _]].
  - replace (hs_len s) with 0 by lia. cbn [firstn]. rewrite hp_store_nil. apply keeps_refl.
  - apply keeps_store. exact Hs.
Qed.

Definition hq_in (b n : nat) (r : result hp_pdu) : Prop :=
  match r with Ok q => hs_in b n (hq_payload q) | _ => True end.

Definition hv_in (b n : nat) (r : result hp_value) : Prop :=
  Forall (hs_in b n) (hv_slices r).

(* The composite procedures. [fr_step L] runs the next bind, L being the frame
   lemma of its first procedure. The side conditions are all of one kind: a
   slice the procedure stores to, or returns, was obtained earlier in the same
   call, when fewer arrays were allocated. They are left to [auto with frame]:
   hs_in_mono with the hypothesis about that slice, the counts compared by
   lia; hq_in and hv_in are unfolded to hs_in of the slices they hold. *)
Create HintDb frame.
#[local] Hint Extern 1 (hs_in _ _ _) => eapply hs_in_mono; [eassumption|lia] : frame.
#[local] Hint Resolve hs_in_nil : frame.
#[local] Hint Extern 0 (any_nat _ _) => exact I : frame.
#[local] Hint Extern 1 (hq_in _ _ _) => cbn [hq_in hq_payload] : frame.
#[local] Hint Extern 1 (hv_in _ _ _) => unfold hv_in; cbn [hv_slices] : frame.
#[local] Hint Constructors Forall : frame.

Ltac fr_step L := eapply fr_bind; [apply L; auto with frame|intros ? ? ? ?].

Lemma fr_fresh_bytes b n bs : hp_fr b n (hp_fresh_bytes bs) (hs_in b).
Proof.
  unfold hp_fresh_bytes. fr_step fr_make. fr_step fr_copy. apply fr_ret; auto with frame.
Qed.

Lemma fr_append_each b gr xs : forall n s, hs_in b n s ->
  hp_fr b n (hp_append_each gr s xs) (hs_in b).
Proof.
  induction xs as [|x t IH]; intros n s Hs; cbn [hp_append_each]; [apply fr_ret; auto with frame|].
  fr_step fr_append. apply IH; auto with frame.
Qed.

Lemma fr_swap_loop b s fuel : forall n i, hs_in b n s ->
  hp_fr b n (hp_swap_loop fuel s i) any_nat.
Proof.
  induction fuel as [|f IH]; intros n i Hs; cbn [hp_swap_loop]; [apply fr_ret; auto with frame|].
  apply fr_if; [|apply fr_ret; auto with frame].
  fr_step fr_get. fr_step fr_get. fr_step fr_set. fr_step fr_set. apply IH; auto with frame.
Qed.

Lemma fr_swap_if b n (c : bool) s : hs_in b n s ->
  hp_fr b n (if c then hp_swap_loop (hs_len s) s 0 else hp_ret tt) any_nat.
Proof. intros Hs. apply fr_if; [apply fr_swap_loop; exact Hs|apply fr_ret; auto with frame]. Qed.

Lemma fr_encode_bools b n values : hp_fr b n (hp_encode_bools values) (hs_in b).
Proof. unfold hp_encode_bools. fr_step fr_load. apply fr_fresh_bytes. Qed.

(* the pinned writeBytes keeps the frame only when its argument is a slice of
   the call itself - which a caller's slice is not *)
Lemma fr_write_bytes_prep_pinned b n gr cfg raw values : hs_in b n values ->
  hp_fr b n (hp_write_bytes_prep_pinned gr cfg raw values) (hs_in b).
Proof.
  intros Hv. unfold hp_write_bytes_prep_pinned.
  eapply fr_bind; [apply fr_if; [apply fr_append|apply fr_ret]; auto with frame|].
  intros n1 v2 Hn1 Hv2. fr_step fr_swap_if. apply fr_ret; auto with frame.
Qed.

(* writeBytes, fixed, is the pinned one run on a copy: WHATEVER slice the
   caller passes *)
Lemma fr_write_bytes_prep b n gr cfg raw values :
  hp_fr b n (hp_write_bytes_prep gr cfg raw values) (hs_in b).
Proof.
  unfold hp_write_bytes_prep. fr_step fr_make. fr_step fr_load. fr_step fr_append.
  apply fr_write_bytes_prep_pinned; auto with frame.
Qed.

(* what writeRegisters and WriteCoils do once the checks are passed *)
Definition hp_write_payload (gr : nat -> nat) (u fc a q bc : N) (data : hslice)
  : hpM (result hp_pdu) :=
  hdo p0 <- hp_fresh_bytes (be16 a);
  hdo t1 <- hp_fresh_bytes (be16 q);
  hdo x1 <- hp_load t1;
  hdo p1 <- h_append gr p0 x1;
  hdo p2 <- h_append gr p1 [bc];
  hdo vs <- hp_load data;
  hdo p3 <- h_append gr p2 vs;
  hp_ret (Ok (mkhq u fc p3)).

Lemma fr_write_payload b n gr u fc a q bc data :
  hp_fr b n (hp_write_payload gr u fc a q bc data) (hq_in b).
Proof.
  unfold hp_write_payload. fr_step fr_fresh_bytes. fr_step fr_fresh_bytes. fr_step fr_load.
  fr_step fr_append. fr_step fr_append. fr_step fr_load. fr_step fr_append.
  apply fr_ret; auto with frame.
Qed.

Lemma fr_ret_err b n x : hp_fr b n (hp_ret (Err x)) (hq_in b).
Proof. apply fr_ret. intros; exact I. Qed.

Lemma fr_write_registers b n gr cfg a values :
  hp_fr b n (hp_write_registers gr cfg a values) (hq_in b).
Proof.
  unfold hp_write_registers. cbv zeta. do 4 (apply fr_if; [apply fr_ret_err|]).
  apply fr_write_payload.
Qed.

Lemma fr_encode_loop b gr cfg w values k : forall n i payload, hs_in b n payload ->
  hp_fr b n (hp_encode_loop gr cfg w values k i payload) (hs_in b).
Proof.
  induction k as [|k IH]; intros n i payload Hp; cbn [hp_encode_loop]; [apply fr_ret; auto with frame|].
  fr_step fr_get. fr_step fr_fresh_bytes. fr_step fr_load. fr_step fr_append.
  apply IH; auto with frame.
Qed.

Lemma fr_write_coils b n gr cfg a values :
  hp_fr b n (hp_write_coils gr cfg a values) (hq_in b).
Proof.
  unfold hp_write_coils. cbv zeta. do 4 (apply fr_if; [apply fr_ret_err|]).
  fr_step fr_encode_bools. apply fr_write_payload.
Qed.

(* the request of every call, under the fixed writeBytes *)
Lemma fr_request b n gr cfg o : hp_fr b n (hp_request false gr cfg o) (hq_in b).
Proof.
  destruct o as [raw a s|a s|w a s|o']; cbn [hp_request].
  - fr_step fr_write_bytes_prep. apply fr_write_registers.
  - apply fr_write_coils.
  - fr_step fr_encode_loop. apply fr_write_registers.
  - destruct (client_request cfg o') as [req|x| |]; try (apply fr_ret; intros; exact I).
    fr_step fr_fresh_bytes. apply fr_ret; auto with frame.
Qed.

Lemma fr_assemble b n gr fr txn p : hp_fr b n (hp_assemble gr fr txn p) (hs_in b).
Proof.
  destruct fr; cbn [hp_assemble].
  - fr_step fr_fresh_bytes. fr_step fr_append. fr_step fr_fresh_bytes. fr_step fr_load.
    fr_step fr_append. fr_step fr_append. fr_step fr_append. fr_step fr_load.
    apply fr_append; auto with frame.
  - fr_step fr_append. fr_step fr_append. fr_step fr_load. fr_step fr_append. fr_step fr_load.
    fr_step fr_fresh_bytes. fr_step fr_load. apply fr_append; auto with frame.
Qed.

Lemma fr_rx_buffer b n fr txn res : hp_fr b n (hp_rx_buffer fr txn res) (hs_in b).
Proof.
  destruct fr; cbn [hp_rx_buffer].
  - fr_step fr_make. fr_step fr_copy. fr_step fr_make. fr_step fr_copy.
    apply fr_slice; auto with frame.
  - fr_step fr_make. fr_step fr_copy. apply fr_slice; auto with frame.
Qed.

Lemma fr_build_result b n gr cfg o payload : hs_in b n payload ->
  hp_fr b n (hp_build_result gr cfg o payload) (hv_in b).
Proof.
  intros Hp. destruct o as [di a q|w a q rt|raw a q rt|a v|a vs|a v|w a vs|raw a bs];
    cbn [hp_build_result]; try (apply fr_ret; auto with frame).
  - fr_step fr_slice. fr_step fr_load.
    destruct (decode_bools _ _) as [l|]; [|apply fr_panic].
    fr_step fr_append_each. apply fr_ret; auto with frame.
  - fr_step fr_slice. fr_step fr_load.
    destruct (if (w =? 1)%N then _ else _) as [l|]; [|apply fr_panic].
    fr_step fr_append_each. apply fr_ret; auto with frame.
  - fr_step fr_slice. fr_step fr_swap_if.
    destruct (q mod 2 =? 1)%N; [|apply fr_ret; auto with frame].
    destruct (hs_len _ =? 0); [apply fr_panic|].
    fr_step fr_slice. apply fr_ret; auto with frame.
Qed.

Lemma fr_receive b n gr fr cfg txn o req res :
  hp_fr b n (hp_receive gr fr cfg txn o req res) (hv_in b).
Proof.
  unfold hp_receive. fr_step fr_rx_buffer.
  destruct (unit_check req res); [apply fr_ret; auto with frame|].
  fr_step fr_load.
  destruct (client_validate cfg o req _) as [v|x| |]; try (apply fr_ret; auto with frame).
  apply fr_build_result; auto with frame.
Qed.

(* total: m returns a value, it does not panic (hp_fr above is partial: it says
   nothing of whether m returns) *)
Definition hp_tr {A} (P : hp_heap -> Prop) (m : hpM A) (Q : A -> hp_heap -> Prop) : Prop :=
  forall h, P h -> exists a h', m h = HpVal a h' /\ Q a h'.

Lemma tr_bind {A B} (P : hp_heap -> Prop) (m : hpM A) (f : A -> hpM B)
  (Q : A -> hp_heap -> Prop) (R : B -> hp_heap -> Prop) :
  hp_tr P m Q -> (forall a, hp_tr (Q a) (f a) R) -> hp_tr P (hp_bind m f) R.
Proof.
  intros Hm Hf h Hh. destruct (Hm h Hh) as (a & h1 & E & Hq).
  destruct (Hf a h1 Hq) as (b & h2 & E2 & Hr). exists b, h2. split; [|exact Hr].
  unfold hp_bind. rewrite E. exact E2.
Qed.

Lemma tr_ret {A} (P : hp_heap -> Prop) (a : A) (Q : A -> hp_heap -> Prop) :
  (forall h, P h -> Q a h) -> hp_tr P (hp_ret a) Q.
Proof. intros H h Hh. exists a, h. split; [reflexivity|apply H; exact Hh]. Qed.

Lemma tr_pure {A B} (P : hp_heap -> Prop) (m : hpM A) (V : A) (K : A -> hpM B)
  (Q : B -> hp_heap -> Prop) :
  (forall h, P h -> m h = HpVal V h) -> hp_tr P (K V) Q -> hp_tr P (hp_bind m K) Q.
Proof.
  intros Hm HK h Hh. destruct (HK h Hh) as (b & h2 & E2 & Hr). exists b, h2. split; [|exact Hr].
  unfold hp_bind. rewrite (Hm h Hh). exact E2.
Qed.

Lemma tr_pre {A} (P P' : hp_heap -> Prop) (m : hpM A) (Q : A -> hp_heap -> Prop) :
  (forall h, P h -> P' h) -> hp_tr P' m Q -> hp_tr P m Q.
Proof. intros HP Hm h Hh. apply Hm. apply HP. exact Hh. Qed.

Lemma tr_post {A} (P : hp_heap -> Prop) (m : hpM A) (Q Q' : A -> hp_heap -> Prop) :
  hp_tr P m Q -> (forall a h, Q a h -> Q' a h) -> hp_tr P m Q'.
Proof.
  intros Hm HQ h Hh. destruct (Hm h Hh) as (a & h1 & E & Hq). exists a, h1. split; [exact E|].
  apply HQ. exact Hq.
Qed.

(* to learn a fact from P before going on (tr_peek), and to go on with the
   heap fixed to the one m starts on (tr_fix) *)
Lemma tr_peek {A} (P : hp_heap -> Prop) (m : hpM A) (Q : A -> hp_heap -> Prop) :
  (forall h0, P h0 -> hp_tr P m Q) -> hp_tr P m Q.
Proof. intros H h Hh. exact (H h Hh h Hh). Qed.

Lemma tr_fix {A} (P : hp_heap -> Prop) (m : hpM A) (Q : A -> hp_heap -> Prop) :
  (forall h0, P h0 -> hp_tr (eq h0) m Q) -> hp_tr P m Q.
Proof. intros H h Hh. exact (H h Hh h eq_refl). Qed.

Ltac tr_step L := eapply tr_bind; [apply L|intros ?].

Definition hs_wf (h : hp_heap) (s : hslice) : Prop :=
  hs_len s <= hs_cap s /\
  (hs_cap s = 0 \/
   (hs_arr s < length h /\ hs_off s + hs_cap s <= length (hp_arr h (hs_arr s)))).

Lemma wf_in h t : hs_wf h t -> hs_in 0 (length h) t.
Proof. intros [Hl [Hc|[Ha _]]]; split; try exact Hl; [left; exact Hc|right; lia]. Qed.

Lemma wf_read_len g t : hs_wf g t -> length (h_read t g) = hs_len t.
Proof.
  intros [Hl [Hc|[Ha Hb]]]; unfold h_read; rewrite firstn_length, skipn_length; lia.
Qed.

Lemma wf_keeps h h' t : hp_keeps (length h) h h' -> hs_wf h t -> hs_wf h' t.
Proof.
  intros [K L] [Hl [Hc|[Ha Hb]]]; split; try exact Hl; [left; exact Hc|right].
  rewrite (arr_prefix _ _ _ _ K Ha). split; lia.
Qed.

Lemma wf_ext h l t : hs_wf h t -> hs_wf (h ++ l) t.
Proof. apply wf_keeps, keeps_app, le_n. Qed.

Lemma caller_slice_wf h s : caller_slice h s <-> hs_wf h s.
Proof.
  unfold caller_slice, hs_wf, hp_arr. split; intros [Hl Hc]; (split; [exact Hl|]).
  - destruct Hc as [Hc|(a & Ha & Hb)]; [left; exact Hc|right].
    split; [apply nth_error_Some; congruence|].
    rewrite (nth_error_nth _ _ [] Ha). exact Hb.
  - destruct Hc as [Hc|[Ha Hb]]; [left; exact Hc|right].
    exists (nth (hs_arr s) h []). split; [apply nth_error_nth'; exact Ha|exact Hb].
Qed.

Lemma get_old g h t i : hp_keeps (length g) g h -> hs_wf g t -> i < hs_len t ->
  h_get t i h = HpVal (nth i (h_read t g) 0%N) h.
Proof.
  intros [K _] [Hl [Hc|[Ha Hb]]] Hi; [lia|]. unfold h_get, h_read.
  apply Nat.ltb_lt in Hi as E. rewrite E, (arr_prefix _ _ _ _ K Ha).
  rewrite nth_firstn_lt by exact Hi. rewrite nth_skipn'.
  rewrite (nth_error_nth' _ 0%N) by lia. reflexivity.
Qed.

(* "s is the head of a chain": the heap still starts with g; s lives above g
   (or has no array); its window holds xs and is followed by spare room *)
Definition hp_hd (g : hp_heap) (s : hslice) (xs : list N) (h : hp_heap) : Prop :=
  firstn (length g) h = g /\ length g <= length h /\
  hs_len s <= hs_cap s /\ length xs = hs_len s /\
  (hs_cap s = 0 \/
   (length g <= hs_arr s /\ hs_arr s < length h /\
    exists pre tail, hp_arr h (hs_arr s) = pre ++ xs ++ tail /\
                     length pre = hs_off s /\ hs_cap s <= hs_len s + length tail)).

Lemma hd_keeps g s xs h : hp_hd g s xs h -> hp_keeps (length g) g h.
Proof. intros (Hg & Hl & _). split; [rewrite firstn_all; exact Hg|exact Hl]. Qed.

Lemma hd_len g s xs h : hp_hd g s xs h -> length xs = hs_len s.
Proof. intros H. apply H. Qed.

Lemma hd_read g s xs h : hp_hd g s xs h -> h_read s h = xs.
Proof.
  intros (_ & _ & Hl & Hx & [Hc|(_ & _ & pre & tail & Ha & Hp & _)]); unfold h_read.
  - assert (hs_len s = 0) as -> by lia. destruct xs; [reflexivity|cbn in Hx; lia].
  - rewrite Ha, <- Hp, skipn_app_length, <- Hx. apply firstn_app_length.
Qed.

Lemma hd_wf g s xs h : hp_hd g s xs h -> hs_wf h s.
Proof.
  intros (_ & _ & Hl & Hx & [Hc|(_ & Ha & pre & tail & He & Hp & Ht)]); split; try exact Hl.
  - left; exact Hc.
  - right. split; [exact Ha|]. rewrite He, !app_length. lia.
Qed.

Lemma hd_ext g s xs h a : hp_hd g s xs h -> hp_hd g s xs (h ++ [a]).
Proof.
  intros (Hg & Hgl & Hl & Hx & Hc). repeat split; try assumption.
  - rewrite firstn_app_le by exact Hgl. exact Hg.
  - rewrite app_length. lia.
  - destruct Hc as [Hc|(H1 & H2 & pre & tail & He & Hp & Ht)]; [left; exact Hc|right].
    split; [exact H1|]. split; [rewrite app_length; lia|].
    exists pre, tail. rewrite hp_arr_app_old by exact H2. repeat split; assumption.
Qed.

Lemma hd_nil g h : hp_keeps (length g) g h -> hp_hd g hs_nil [] h.
Proof.
  intros K. split; [exact (keeps_all _ _ K)|]. split; [apply K|].
  cbn [hs_nil hs_len hs_cap length]. split; [lia|]. split; [reflexivity|]. left. reflexivity.
Qed.

Lemma hd_new g h a pre xs tail off len c : hp_keeps (length g) g h -> a = pre ++ xs ++ tail ->
  off = length pre -> len = length xs -> len <= c -> c <= len + length tail ->
  hp_hd g (mkhs (length h) off len c) xs (h ++ [a]).
Proof.
  intros K -> -> -> Hc1 Hc2. pose proof (proj2 K) as L.
  split; [rewrite firstn_app_le by exact L; exact (keeps_all _ _ K)|].
  split; [rewrite app_length; lia|]. cbn [hs_len hs_cap hs_arr hs_off].
  split; [exact Hc1|]. split; [reflexivity|]. right. split; [exact L|].
  split; [rewrite app_length; cbn [length]; lia|].
  exists pre, tail. rewrite hp_arr_app_new. repeat split. exact Hc2.
Qed.

Lemma hd_sub g s xs h lo hi : hp_hd g s xs h -> lo <= hi -> hi <= hs_len s ->
  hp_hd g (mkhs (hs_arr s) (hs_off s + lo) (hi - lo) (hs_cap s - lo))
        (firstn (hi - lo) (skipn lo xs)) h.
Proof.
  intros (Hg & Hgl & Hl & Hx & Hc) Hlo Hhi.
  split; [exact Hg|]. split; [exact Hgl|]. cbn [hs_len hs_cap hs_arr hs_off].
  split; [lia|]. split; [rewrite firstn_length, skipn_length; lia|].
  destruct Hc as [Hc|(H1 & H2 & pre & tail & He & Hp & Ht)]; [left; lia|right].
  split; [exact H1|]. split; [exact H2|].
  exists (pre ++ firstn lo xs), (skipn (hi - lo) (skipn lo xs) ++ tail).
  split; [|split].
  - rewrite He. rewrite <- app_assoc. f_equal.
    rewrite (app_assoc (firstn (hi - lo) (skipn lo xs))). rewrite firstn_skipn.
    rewrite app_assoc. rewrite firstn_skipn. reflexivity.
  - rewrite app_length, firstn_length. lia.
  - rewrite app_length, !skipn_length. lia.
Qed.

Lemma arr_write_mid (A B C ys : list N) p : p = length A -> length ys = length B ->
  arr_write (A ++ B ++ C) p ys = A ++ ys ++ C.
Proof.
  intros -> Hy. unfold arr_write. rewrite firstn_app_length.
  rewrite skipn_app, skipn_all2 by lia. cbn [app].
  replace (length A + length ys - length A) with (length B) by lia.
  rewrite skipn_app_length. reflexivity.
Qed.

Lemma hd_append_inplace g s xs ys h : hp_hd g s xs h -> 1 <= length ys ->
  hs_len s + length ys <= hs_cap s ->
  hp_hd g (mkhs (hs_arr s) (hs_off s) (hs_len s + length ys) (hs_cap s)) (xs ++ ys)
        (hp_store s (hs_len s) ys h).
Proof.
  intros (Hg & Hgl & Hl & Hx & Hc) Hy Hfit.
  destruct Hc as [Hc|(H1 & H2 & pre & tail & He & Hp & Ht)]; [lia|].
  unfold hp_store. rewrite He.
  assert (Er : pre ++ xs ++ tail = (pre ++ xs) ++ firstn (length ys) tail ++ skipn (length ys) tail)
    by (rewrite firstn_skipn, <- app_assoc; reflexivity).
  rewrite Er. rewrite arr_write_mid by (rewrite ?app_length, ?firstn_length; lia).
  repeat split; cbn [hs_len hs_cap hs_arr hs_off].
  - rewrite hp_upd_firstn by exact H1. exact Hg.
  - rewrite hp_upd_length. exact Hgl.
  - exact Hfit.
  - rewrite app_length. lia.
  - right. split; [exact H1|]. split; [rewrite hp_upd_length; exact H2|].
    exists pre, (skipn (length ys) tail). rewrite hp_arr_upd_same by exact H2.
    split; [repeat rewrite <- app_assoc; reflexivity|]. split; [exact Hp|].
    rewrite skipn_length. lia.
Qed.

Lemma tr_append_hd gr g s xs ys :
  hp_tr (hp_hd g s xs) (h_append gr s ys) (fun s' => hp_hd g s' (xs ++ ys)).
Proof.
  intros h Hh. unfold h_append. destruct ys as [|y ys'].
  - exists s, h. split; [reflexivity|]. rewrite app_nil_r. exact Hh.
  - remember (y :: ys') as ys eqn:Hys.
    assert (Hy : 1 <= length ys) by (subst ys; cbn; lia).
    pose proof (hd_len _ _ _ _ Hh) as Hx.
    destruct (hs_len s + length ys <=? hs_cap s) eqn:E; (eexists _, _; split; [reflexivity|]).
    + apply Nat.leb_le in E. apply hd_append_inplace; assumption.
    + rewrite (hd_read _ _ _ _ Hh).
      apply (hd_new g h _ [] (xs ++ ys) (repeat 0%N (gr (hs_len s + length ys))));
        [exact (hd_keeps _ _ _ _ Hh)|apply app_assoc|reflexivity| | |];
        rewrite ?app_length, ?repeat_length; lia.
Qed.

(* the program says len(s) where the content of s is known *)
Lemma tr_len {A} g s xs (m : nat -> hpM A) (Q : A -> hp_heap -> Prop) :
  hp_tr (hp_hd g s xs) (m (length xs)) Q -> hp_tr (hp_hd g s xs) (m (hs_len s)) Q.
Proof. intros H h Hh. rewrite <- (hd_len _ _ _ _ Hh). exact (H h Hh). Qed.

Lemma tr_get {B} g s l1 a l3 i (K : N -> hpM B) (Q : B -> hp_heap -> Prop) : i = length l1 ->
  hp_tr (hp_hd g s (l1 ++ a :: l3)) (K a) Q ->
  hp_tr (hp_hd g s (l1 ++ a :: l3)) (hdo x <- h_get s i; K x) Q.
Proof.
  intros -> HK. eapply tr_pure; [|exact HK].
  intros h (_ & _ & Hl & Hx & Hc). rewrite app_length in Hx. cbn [length] in Hx. unfold h_get.
  replace (length l1 <? hs_len s) with true by (symmetry; apply Nat.ltb_lt; lia).
  destruct Hc as [Hc|(_ & _ & pre & tail & He & Hp & _)]; [lia|].
  rewrite He, <- Hp, <- app_length.
  replace (pre ++ (l1 ++ a :: l3) ++ tail) with ((pre ++ l1) ++ a :: l3 ++ tail)
    by (rewrite <- !app_assoc; reflexivity).
  rewrite (nth_error_nth' _ 0%N) by (rewrite !app_length; cbn [length]; lia).
  rewrite nth_middle. reflexivity.
Qed.

Lemma tr_set g s l1 a l3 v i : i = length l1 ->
  hp_tr (hp_hd g s (l1 ++ a :: l3)) (h_set s i v) (fun _ => hp_hd g s (l1 ++ v :: l3)).
Proof.
  intros -> h (Hg & Hgl & Hl & Hx & Hc). rewrite app_length in Hx. cbn [length] in Hx.
  destruct Hc as [Hc|(H1 & H2 & pre & tail & He & Hp & Ht)]; [lia|].
  unfold h_set. replace (length l1 <? hs_len s) with true by (symmetry; apply Nat.ltb_lt; lia).
  eexists _, _. split; [reflexivity|]. unfold hp_store. rewrite He.
  replace (pre ++ (l1 ++ a :: l3) ++ tail) with ((pre ++ l1) ++ [a] ++ l3 ++ tail)
    by (rewrite <- !app_assoc; reflexivity).
  rewrite arr_write_mid by (rewrite ?app_length; cbn [length]; lia).
  split; [rewrite hp_upd_firstn by exact H1; exact Hg|]. split; [rewrite hp_upd_length; exact Hgl|].
  split; [exact Hl|]. split; [rewrite app_length; exact Hx|]. right.
  split; [exact H1|]. split; [rewrite hp_upd_length; exact H2|].
  exists pre, tail. rewrite hp_arr_upd_same by exact H2. rewrite <- !app_assoc.
  repeat split; assumption.
Qed.

Lemma tr_load_hd {B} g s xs (K : list N -> hpM B) (Q : B -> hp_heap -> Prop) :
  hp_tr (hp_hd g s xs) (K xs) Q -> hp_tr (hp_hd g s xs) (hdo x <- hp_load s; K x) Q.
Proof.
  intros HK. eapply tr_pure; [|exact HK]. intros h Hh. unfold hp_load.
  rewrite (hd_read _ _ _ _ Hh). reflexivity.
Qed.

Lemma tr_load_old {B} g s xs t (K : list N -> hpM B) (Q : B -> hp_heap -> Prop) : hs_wf g t ->
  hp_tr (hp_hd g s xs) (K (h_read t g)) Q -> hp_tr (hp_hd g s xs) (hdo x <- hp_load t; K x) Q.
Proof.
  intros Ht HK. eapply tr_pure; [|exact HK]. intros h Hh. unfold hp_load.
  rewrite (keeps_read _ _ _ (hd_keeps _ _ _ _ Hh) (wf_in _ _ Ht)). reflexivity.
Qed.

Lemma slice_ok s lo hi h : lo <= hi -> hi <= hs_cap s ->
  h_slice s lo hi h = HpVal (mkhs (hs_arr s) (hs_off s + lo) (hi - lo) (hs_cap s - lo)) h.
Proof.
  intros H1 H2. unfold h_slice. apply Nat.leb_le in H1, H2. rewrite H1, H2. reflexivity.
Qed.

Lemma tr_slice {B} g s xs lo hi (K : hslice -> hpM B) (Q : B -> hp_heap -> Prop) :
  lo <= hi -> hi <= length xs ->
  (forall t, hp_tr (hp_hd g t (firstn (hi - lo) (skipn lo xs))) (K t) Q) ->
  hp_tr (hp_hd g s xs) (hdo t <- h_slice s lo hi; K t) Q.
Proof.
  intros H1 H2 HK h Hh. pose proof (hd_len _ _ _ _ Hh) as Hl.
  assert (Hc : hs_len s <= hs_cap s) by apply Hh.
  unfold hp_bind. rewrite slice_ok by lia. apply HK. apply hd_sub; [exact Hh|lia|lia].
Qed.

Lemma make_copy_eq {B} n xs (K : hslice -> hpM B) h :
  (hdo b <- h_make n n; hdo _ <- h_copy b xs; K b) h =
  K (mkhs (length h) 0 n n) (h ++ [firstn n xs ++ repeat 0%N (n - length xs)]).
Proof.
  unfold hp_bind, h_make, h_copy. rewrite Nat.ltb_irrefl. cbn [hs_len]. f_equal.
  unfold hp_store. cbn [hs_arr hs_off]. rewrite hp_arr_app_new, hp_upd_app_new. do 2 f_equal.
  unfold arr_write. cbn [firstn app Nat.add]. f_equal.
  rewrite firstn_length. set (k := Nat.min n (length xs)).
  replace (n - length xs) with (n - k) by lia. clearbody k. revert k.
  induction n as [|n IH]; intros [|k]; cbn [repeat skipn Nat.sub]; try reflexivity. apply IH.
Qed.

Lemma fresh_bytes_eq bs h :
  hp_fresh_bytes bs h = HpVal (mkhs (length h) 0 (length bs) (length bs)) (h ++ [bs]).
Proof.
  unfold hp_fresh_bytes. rewrite make_copy_eq, firstn_all, Nat.sub_diag. cbn [repeat].
  rewrite app_nil_r. reflexivity.
Qed.

Lemma tr_fresh_start g bs : hp_tr (eq g) (hp_fresh_bytes bs) (fun p => hp_hd g p bs).
Proof.
  intros h <-. eexists _, _. split; [apply fresh_bytes_eq|].
  apply (hd_new g g bs [] bs []); try reflexivity;
    [apply keeps_refl|symmetry; apply app_nil_r|cbn [length]; lia].
Qed.

Lemma tr_fresh_load {B} g s xs bs (K : list N -> hpM B) (Q : B -> hp_heap -> Prop) :
  hp_tr (hp_hd g s xs) (K bs) Q ->
  hp_tr (hp_hd g s xs) (hdo t <- hp_fresh_bytes bs; hdo x <- hp_load t; K x) Q.
Proof.
  intros HK h Hh. destruct (HK (h ++ [bs]) (hd_ext _ _ _ _ bs Hh)) as (b & h2 & E & Hq).
  exists b, h2. split; [|exact Hq].
  unfold hp_bind at 1. rewrite fresh_bytes_eq. unfold hp_bind, hp_load, h_read.
  cbn [hs_len hs_off hs_arr]. rewrite hp_arr_app_new. cbn [skipn]. rewrite firstn_all. exact E.
Qed.

Lemma tr_make0 g c : hp_tr (eq g) (h_make 0 c) (fun s => hp_hd g s []).
Proof.
  intros h <-. unfold h_make. cbn [Nat.ltb Nat.leb]. eexists _, _. split; [reflexivity|].
  apply (hd_new g g _ [] [] (repeat 0%N c)); try reflexivity;
    [apply keeps_refl|lia|rewrite repeat_length; lia].
Qed.

Lemma tr_swap_loop g s fuel : forall pre rest i, i = length pre ->
  Nat.even (length rest) = true -> length rest <= fuel ->
  hp_tr (hp_hd g s (pre ++ rest)) (hp_swap_loop fuel s i)
        (fun _ => hp_hd g s (pre ++ swap_pairs rest)).
Proof.
  induction fuel as [|f IH]; intros pre rest i -> Hev Hf.
  - destruct rest; [|cbn in Hf; lia]. cbn [hp_swap_loop swap_pairs]. apply tr_ret. auto.
  - cbn [hp_swap_loop]. apply tr_peek. intros h0 Hh0. pose proof (hd_len _ _ _ _ Hh0) as Hx.
    rewrite app_length in Hx.
    destruct rest as [|a [|c post]]; [|discriminate Hev|]; cbn [length] in Hx.
    + replace (length pre <? hs_len s) with false by (symmetry; apply Nat.ltb_ge; lia).
      cbn [swap_pairs]. apply tr_ret. auto.
    + replace (length pre <? hs_len s) with true by (symmetry; apply Nat.ltb_lt; lia).
      apply tr_get; [reflexivity|].
      change (pre ++ a :: c :: post) with (pre ++ [a] ++ c :: post). rewrite app_assoc.
      apply tr_get; [rewrite app_length; reflexivity|]. rewrite <- app_assoc.
      eapply tr_bind; [apply (tr_set g s pre a (c :: post) c); reflexivity|]. intros []. cbv beta.
      eapply tr_bind.
      { change (pre ++ c :: c :: post) with (pre ++ [c] ++ c :: post). rewrite app_assoc.
        apply (tr_set g s (pre ++ [c]) c post a). rewrite app_length. reflexivity. }
      intros []. eapply tr_pre; [|eapply tr_post; [apply (IH (pre ++ [c; a]) post)|]].
      * intros h Hh. rewrite <- !app_assoc in *. exact Hh.
      * rewrite app_length. reflexivity.
      * exact Hev.
      * cbn [length] in Hf. lia.
      * intros u h Hh. cbn [swap_pairs]. rewrite <- app_assoc in Hh. exact Hh.
Qed.

Definition hp_padded (bs : list N) : list N := if Nat.odd (length bs) then bs ++ [0%N] else bs.

Lemma hp_padded_even bs : Nat.even (length (hp_padded bs)) = true.
Proof.
  unfold hp_padded. destruct (Nat.odd (length bs)) eqn:E.
  - rewrite app_length. cbn [length]. rewrite Nat.add_1_r, Nat.even_succ. exact E.
  - rewrite <- Nat.negb_odd, E. reflexivity.
Qed.

Lemma image_padded cfg raw bs :
  write_bytes_image cfg raw bs = if hp_swaps cfg raw then swap_pairs (hp_padded bs) else hp_padded bs.
Proof.
  unfold write_bytes_image, hp_swaps, hp_padded. destruct raw, (c_endian cfg); reflexivity.
Qed.

Lemma tr_swap_if g s xs (c : bool) : (c = true -> Nat.even (length xs) = true) ->
  hp_tr (hp_hd g s xs) (if c then hp_swap_loop (hs_len s) s 0 else hp_ret tt)
        (fun _ => hp_hd g s (if c then swap_pairs xs else xs)).
Proof.
  intros Hev. destruct c; [|apply tr_ret; auto].
  apply (tr_len g s xs (fun n => hp_swap_loop n s 0)).
  apply (tr_swap_loop g s (length xs) [] xs 0); [reflexivity|apply Hev; reflexivity|lia].
Qed.

Lemma tr_write_bytes_prep gr cfg raw g values : hs_wf g values ->
  hp_tr (eq g) (hp_write_bytes_prep gr cfg raw values)
        (fun v => hp_hd g v (write_bytes_image cfg raw (h_read values g))).
Proof.
  intros Hv. unfold hp_write_bytes_prep. set (V := h_read values g).
  tr_step tr_make0.
  eapply tr_load_old; [exact Hv|]. fold V.
  eapply tr_bind; [apply tr_append_hd|]. intros v1. cbn [app].
  eapply tr_bind with (Q := fun v2 => hp_hd g v2 (hp_padded V)).
  { apply (tr_len g v1 V (fun n => if Nat.odd n then h_append gr v1 [0%N] else hp_ret v1)).
    unfold hp_padded. destruct (Nat.odd (length V)); [apply tr_append_hd|apply tr_ret; auto]. }
  intros v2. rewrite image_padded.
  eapply tr_bind; [apply tr_swap_if; intros _; apply hp_padded_even|].
  intros []. apply tr_ret. auto.
Qed.

Definition hq_is (r : result hp_pdu) (rv : result pdu) (h' : hp_heap) : Prop :=
  match rv with
  | Ok p => exists q g', r = Ok q /\ hq_unit q = p_unit p /\ hq_fc q = p_fc p /\
                         hp_hd g' (hq_payload q) (p_payload p) h'
  | Err x => r = Err x
  | Panic => r = Panic
  | OutOfFuel => r = OutOfFuel
  end.

Lemma hq_is_ok q p g' h' : hq_unit q = p_unit p -> hq_fc q = p_fc p ->
  hp_hd g' (hq_payload q) (p_payload p) h' -> hq_is (Ok q) (Ok p) h'.
Proof. intros Hu Hf Hh. exists q, g'. auto. Qed.

(* the data is only ever the head of a chain the call has built: the heap
   that chain lives in is the heap the payload is built on *)
Lemma tr_write_payload gr g u fc a q bc data xs :
  hp_tr (hp_hd g data xs) (hp_write_payload gr u fc a q bc data)
        (fun r => hq_is r (Ok (mkpdu u fc (be16 a ++ be16 q ++ [bc] ++ xs)))).
Proof.
  apply tr_fix. intros g1 Hg1. rewrite <- (hd_read _ _ _ _ Hg1).
  pose proof (hd_wf _ _ _ _ Hg1) as Hd. unfold hp_write_payload.
  tr_step tr_fresh_start.
  apply tr_fresh_load.
  tr_step tr_append_hd.
  tr_step tr_append_hd.
  eapply tr_load_old; [exact Hd|].
  tr_step tr_append_hd.
  apply tr_ret. intros h Hh. repeat rewrite <- app_assoc in Hh.
  apply (hq_is_ok _ _ g1); [reflexivity|reflexivity|exact Hh].
Qed.

Lemma tr_write_registers gr cfg a g values xs :
  hp_tr (hp_hd g values xs) (hp_write_registers gr cfg a values)
        (fun r => hq_is r (req_write_regs cfg a xs)).
Proof.
  apply tr_peek. intros h0 Hh0. unfold hp_write_registers, req_write_regs.
  rewrite (lenN_of_len _ _ (hd_len _ _ _ _ Hh0)).
  destruct (246 <? _)%N; [apply tr_ret; intros; reflexivity|].
  destruct (_ / 2 =? 0)%N; [apply tr_ret; intros; reflexivity|].
  destruct (123 <? _)%N; [apply tr_ret; intros; reflexivity|].
  destruct (65535 <? _)%N; [apply tr_ret; intros; reflexivity|].
  apply tr_write_payload.
Qed.

Lemma tr_encode_loop gr cfg w g values : hs_wf g values ->
  forall k i payload acc, i + k = hs_len values ->
  hp_tr (hp_hd g payload acc) (hp_encode_loop gr cfg w values k i payload)
        (fun p => hp_hd g p (acc ++ flat_map (enc_value cfg w) (skipn i (h_read values g)))).
Proof.
  intros Hv. set (V := h_read values g).
  assert (HV : length V = hs_len values) by (apply wf_read_len; exact Hv).
  induction k as [|k IH]; intros i payload acc Hik; cbn [hp_encode_loop].
  - apply tr_ret. intros h Hh. rewrite skipn_all2 by lia. cbn [flat_map]. rewrite app_nil_r. exact Hh.
  - eapply tr_pure with (V := nth i V 0%N).
    { intros h Hh. apply get_old; [exact (hd_keeps _ _ _ _ Hh)|exact Hv|lia]. }
    apply tr_fresh_load.
    tr_step tr_append_hd.
    eapply tr_post; [apply IH; lia|]. intros p h Hh.
    rewrite (skipn_nth_cons V i 0%N) by lia. cbn [flat_map].
    rewrite <- app_assoc in Hh. rewrite Nat.add_1_r in Hh. exact Hh.
Qed.

Lemma tr_write_coils gr cfg a g values : hs_wf g values ->
  hp_tr (eq g) (hp_write_coils gr cfg a values)
        (fun r => hq_is r (client_request cfg (OpWriteCoils a (map hp_bool (h_read values g))))).
Proof.
  intros Hv. unfold hp_write_coils. cbn [client_request].
  rewrite (lenN_of_len (map hp_bool _) (hs_len values)) by (rewrite map_length; apply wf_read_len, Hv).
  destruct (1968 <? _)%N; [apply tr_ret; intros; reflexivity|].
  destruct (_ =? 0)%N; [apply tr_ret; intros; reflexivity|].
  destruct (1968 <? _)%N; [apply tr_ret; intros; reflexivity|].
  destruct (65535 <? _)%N; [apply tr_ret; intros; reflexivity|].
  (* encodeBools: one more array on top of g; the payload is built on top of that *)
  set (EB := encode_bools (map hp_bool (h_read values g))).
  eapply tr_bind with (Q := fun enc => hp_hd g enc EB).
  { intros h <-. apply (tr_fresh_start g _ g eq_refl). }
  intros enc. apply tr_peek. intros h0 Hh0.
  replace (lenN EB) with (N.of_nat (hs_len enc)) by (rewrite <- (hd_len _ _ _ _ Hh0); reflexivity).
  apply tr_write_payload.
Qed.

Definition hs_args_wf (o : hp_op) (h : hp_heap) : Prop :=
  match o with
  | HpWriteBytes _ _ s | HpWriteCoils _ s | HpWriteRegs _ _ s => hs_wf h s
  | HpOther _ => True
  end.

Lemma args_caller_wf o h : args_are_caller_slices o h <-> hs_args_wf o h.
Proof.
  unfold args_are_caller_slices. destruct o; cbn [op_slice hs_args_wf];
    try apply caller_slice_wf; tauto.
Qed.

Lemma args_wf_keeps o h h' : hp_keeps (length h) h h' -> hs_args_wf o h -> hs_args_wf o h'.
Proof. intros K. destruct o; cbn [hs_args_wf]; try exact id; apply wf_keeps, K. Qed.

Lemma value_op_keeps o h h' : hp_keeps (length h) h h' -> hs_args_wf o h ->
  hp_value_op o h' = hp_value_op o h.
Proof.
  intros K Ho. destruct o as [raw a s|a s|w a s|o']; cbn [hp_value_op hs_args_wf] in *;
    try rewrite (keeps_read _ _ _ K (wf_in _ _ Ho)); reflexivity.
Qed.

Lemma tr_request gr cfg o g : hs_args_wf o g ->
  hp_tr (eq g) (hp_request false gr cfg o)
        (fun r => hq_is r (client_request cfg (hp_value_op o g))).
Proof.
  intros Ho. destruct o as [raw a s|a s|w a s|o']; cbn [hp_request hp_value_op hs_args_wf] in *.
  - tr_step (tr_write_bytes_prep gr cfg raw g s Ho). apply tr_write_registers.
  - apply tr_write_coils. exact Ho.
  - eapply tr_bind.
    { eapply tr_pre; [|apply (tr_encode_loop gr cfg w g s Ho (hs_len s) 0 hs_nil [])].
      - intros h <-. apply hd_nil, keeps_refl.
      - reflexivity. }
    intros p. apply tr_write_registers.
  - destruct (client_request cfg o') as [req|x| |]; try (apply tr_ret; intros; reflexivity).
    tr_step tr_fresh_start.
    apply tr_ret. intros h Hh. apply (hq_is_ok _ _ g); [reflexivity|reflexivity|exact Hh].
Qed.

Definition value_frame (fr : framing) (txn : N) (p : pdu) : list N :=
  match fr with FMbap => assemble_mbap txn p | FRtu => assemble_rtu p end.

Lemma tr_assemble gr fr txn g q pl : hs_wf g (hq_payload q) -> h_read (hq_payload q) g = pl ->
  hp_tr (eq g) (hp_assemble gr fr txn q)
        (fun f h' => h_read f h' = value_frame fr txn (mkpdu (hq_unit q) (hq_fc q) pl) /\
                     h_read (hq_payload q) h' = pl).
Proof.
  intros Hw Hr.
  assert (Hl : N.of_nat (hs_len (hq_payload q)) = lenN pl).
  { symmetry. apply lenN_of_len. subst pl. apply wf_read_len. exact Hw. }
  assert (Hend : forall f xs h, hp_hd g f xs h -> h_read f h = xs /\ h_read (hq_payload q) h = pl).
  { intros f xs h Hh. split; [exact (hd_read _ _ _ _ Hh)|].
    rewrite (keeps_read _ _ _ (hd_keeps _ _ _ _ Hh) (wf_in _ _ Hw)). exact Hr. }
  destruct fr; cbn [hp_assemble value_frame].
  - tr_step tr_fresh_start.
    tr_step tr_append_hd.
    apply tr_fresh_load.
    tr_step tr_append_hd.
    tr_step tr_append_hd.
    tr_step tr_append_hd.
    eapply tr_load_old; [exact Hw|]. rewrite Hr.
    eapply tr_post; [apply tr_append_hd|]. intros f h Hh. cbn beta.
    unfold assemble_mbap. cbn [p_unit p_fc p_payload]. rewrite <- Hl.
    repeat rewrite <- app_assoc in Hh. exact (Hend _ _ _ Hh).
  - eapply tr_pre with (P' := hp_hd g hs_nil []); [intros h <-; apply hd_nil, keeps_refl|].
    tr_step tr_append_hd.
    tr_step tr_append_hd.
    eapply tr_load_old; [exact Hw|]. rewrite Hr.
    tr_step tr_append_hd.
    apply tr_load_hd.
    apply tr_fresh_load.
    eapply tr_post; [apply tr_append_hd|]. intros f h Hh. exact (Hend _ _ _ Hh).
Qed.

(* out = append(out, x), element by element *)
Lemma tr_append_each gr g xs : forall s acc,
  hp_tr (hp_hd g s acc) (hp_append_each gr s xs) (fun s' => hp_hd g s' (acc ++ xs)).
Proof.
  induction xs as [|x t IH]; intros s acc; cbn [hp_append_each].
  - apply tr_ret. intros h Hh. rewrite app_nil_r. exact Hh.
  - tr_step tr_append_hd.
    eapply tr_post; [apply IH|]. intros s2 h Hh. rewrite <- app_assoc in Hh. exact Hh.
Qed.

Lemma tr_rx_window n pre xs post src g : src = pre ++ xs ++ post -> length pre + length xs <= n ->
  hp_tr (eq g) (hdo b <- h_make n n; hdo _ <- h_copy b src;
                h_slice b (length pre) (length pre + length xs))
        (fun s => hp_hd g s xs).
Proof.
  intros -> Hn h <-. rewrite make_copy_eq, slice_ok by (cbn [hs_cap]; lia).
  eexists _, _. split; [reflexivity|]. cbn [hs_arr hs_off hs_cap].
  apply (hd_new g g _ pre xs (firstn (n - length (pre ++ xs)) post ++
                              repeat 0%N (n - length (pre ++ xs ++ post))));
    [apply keeps_refl| |reflexivity|lia|lia|].
  - rewrite (app_assoc pre xs post), firstn_app, <- !app_assoc.
    rewrite firstn_all2 by (rewrite app_length; lia). rewrite <- app_assoc. reflexivity.
  - rewrite !app_length, firstn_length, repeat_length. lia.
Qed.

Lemma hvp_rx_buffer fr txn res h :
  (fr = FRtu -> length (p_payload res) <= 252) ->
  exists payload h' g, hp_rx_buffer fr txn res h = HpVal payload h' /\
                       hp_hd g payload (p_payload res) h'.
Proof.
  intros Hb. destruct fr; cbn [hp_rx_buffer].
  - rewrite make_copy_eq. set (h1 := h ++ _).
    destruct (tr_rx_window (S (length (p_payload res))) [p_fc res] (p_payload res) []
                (p_fc res :: p_payload res) h1) with (h := h1) as (s & h' & E & Hhd);
      [rewrite app_nil_r; reflexivity|apply le_n|reflexivity|].
    exists s, h', h1. split; [exact E|exact Hhd].
  - specialize (Hb eq_refl).
    destruct (tr_rx_window 256 [p_unit res; p_fc res] (p_payload res)
                (crc_bytes ([p_unit res; p_fc res] ++ p_payload res)) (assemble_rtu res) h)
      with (h := h) as (s & h' & E & Hhd); [symmetry; apply app_assoc|cbn [length]; lia|reflexivity|].
    exists s, h', h. split; [exact E|exact Hhd].
Qed.

Lemma hvp_eop_not_ok req res v : exception_or_protocol req res = Ok v -> False.
Proof.
  unfold exception_or_protocol. destruct (p_fc res =? N.lor (p_fc req) 128)%N; [|discriminate].
  destruct (p_payload res) as [|c [|]]; discriminate.
Qed.

Lemma hvp_echo4_ok req res a b v : echo4 req res a b = Ok v -> v = VUnit.
Proof.
  unfold echo4. destruct (p_fc res =? p_fc req)%N.
  - destruct (list_eqb _ _); [|discriminate]. intros H. injection H as <-. reflexivity.
  - intros H. exfalso. eapply hvp_eop_not_ok. exact H.
Qed.

Lemma hvp_read_regs_ok req res q k v : validate_read_regs req res q k = Ok v ->
  exists bc data, p_payload res = bc :: data /\ k data = Ok v.
Proof.
  unfold validate_read_regs. destruct (p_fc res =? p_fc req)%N.
  - destruct (p_payload res) as [|bc data]; [discriminate|].
    destruct (negb _); [discriminate|]. destruct (negb _); [discriminate|].
    intros H. exists bc, data. split; [reflexivity|exact H].
  - intros H. exfalso. eapply hvp_eop_not_ok. exact H.
Qed.

Lemma hvp_bool_b2n l : map hp_bool (map N.b2n l) = l.
Proof.
  induction l as [|b t IH]; [reflexivity|]. cbn [map]. rewrite IH. destruct b; reflexivity.
Qed.

Definition hvp_is (v : values) : result hp_value -> hp_heap -> Prop :=
  fun r h' => spec_result_values h' r = Ok v.

(* res.payload[1:] *)
Lemma tr_payload_tail {B} g s bc data (K : hslice -> hpM B) (Q : B -> hp_heap -> Prop) :
  (forall t, hp_tr (hp_hd g t data) (K t) Q) ->
  hp_tr (hp_hd g s (bc :: data)) (hdo t <- h_slice s 1 (hs_len s); K t) Q.
Proof.
  intros HK. apply (tr_len g s (bc :: data) (fun n => hdo t <- h_slice s 1 n; K t)).
  apply tr_slice; [cbn [length]; lia|lia|]. cbn [length skipn].
  rewrite Nat.sub_succ, Nat.sub_0_r, firstn_all. exact HK.
Qed.

(* out = nil, then the decoded elements appended one by one *)
Lemma hvp_tr_out gr g s xs (l : list N) (mk : hslice -> hp_value) v :
  (forall out h, hp_hd g out l h -> hvp_is v (Ok (mk out)) h) ->
  hp_tr (hp_hd g s xs) (hdo out <- hp_append_each gr hs_nil l; hp_ret (Ok (mk out))) (hvp_is v).
Proof.
  intros Hv. eapply tr_pre; [intros h Hh; exact (hd_nil _ _ (hd_keeps _ _ _ _ Hh))|].
  eapply tr_bind; [apply tr_append_each|]. intros out. apply tr_ret. exact (Hv out).
Qed.

Lemma hvp_tr_nums gr g s xs (l : list N) :
  hp_tr (hp_hd g s xs) (hdo out <- hp_append_each gr hs_nil l; hp_ret (Ok (HvNums out)))
        (hvp_is (VNums l)).
Proof.
  apply hvp_tr_out. intros out h Hh. unfold hvp_is. cbn [spec_result_values].
  change (spec_contents h out) with (h_read out h). rewrite (hd_read _ _ _ _ Hh). reflexivity.
Qed.

(* readBytes after values = res.payload[1:]: the swap in place in the receive
   buffer, then the cut of the pad byte of an odd quantity *)
Lemma hvp_tr_bytes g values data (b : bool) q v :
  (if b && Nat.odd (length data) then Panic
   else let sw := if b then swap_pairs data else data in
        if (q mod 2 =? 1)%N
        then match sw with [] => Panic | _ => Ok (VBytes (firstn (length sw - 1) sw)) end
        else Ok (VBytes sw)) = Ok v ->
  hp_tr (hp_hd g values data)
        (hdo _ <- (if b then hp_swap_loop (hs_len values) values 0 else hp_ret tt);
         if (q mod 2 =? 1)%N then
           (if (hs_len values =? 0)%nat then hp_panic
            else hdo v' <- h_slice values 0 (hs_len values - 1); hp_ret (Ok (HvBytes v')))
         else hp_ret (Ok (HvBytes values)))
        (hvp_is v).
Proof.
  intros V. destruct (b && Nat.odd (length data)) eqn:Eo; [discriminate V|]. cbv zeta in V.
  eapply tr_bind.
  { apply tr_swap_if. intros ->. rewrite <- Nat.negb_odd. cbn [andb] in Eo. rewrite Eo. reflexivity. }
  intros []. set (sw := if b then swap_pairs data else data) in *.
  apply (tr_len g values sw (fun n => if (q mod 2 =? 1)%N then if n =? 0 then hp_panic
           else hdo v' <- h_slice values 0 (n - 1); hp_ret (Ok (HvBytes v')) else hp_ret (Ok (HvBytes values)))).
  destruct (q mod 2 =? 1)%N.
  - destruct sw as [|x sw']; [discriminate V|]. injection V as <-. cbn [length Nat.eqb].
    apply tr_slice; [lia|cbn [length]; lia|]. intros t.
    apply tr_ret. intros h Hh. unfold hvp_is. cbn [spec_result_values].
    change (spec_contents h t) with (h_read t h). rewrite (hd_read _ _ _ _ Hh).
    cbn [skipn]. rewrite Nat.sub_0_r. reflexivity.
  - injection V as <-. apply tr_ret. intros h Hh. unfold hvp_is. cbn [spec_result_values].
    change (spec_contents h values) with (h_read values h). rewrite (hd_read _ _ _ _ Hh). reflexivity.
Qed.

Lemma hvp_tr_build gr cfg o req res v g payload :
  client_validate cfg o req res = Ok v ->
  hp_tr (hp_hd g payload (p_payload res)) (hp_build_result gr cfg o payload) (hvp_is v).
Proof.
  intros V.
  assert (Hunit : v = VUnit -> hp_tr (hp_hd g payload (p_payload res)) (hp_ret (Ok HvUnit)) (hvp_is v)).
  { intros ->. apply tr_ret. intros; reflexivity. }
  destruct o as [di a q|w a q rt|raw a q rt|a b|a vs|a b|w a vs|raw a bs];
    cbn [hp_build_result client_validate] in *;
    try (apply Hunit; eapply hvp_echo4_ok; exact V); clear Hunit.
  - (* ReadCoils / ReadDiscreteInputs *)
    destruct (p_fc res =? p_fc req)%N; [|exfalso; eapply hvp_eop_not_ok; exact V].
    destruct (negb _); [discriminate V|].
    destruct (p_payload res) as [|bc data] eqn:Ep; [discriminate V|].
    destruct (negb _); [discriminate V|].
    unfold opt_result in V. destruct (decode_bools (N.to_nat q) data) as [l|] eqn:D; [|discriminate V].
    injection V as <-. apply tr_payload_tail. intros t. apply tr_load_hd. rewrite D.
    apply hvp_tr_out. intros out h Hh. unfold hvp_is. cbn [spec_result_values].
    change (spec_contents h out) with (h_read out h).
    rewrite (hd_read _ _ _ _ Hh), hvp_bool_b2n. reflexivity.
  - (* the register reads *)
    apply hvp_read_regs_ok in V as (bc & data & Ep & V). rewrite Ep.
    apply tr_payload_tail. intros t. apply tr_load_hd. unfold opt_result in V.
    destruct (w =? 1)%N; [|destruct (w =? 2)%N];
      match type of V with match ?d with Some _ => _ | None => _ end = _ =>
        destruct d as [l|]; [|discriminate V] end;
      injection V as <-; apply hvp_tr_nums.
  - (* ReadBytes / ReadRawBytes *)
    apply hvp_read_regs_ok in V as (bc & data & Ep & V). rewrite Ep.
    apply tr_payload_tail. intros t. apply (hvp_tr_bytes g t data (hp_swaps cfg raw) q v).
    unfold hp_swaps. destruct raw, (c_endian cfg); exact V.
Qed.

(* the outcome of a heap computation returning a result, as the caller sees
   it (a panic is caught by the public call) *)
Definition hvp_out (o : hp_out (result hp_value)) : result values :=
  match o with HpVal v h => spec_result_values h v | HpPanic _ => Panic end.

Lemma hvp_receive gr fr cfg txn vo req res h :
  (fr = FRtu -> length (p_payload res) <= 252) ->
  hvp_out (hp_receive gr fr cfg txn vo req res h) =
  match unit_check req res with
  | Some x => Err x
  | None => client_validate cfg vo req res
  end.
Proof.
  intros Hb. destruct (hvp_rx_buffer fr txn res h Hb) as (payload & h1 & g & E & Hhd).
  unfold hp_receive. unfold hp_bind at 1. rewrite E.
  destruct (unit_check req res); [reflexivity|].
  unfold hp_bind, hp_load. rewrite (hd_read _ _ _ _ Hhd).
  replace (mkpdu (p_unit res) (p_fc res) (p_payload res)) with res by (destruct res; reflexivity).
  destruct (client_validate cfg vo req res) as [v|x| |] eqn:V; try reflexivity.
  destruct (hvp_tr_build gr cfg vo req res v g payload V h1 Hhd) as (r & h2 & E2 & HQ).
  rewrite E2. exact HQ.
Qed.

(* the RTU transport never accepts more than fits its 256-byte buffer *)
Lemma rtu_response_len e s p s' : rtu_read_response e s = (Ok p, s') ->
  length (p_payload p) <= 252.
Proof.
  intros E. apply rtu_response_ok in E.
  destruct (read_rtu_cases e s _ _ E)
    as [_ [(x & Hx & _)|(u & fc & b2 & data & lo & hi & _ & _ & Hl & Hr)]]; [discriminate Hx|].
  destruct (crc_is_equal _ lo hi); [|discriminate Hr].
  injection Hr as ->. cbn [p_payload length]. unfold lenN in Hl. lia.
Qed.

(* the transaction id a call puts in its frame: the MBAP transport increments
   the counter before it sends (transport_exchange), the RTU frame carries none *)
Definition sent_txn (fr : framing) (txn : N) : N :=
  match fr with FMbap => u16 (txn + 1) | FRtu => txn end.

Lemma exchange_shape fr txn req e s :
  exists r rest,
    transport_exchange fr txn req e s = (r, [value_frame fr (sent_txn fr txn) req], rest, sent_txn fr txn) /\
    forall res, r = Ok res -> fr = FRtu -> length (p_payload res) <= 252.
Proof.
  destruct fr; cbn [transport_exchange value_frame sent_txn].
  - destruct (mbap_read_response _ _ _ _) as [r rest]. exists r, rest.
    split; [reflexivity|]. intros res _ H. discriminate H.
  - destruct (rtu_read_response e s) as [r rest] eqn:E. exists r, rest.
    split; [reflexivity|]. intros res -> _. eapply rtu_response_len. exact E.
Qed.

Lemma value_call_writes fr cfg txn o e s :
  cr_writes (client_call fr cfg txn o e s) =
  match client_request cfg o with
  | Ok req => [value_frame fr (sent_txn fr txn) req]
  | _ => []
  end.
Proof.
  unfold client_call. destruct (client_request cfg o) as [req|x| |]; try reflexivity.
  destruct (exchange_shape fr txn req e s) as (r & rest & -> & _).
  destruct r as [res|x| |]; try reflexivity. destruct (unit_check req res); reflexivity.
Qed.

Lemma values_prefix b n h h' r : hv_in b n r -> firstn n h' = firstn n h ->
  spec_result_values h' r = spec_result_values h r.
Proof.
  intros Hin E. unfold hv_in in Hin.
  destruct r as [[|t|t|t]|x| |]; cbn [spec_result_values hv_slices] in *; try reflexivity;
    apply Forall_inv, hs_in_weak in Hin; unfold spec_contents;
    rewrite (cells_prefix n h h' t _ E Hin (proj1 Hin)); reflexivity.
Qed.

Lemma hjp_call_nil gr fr cfg txn o e s h :
  hj_call gr fr cfg txn o e s [] [] h = hp_call gr fr cfg txn o e s h.
Proof.
  unfold hj_call, hp_call, hp_call_gen.
  destruct (hp_request false gr cfg o h) as [[q|x| |] h1|h1]; try reflexivity.
  destruct (hp_assemble _ _ _ _ h1) as [f h2|h2]; try reflexivity.
  destruct (transport_exchange _ _ _ _ _) as [[[r w] rest] t'].
  rewrite !app_nil_r. destruct r as [res|x| |]; try reflexivity.
  destruct (hp_receive _ _ _ _ _ _ _ h2) as [v h3|h3]; rewrite app_nil_r; reflexivity.
Qed.

Lemma hjp_call_frame gr fr cfg txn o e s j1 j2 h :
  hp_keeps (length h) h (snd (hj_call gr fr cfg txn o e s j1 j2 h)) /\
  hv_in (length h) (length (snd (hj_call gr fr cfg txn o e s j1 j2 h)))
        (hr_res (fst (hj_call gr fr cfg txn o e s j1 j2 h))).
Proof.
  unfold hj_call.
  destruct (fr_run h h _ _ (fr_request _ _ gr cfg o) (keeps_refl _ _)) as [K1 _].
  destruct (hp_request false gr cfg o h) as [[q|x| |] h1|h1]; cbn [hp_heap_of] in K1;
    cbn [fst snd hr_res]; try (split; [exact K1|apply Forall_nil]).
  fold (sent_txn fr txn).
  destruct (fr_run h h1 _ _ (fr_assemble _ _ gr fr (sent_txn fr txn) q) K1) as [K2 _].
  destruct (hp_assemble gr fr (sent_txn fr txn) q h1) as [f h2|h2]; cbn [hp_heap_of] in K2;
    cbn [fst snd hr_res]; [|split; [exact K2|apply Forall_nil]].
  assert (K3 : hp_keeps (length h) h (h2 ++ j1)) by (eapply keeps_trans; [exact K2|apply keeps_app, K2]).
  destruct (transport_exchange fr txn _ e s) as [[[r w] rest] t'].
  destruct r as [res|x| |]; cbn [fst snd hr_res]; try (split; [exact K3|apply Forall_nil]).
  set (rcv := hp_receive _ _ _ _ _ _ _).
  destruct (fr_run h (h2 ++ j1) rcv _ (fr_receive _ _ _ _ _ _ _ _ _) K3) as [K4 Q].
  destruct (rcv (h2 ++ j1)) as [v h3|h3]; cbn [hp_heap_of] in K4;
    cbn [fst snd hr_res]; (split; [eapply keeps_trans; [exact K4|apply keeps_app, K4]|]).
  - eapply Forall_impl; [|exact (Q _ _ eq_refl)].
    intros t Ht. eapply hs_in_mono; [exact Ht|rewrite app_length; lia].
  - apply Forall_nil.
Qed.

Lemma hjp_call_eq gr fr cfg txn o e s j1 j2 h : hs_args_wf o h ->
  spec_call_view (snd (hj_call gr fr cfg txn o e s j1 j2 h))
                 (fst (hj_call gr fr cfg txn o e s j1 j2 h)) =
  client_call fr cfg txn (hp_value_op o h) e s.
Proof.
  intros Ho. unfold hj_call, client_call.
  destruct (tr_request gr cfg o h Ho h eq_refl) as (rq & h1 & E1 & Hr). rewrite E1.
  destruct (client_request cfg (hp_value_op o h)) as [req|x| |]; cbn [hq_is] in Hr;
    try (subst rq; reflexivity).
  destruct Hr as (q & g' & -> & Hu & Hf & Hhd). fold (sent_txn fr txn).
  destruct (tr_assemble gr fr (sent_txn fr txn) h1 q (p_payload req) (hd_wf _ _ _ _ Hhd)
              (hd_read _ _ _ _ Hhd) h1 eq_refl) as (f & h2 & E2 & Hfr & Hpl).
  rewrite E2, Hpl, Hfr, Hu, Hf.
  replace (mkpdu (p_unit req) (p_fc req) (p_payload req)) with req by (destruct req; reflexivity).
  destruct (exchange_shape fr txn req e s) as (r0 & rest & Ex & Hlen). rewrite Ex.
  destruct r0 as [res|x| |]; try reflexivity.
  pose proof (hvp_receive gr fr cfg (sent_txn fr txn) (hp_value_op o h) req res (h2 ++ j1)
                (Hlen res eq_refl)) as R.
  pose proof (fr_receive 0 0 gr fr cfg (sent_txn fr txn) (hp_value_op o h) req res (h2 ++ j1)
                (Nat.le_0_l _) (Nat.le_0_l _)) as [_ Q3].
  destruct (hp_receive _ _ _ _ _ _ _ (h2 ++ j1)) as [v h3|h3]; cbn [hvp_out] in R;
    unfold spec_call_view; cbn [fst snd hr_res hr_writes hr_rest hr_txn spec_result_values].
  - rewrite (values_prefix 0 _ h3 (h3 ++ j2) v (Q3 _ _ eq_refl) (proj1 (keeps_app _ h3 j2 (le_n _)))), R.
    destruct (unit_check req res); reflexivity.
  - destruct (unit_check req res); rewrite <- R; reflexivity.
Qed.

Lemma call_frame gr fr cfg txn o e s h :
  hp_keeps (length h) h (snd (hp_call gr fr cfg txn o e s h)) /\
  hv_in (length h) (length (snd (hp_call gr fr cfg txn o e s h)))
        (hr_res (fst (hp_call gr fr cfg txn o e s h))).
Proof. rewrite <- hjp_call_nil. apply hjp_call_frame. Qed.

Lemma call_eq gr fr cfg txn o e s h : hs_args_wf o h ->
  spec_call_view (snd (hp_call gr fr cfg txn o e s h)) (fst (hp_call gr fr cfg txn o e s h)) =
  client_call fr cfg txn (hp_value_op o h) e s.
Proof. rewrite <- hjp_call_nil. apply hjp_call_eq. Qed.

Lemma call_writes gr fr cfg txn o e s h h' : hs_args_wf o h -> hp_keeps (length h) h h' ->
  hr_writes (fst (hp_call gr fr cfg txn o e s h')) =
  cr_writes (client_call fr cfg txn (hp_value_op o h) e s).
Proof.
  intros Ho K. rewrite <- (value_op_keeps o h h' K Ho).
  rewrite <- (call_eq gr fr cfg txn o e s h' (args_wf_keeps _ _ _ K Ho)). reflexivity.
Qed.

Lemma repeat_same_bytes gr fr cfg txn o e1 s1 e2 s2 h h' :
  hs_args_wf o h -> hp_keeps (length h) h h' ->
  hr_writes (fst (hp_call gr fr cfg txn o e2 s2 h')) =
  hr_writes (fst (hp_call gr fr cfg txn o e1 s1 h)).
Proof.
  intros Ho K. rewrite (call_writes _ _ _ _ _ _ _ h h' Ho K), (call_writes _ _ _ _ _ _ _ h h Ho (keeps_refl _ _)).
  rewrite !value_call_writes. reflexivity.
Qed.

Lemma repeat_same_body gr fr cfg txn1 txn2 o e1 s1 e2 s2 h h' :
  hs_args_wf o h -> hp_keeps (length h) h h' ->
  map (frame_body fr) (hr_writes (fst (hp_call gr fr cfg txn2 o e2 s2 h'))) =
  map (frame_body fr) (hr_writes (fst (hp_call gr fr cfg txn1 o e1 s1 h))).
Proof.
  intros Ho K. rewrite (call_writes _ _ _ _ _ _ _ h h' Ho K).
  rewrite (call_writes _ _ _ _ _ _ _ h h Ho (keeps_refl _ _)), !value_call_writes.
  destruct (client_request cfg (hp_value_op o h)); try reflexivity.
  cbn [map]. f_equal. destruct fr; reflexivity.
Qed.

Definition hc_inv (c : hp_client) : Prop :=
  Forall (hs_in 0 (length (hc_heap c))) (hc_results c).

Lemma results_grow b h h' new old : hp_keeps (length h) h h' -> Forall (hs_in b (length h')) new ->
  Forall (hs_in 0 (length h)) old -> Forall (hs_in 0 (length h')) (new ++ old).
Proof.
  intros [_ L] Hnew Hold. apply Forall_app. split; eapply Forall_impl; try eassumption.
  - intros s. apply hs_in_weak.
  - intros s Hs. eapply hs_in_mono; eassumption.
Qed.

Lemma step_frame gr fr c ev :
  hp_keeps (length (hc_heap c)) (hc_heap c) (hc_heap (hp_step gr fr c ev)) /\
  (hc_inv c -> hc_inv (hp_step gr fr c ev)).
Proof.
  unfold hc_inv. destruct ev as [xs|cfg o e chunk]; cbn [hp_step].
  - cbn [hc_heap hc_results]. assert (K := keeps_app _ (hc_heap c) [xs] (le_n _)).
    split; [exact K|]. exact (results_grow 0 _ _ [] _ K (Forall_nil _)).
  - pose proof (call_frame gr fr cfg (hc_txn c) o e (hc_left c ++ chunk) (hc_heap c)) as [K Q].
    destruct (hp_call gr fr cfg (hc_txn c) o e (hc_left c ++ chunk) (hc_heap c)) as [r h'].
    cbn [hc_heap hc_results fst snd] in *. split; [exact K|]. exact (results_grow _ _ _ _ _ K Q).
Qed.

Lemma run_frame gr fr evs c :
  hp_keeps (length (hc_heap c)) (hc_heap c) (hc_heap (hp_run gr fr c evs)).
Proof. apply fold_frame. intros c' ev. apply step_frame. Qed.

Lemma hp_run_inv gr fr evs c : hc_inv c -> hc_inv (hp_run gr fr c evs).
Proof. apply run_keeps. intros c' ev. apply step_frame. Qed.

Lemma results_stable gr fr c evs s k : hc_inv c -> In s (hc_results c) -> k <= hs_cap s ->
  firstn k (skipn (hs_off s) (hp_arr (hc_heap (hp_run gr fr c evs)) (hs_arr s))) =
  firstn k (skipn (hs_off s) (hp_arr (hc_heap c) (hs_arr s))).
Proof.
  intros Hc Hs Hk. apply (cells_prefix _ _ _ s k (proj1 (run_frame gr fr evs c))); [|exact Hk].
  exact (proj1 (Forall_forall _ _) Hc s Hs).
Qed.
