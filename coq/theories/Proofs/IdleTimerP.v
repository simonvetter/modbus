(* Idle expiry happens no earlier than the timeout after the last request
   read began, and a connection that stays idle is closed at that instant. *)
From Coq Require Import ZArith List Bool Lia.
Import ListNotations.
From Modbus Require Import Model.IdleTimer.
Local Open Scope Z_scope.

Definition idle_inv (timeout : Z) (s : idle_st) (last : option Z) : Prop :=
  id_reading s = true -> exists t, last = Some t /\ id_deadline s = t + timeout /\ t <= id_now s.

Lemma idle_inv_step timeout s e last :
  idle_inv timeout s last -> idle_ok timeout s e = true ->
  idle_inv timeout (idle_step timeout s e)
    (match e with IReadStart t => Some t | _ => last end).
Proof.
  intros I Hok. unfold idle_inv in *. destruct e as [t|t|t]; cbn [idle_step id_reading id_deadline id_now].
  - intros _. exists t. repeat split; lia.
  - discriminate.
  - discriminate.
Qed.

Lemma last_read_start_app tr e acc :
  last_read_start (tr ++ [e]) acc =
  match e with IReadStart t => Some t | _ => last_read_start tr acc end.
Proof.
  revert acc; induction tr as [|x tr IH]; intros acc; [destruct e; reflexivity|].
  destruct x; cbn [app last_read_start]; apply IH.
Qed.

Lemma idle_valid_snoc timeout tr : forall s e,
  idle_valid timeout s (tr ++ [e]) = true <->
  idle_valid timeout s tr = true /\ idle_ok timeout (idle_run timeout s tr) e = true.
Proof.
  induction tr as [|x tr IH]; intros s e; cbn [app idle_valid idle_run fold_left].
  - rewrite andb_true_r. tauto.
  - rewrite !andb_true_iff, IH. unfold idle_run. tauto.
Qed.

Lemma idle_inv_run timeout tr : forall s acc, idle_inv timeout s acc ->
  idle_valid timeout s tr = true ->
  idle_inv timeout (idle_run timeout s tr) (last_read_start tr acc).
Proof.
  induction tr as [|e tr IH]; intros s acc I V; [exact I|].
  cbn [idle_valid] in V. apply andb_true_iff in V as [Hok V].
  cbn [idle_run fold_left last_read_start].
  pose proof (idle_inv_step timeout s e acc I Hok) as I'.
  destruct e; apply (IH _ _ I' V).
Qed.

(* T5a: in every admissible history of a session, an idle expiry at time t
   satisfies t >= (start of the last request read) + timeout *)
Lemma idle_not_early timeout t0 tr t :
  idle_valid timeout (idle_init t0) (tr ++ [IExpire t]) = true ->
  exists r, last_read_start tr None = Some r /\ r + timeout <= t.
Proof.
  intros V. apply idle_valid_snoc in V as [Vtr Hok].
  assert (I0 : idle_inv timeout (idle_init t0) None) by (intros H; discriminate H).
  pose proof (idle_inv_run timeout tr _ _ I0 Vtr) as I.
  unfold idle_ok in Hok. apply andb_true_iff in Hok as [_ Hok].
  apply andb_true_iff in Hok as [Hok Hd]. apply andb_true_iff in Hok as [Hr Hn].
  destruct (I Hr) as (r & Hl & Hdl & _). exists r. split; [exact Hl|].
  apply Z.leb_le in Hd. lia.
Qed.

(* T5b: a connection that stays idle after its last read began can be closed
   at exactly that instant + timeout: the expiry is enabled then *)
Lemma idle_expiry_enabled timeout t0 tr r : 0 <= timeout ->
  idle_valid timeout (idle_init t0) (tr ++ [IReadStart r]) = true ->
  idle_valid timeout (idle_init t0) ((tr ++ [IReadStart r]) ++ [IExpire (r + timeout)]) = true.
Proof.
  intros Ht V. apply idle_valid_snoc. split; [exact V|].
  unfold idle_run. rewrite fold_left_app. cbn [fold_left idle_step].
  unfold idle_ok. cbn [id_ended id_reading id_now id_deadline negb andb].
  apply andb_true_iff. split; apply Z.leb_le; lia.
Qed.

Theorem idle_ended_is_final timeout s e : id_ended s = true -> idle_ok timeout s e = false.
Proof. intros H. unfold idle_ok. rewrite H. reflexivity. Qed.
