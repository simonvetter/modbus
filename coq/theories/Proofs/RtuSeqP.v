(* C06 over sessions on one RTU transport: every frame of the session ends with
   its own CRC-16 (bit-serial reference), whatever was sent before it, and a
   well-behaved device therefore answers every request of the session. Defines
   the hypotheses of Properties/C06d.v: rs_step_wf and rs_answered. *)
From Modbus Require Import Base.Bytes Model.Crc Model.Encoding Model.Wire Model.Client Model.RtuSeq
  Spec.ModbusSpec Spec.ClientSpec Spec.RtuSeqSpec Proofs.ClientReqP Proofs.ClientRespP.

Lemma ends_with_crcb_iff f : ends_with_crcb f = true <-> ends_with_crc f.
Proof.
  unfold ends_with_crcb, ends_with_crc. split.
  - intros H. apply andb_true_iff in H as [_ H]. apply list_eqb_eq in H.
    exists (firstn (length f - 2) f). rewrite <- H. symmetry. apply firstn_skipn.
  - intros [body ->]. rewrite app_length. cbn [length].
    replace (length body + 2 - 2)%nat with (length body) by lia.
    rewrite firstn_app_length, skipn_app_length.
    apply andb_true_iff. split.
    + apply Nat.leb_le. lia.
    + apply list_eqb_eq. reflexivity.
Qed.

Lemma spec_frame_rtu_crc t p : ends_with_crc (spec_frame FRtu t p).
Proof. exists ([p_unit p; p_fc p] ++ p_payload p). reflexivity. Qed.

Definition rs_step_wf (s : rs_step) : Prop :=
  match s with
  | RsCall o _ => op_wf o
  | RsCfg c => cfg_wf c
  end.

Lemma call_frames_crc cfg txn o e s : op_wf o -> cfg_wf cfg -> txn < 65536 ->
  Forall ends_with_crc (cr_writes (client_call FRtu cfg txn o e s)).
Proof.
  intros Hwf Hcfg Ht.
  destruct (client_transmit FRtu cfg txn o e s Hwf Hcfg Ht) as [Hv Hn].
  destruct (valid_op o) eqn:V.
  - rewrite (Hv eq_refl). constructor; [apply spec_frame_rtu_crc|constructor].
  - destruct (Hn eq_refl) as [-> _]. constructor.
Qed.

Lemma rtuseq_frames_crc : forall steps cfg left,
  cfg_wf cfg -> Forall rs_step_wf steps ->
  Forall (fun r => Forall ends_with_crc (cr_writes r)) (rtuseq_run cfg left steps).
Proof.
  induction steps as [|st t IH]; intros cfg left Hcfg Hs; cbn [rtuseq_run]; [constructor|].
  inversion Hs as [|? ? Hst Ht]; subst.
  destruct st as [o reply|c]; cbn [rs_step_wf] in Hst.
  - constructor.
    + apply call_frames_crc; [exact Hst|exact Hcfg|lia].
    + apply IH; assumption.
  - apply IH; assumption.
Qed.

(* the replies of a well-behaved device to the calls of a session: vss lists
   the values they deliver, in order *)
Fixpoint rs_answered (cfg : ccfg) (steps : list rs_step) (vss : list values) : Prop :=
  match steps with
  | [] => vss = []
  | RsCfg c :: t => cfg_wf c /\ rs_answered c t vss
  | RsCall o reply :: t =>
      match vss with
      | [] => False
      | vs :: vt =>
          op_wf o /\ valid_op o = true /\
          (exists res, bytesb (p_payload res) = true /\ answers cfg o res vs /\
                       reply = spec_frame FRtu 0 res) /\
          rs_answered cfg t vt
      end
  end.

Lemma rs_device_answers cfg o reply : op_wf o -> cfg_wf cfg -> valid_op o = true ->
  rs_device reply (cr_writes (client_call FRtu cfg 0 o Stall [])) = reply.
Proof.
  intros Hwf Hcfg V.
  assert (H0 : (0 < 65536)%N) by lia.
  destruct (client_transmit FRtu cfg 0 o Stall [] Hwf Hcfg H0) as [Hv _].
  cbv zeta in Hv. rewrite (Hv V). unfold rs_device. cbn [flat_map].
  rewrite (proj2 (ends_with_crcb_iff _) (spec_frame_rtu_crc _ _)). apply app_nil_r.
Qed.

Lemma rtuseq_all_succeed : forall steps cfg vss,
  cfg_wf cfg -> rs_answered cfg steps vss ->
  map cr_res (rtuseq_run cfg [] steps) = map (fun vs => Ok vs) vss.
Proof.
  induction steps as [|st t IH]; intros cfg vss Hcfg Ha; cbn [rtuseq_run rs_answered] in *.
  - subst vss. reflexivity.
  - destruct st as [o reply|c].
    + destruct vss as [|vs vt]; [contradiction|].
      destruct Ha as (Hwf & V & (res & Hb & Hans & ->) & Ht).
      rewrite (rs_device_answers cfg o _ Hwf Hcfg V). cbn [app].
      pose proof (client_complete_rtu cfg 0 o Stall res vs [] Hwf Hcfg V Hb Hans) as Hc.
      cbv zeta in Hc. rewrite app_nil_r in Hc. destruct Hc as [Hr Hrest].
      cbn [map]. rewrite Hr, Hrest. f_equal. apply IH; assumption.
    + destruct Ha as [Hc Ht]. apply IH; assumption.
Qed.
