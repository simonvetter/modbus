(* tcp_transport.go readMBAPFrame as translated from the Go source
   (Gen/SrcPure.v) computes the model's t_read_mbap (Model/Transport.v) on every
   world. *)
From Coq Require Import List NArith String Lia Bool.
Import ListNotations.
From Modbus Require Import Base.Bytes Model.GoLite Gen.SrcPure Model.Crc Model.Encoding.
From Modbus Require Import Model.Wire Model.Transport.
From Modbus Require Import Proofs.GoLiteP Proofs.GoLiteLinkP Proofs.SrcCrcP Proofs.SrcLinkP Proofs.SrcMiscP
  Proofs.SrcClientP Proofs.SrcTransportP.
Open Scope string_scope.
Open Scope N_scope.

Lemma len7 (l : list N) : List.length l = 7%nat -> exists h0 h1 h2 h3 h4 h5 h6, l = [h0; h1; h2; h3; h4; h5; h6].
Proof.
  intros H. destruct l as [|h0 [|h1 [|h2 [|h3 [|h4 [|h5 [|h6 [|? ?]]]]]]]]; try discriminate H.
  exists h0, h1, h2, h3, h4, h5, h6. reflexivity.
Qed.

Lemma run_readMBAPFrame fe fuel T tmo last w :
  tworld_hyp fe T "socket" -> tworld_wf T src_codes -> b2u16_hyp fe ->
  run_fn ge fe fuel src_fn_tcpTransport_readMBAPFrame [VN tmo; VN last; w] = out_read_mbap T tmo last w.
Proof.
  intros (_ & _ & _ & _ & Hrf & _) (_ & Hwf) Hb. cbn [append] in Hrf.
  run_body. unfold out_read_mbap, t_read_mbap.
  do 5 gl_stmt.
  (* _, err = io.ReadFull(tt.socket, rxbuf) *)
  pose proof (Hwf w 7) as H1. pose proof (Hrf w 7) as Hc1.
  destruct (t_readfull T w 7) as [[w1 hdr] e1]. destruct H1 as (Hb1 & Hl1 & He1 & _). unfold lenN in *.
  rewrite seq_assoc.
  erewrite seq_normal by (gl_arith; rewrite Hc1; gl_close).
  rewrite vbytes_zeros.
  erewrite seq_normal
    by (eapply exec_splice; [reflexivity|reflexivity|unfold lenN; rewrite repeat_length; lia..|reflexivity]).
  (* if err != nil *)
  gl_return. guard_cases E1; [reflexivity|].
  assert (Hn : List.length hdr = 7%nat) by lia.
  destruct (len7 hdr Hn) as (h0 & h1 & h2 & h3 & h4 & h5 & h6 & ->). clear Hl1 He1 Hn Hc1 E1.
  assert (Hlen : h4 * 256 + h5 < 65536) by (unfold bytesb, is_byte in Hb1; cbn [forallb] in Hb1; lia).
  unfold vbytes at 1. cbn [N.to_nat firstn List.length Nat.add skipn repeat app map nth].
  (* txnId, protocolId, unitId, bytesNeeded *)
  assert (Hw : forall x y, fe "bytesToUint16" [VN 1; VL [VN x; VN y]] = GOk [VN (x * 256 + y)])
    by (intros x y; exact (Hb BigE [x; y])).
  erewrite seq_normal by (gl_arith; rewrite Hw; gl_close).
  erewrite seq_normal by (gl_arith; rewrite Hw; gl_close).
  gl_stmt.
  erewrite seq_normal by (gl_arith; rewrite Hw; gl_close).
  generalize dependent (h4 * 256 + h5). intros len Hlen.
  (* bytesNeeded--; if bytesNeeded + 7 > 260; if bytesNeeded <= 0.
     bytesNeeded is a signed int: a length field of 0 makes it -1 *)
  destruct (N.eq_dec len 0) as [->|Hn].
  { gl_stmt. gl_return. gl_return. reflexivity. }
  gl_stmt.
  gl_return. replace (260 <? len - 1 + 7) with (254 <? len) by lia. guard_cases E254; [reflexivity|].
  gl_return. replace (len - 1 <=? 0) with (len <=? 1) by lia. guard_cases E1; [reflexivity|].
  (* rxbuf = make([]byte, bytesNeeded); _, err = io.ReadFull(tt.socket, rxbuf) *)
  gl_stmt.
  pose proof (Hwf w1 (len - 1)) as H2. pose proof (Hrf w1 (len - 1)) as Hc2.
  destruct (t_readfull T w1 (len - 1)) as [[w2 body] e2]. destruct H2 as (Hb2 & Hl2 & He2 & _). unfold lenN in *.
  rewrite seq_assoc.
  erewrite seq_normal by (gl_arith; rewrite Hc2; gl_close).
  rewrite vbytes_zeros.
  erewrite seq_normal
    by (eapply exec_splice; [reflexivity|reflexivity|unfold lenN; rewrite repeat_length; lia..|reflexivity]).
  (* if err != nil; if protocolId != 0 *)
  gl_return. guard_cases E2; [reflexivity|].
  gl_return. guard_cases Ep; [reflexivity|].
  (* the body fills rxbuf, and has at least one byte *)
  rewrite skipn_all2, app_nil_r by (rewrite repeat_length; lia). cbn [N.to_nat firstn app].
  destruct body as [|fc pl]; [cbn [List.length] in He2; lia|].
  (* p = &pdu{unitId: unitId, functionCode: rxbuf[0], payload: rxbuf[1:]} *)
  erewrite seq_normal.
  2:{ eapply exec_setmulti.
      - eapply evals_cons; [reflexivity|]. eapply evals_cons; [reflexivity|].
        eapply evals_cons; [eapply eval_index_b; reflexivity|].
        eapply evals_cons; [|reflexivity].
        eapply eval_slice_b; [reflexivity|reflexivity|apply eval_len_b; reflexivity|unfold lenN; cbn [List.length]; lia|lia].
      - reflexivity. }
  change (N.to_nat 1) with 1%nat. cbn [skipn]. rewrite firstn_all2 by (unfold lenN; cbn [List.length]; lia).
  replace e2 with 0 by lia. reflexivity.
Qed.

Print Assumptions run_readMBAPFrame.
