(* RTU inter-frame timing of the transport model (Model/Transport.v) on worlds
   with a clock; times are nanoseconds in uint64 words. The 64-bit arithmetic
   is exact for instants below 2^62 (146 years), t1 and t3.5 below 2^40 ns (18
   minutes; at 1 bps t1 is 11 s) and frames below 2^16 bytes: n * t1 < 2^56
   (prod_bound), instant + two delays < 2^63, where signed = unsigned compare. *)
From Coq Require Import List NArith Lia Bool.
Import ListNotations.
From Modbus Require Import Base.Bytes Model.Crc Model.Wire Model.GoLite Model.Transport.
Open Scope N_scope.

(* 64-bit two's complement (Model/Transport.v): the operations are unfolded and
   their [mod 2 ^ 64] left to lia *)
Ltac unf64 := unfold sub64, add64, mul64, w64, slt64, sbias, minus_one64 in *.

Lemma w64_small x : x < 2 ^ 64 -> w64 x = x.
Proof. intros; unf64; lia. Qed.

Lemma add64_small a b : a + b < 2 ^ 64 -> add64 a b = a + b.
Proof. intros; unf64; lia. Qed.

Lemma mul64_small a b : a * b < 2 ^ 64 -> mul64 a b = a * b.
Proof. intros; unf64. apply N.mod_small; assumption. Qed.

Lemma sub64_ge a b : a < 2 ^ 64 -> b <= a -> sub64 a b = a - b.
Proof. intros; unf64; lia. Qed.

Lemma sub64_lt a b : b < 2 ^ 64 -> a < b -> sub64 a b = 2 ^ 64 - (b - a).
Proof. intros; unf64; lia. Qed.

Lemma slt64_pos d : d < 2 ^ 64 -> slt64 0 d = (0 <? d) && (d <? 2 ^ 63).
Proof. intros; unf64; lia. Qed.

(* the Go idiom [t := a.Sub(b); if t < 0 { Sleep(-t) }] on instants below 2^63 *)
Lemma slt64_sub a b : a < 2 ^ 63 -> b < 2 ^ 63 -> slt64 (sub64 a b) 0 = (a <? b).
Proof.
  intros Ha Hb. destruct (N.ltb_spec a b).
  - rewrite sub64_lt by lia. unf64. lia.
  - rewrite sub64_ge by lia. unf64. lia.
Qed.

Lemma neg_sub64 a b : b < 2 ^ 64 -> a < b -> mul64 (sub64 a b) minus_one64 = b - a.
Proof. intros Hb H. rewrite sub64_lt by lia. unf64. lia. Qed.

Lemma prod_bound n t : n < 2 ^ 16 -> t < 2 ^ 40 -> n * t < 2 ^ 56.
Proof. intros; nia. Qed.

Lemma clock_of_mk c l : clock_of (mkclock c l) = c.
Proof. reflexivity. Qed.

Lemma log_of_mk c l : log_of (mkclock c l) = l.
Proof. reflexivity. Qed.

Definition sleep_cw (w : val) (d : N) : val :=
  if slt64 0 d then mkclock (add64 (clock_of w) d) (log_of w) else w.

Lemma sleep_cw_eq sc w d : t_sleep (clock_world sc) w d = sleep_cw w d.
Proof. reflexivity. Qed.

Lemma log_of_sleep w d : log_of (sleep_cw w d) = log_of w.
Proof. unfold sleep_cw. destruct (slt64 0 d); reflexivity. Qed.

Lemma sleep_cw_pos w d : 0 < d -> d < 2 ^ 63 -> clock_of w + d < 2 ^ 64 ->
  sleep_cw w d = mkclock (clock_of w + d) (log_of w).
Proof.
  intros H0 Hd Hc. unfold sleep_cw. rewrite slt64_pos, add64_small by lia.
  replace ((0 <? d) && (d <? 2 ^ 63)) with true by lia. reflexivity.
Qed.

Lemma sleep_mk c l d : d < 2 ^ 63 -> c + d < 2 ^ 64 -> sleep_cw (mkclock c l) d = mkclock (c + d) l.
Proof.
  intros Hd Hc. destruct (N.eq_dec d 0) as [-> | Hz].
  - unfold sleep_cw. rewrite slt64_pos, N.add_0_r by lia. reflexivity.
  - rewrite sleep_cw_pos by (rewrite ?clock_of_mk; lia). reflexivity.
Qed.

Definition wait_cw (la t35 : N) (w : val) : val :=
  let t := sub64 (clock_of w) (add64 la t35) in
  if slt64 t 0 then sleep_cw w (mul64 t minus_one64) else w.

Lemma wait_cw_eq la t35 w : clock_of w < 2 ^ 62 -> la < 2 ^ 62 -> t35 < 2 ^ 40 ->
  wait_cw la t35 w = if clock_of w <? la + t35 then mkclock (la + t35) (log_of w) else w.
Proof.
  intros Hc Hla Ht. unfold wait_cw. cbv zeta.
  rewrite (add64_small la t35), slt64_sub by lia.
  destruct (N.ltb_spec (clock_of w) (la + t35)); [|reflexivity].
  rewrite neg_sub64, sleep_cw_pos by lia. f_equal. lia.
Qed.

Lemma log_of_wait la t35 w : log_of (wait_cw la t35 w) = log_of w.
Proof. unfold wait_cw. cbv zeta. destruct (slt64 _ 0); [apply log_of_sleep | reflexivity]. Qed.

Lemma clock_of_wait la t35 w :
  clock_of w < 2 ^ 62 -> la < 2 ^ 62 -> t35 < 2 ^ 40 ->
  clock_of (wait_cw la t35 w) = N.max (clock_of w) (la + t35).
Proof.
  intros Hc Hla Ht. rewrite wait_cw_eq by assumption.
  destruct (N.ltb_spec (clock_of w) (la + t35)); [rewrite clock_of_mk|]; lia.
Qed.

Lemma wait_mk la t35 c l :
  c < 2 ^ 62 -> la < 2 ^ 62 -> t35 < 2 ^ 40 ->
  wait_cw la t35 (mkclock c l) = mkclock (N.max c (la + t35)) l.
Proof.
  intros Hc Hla Ht. rewrite wait_cw_eq, clock_of_mk, log_of_mk by assumption.
  destruct (N.ltb_spec c (la + t35)); f_equal; lia.
Qed.

Lemma read_rtu_silent C sc w :
  sc <> 0 -> sc <> c_ueof C -> t_read_rtu (clock_world sc) C w = (w, None, sc).
Proof.
  intros H0 Hu. unfold t_read_rtu. cbn [clock_world t_readfull].
  change (3 =? 0) with false. cbv iota.
  change (lenN (@nil N)) with 0.
  replace (sc =? 0) with false by lia.
  replace (sc =? c_ueof C) with false by lia.
  reflexivity.
Qed.

Lemma sleep_after_frame tw n t1 t35 l :
  tw < 2 ^ 63 -> n < 2 ^ 16 -> t1 < 2 ^ 40 -> t35 < 2 ^ 40 ->
  add64 tw (mul64 (w64 n) t1) = tw + n * t1 /\
  sleep_cw (mkclock tw l) (sub64 (add64 (add64 tw (mul64 (w64 n) t1)) t35) tw)
  = mkclock (tw + n * t1 + t35) l.
Proof.
  intros Htw Hn Ht1 Ht35.
  pose proof (prod_bound n t1 Hn Ht1) as Hp.
  rewrite w64_small, mul64_small, (add64_small tw) by lia.
  split; [reflexivity|].
  rewrite add64_small, sub64_ge by lia.
  replace (tw + n * t1 + t35 - tw) with (n * t1 + t35) by lia.
  rewrite sleep_mk by lia. f_equal. lia.
Qed.

(* ExecuteRequest against a peer that stays silent (the world clock_world sc
   answers every read with the code sc, here the timeout): the request goes
   out at tw = max(now, la + t3.5), logged; lastActivity is set to the
   estimated end of the transmission and the call returns t3.5 after it *)
Theorem rtu_execute_timing C sc tmo la t35 t1 req c0 log :
  c0 < 2 ^ 62 -> la < 2 ^ 62 -> t35 < 2 ^ 40 -> t1 < 2 ^ 40 ->
  lenN (assemble_rtu req) < 2 ^ 16 ->
  sc = c_timedout C -> sc <> 0 ->
  c_timedout C <> c_badcrc C -> c_timedout C <> c_proto C ->
  c_timedout C <> c_short C -> c_timedout C <> c_ueof C ->
  let '(la', w', p, e) := t_rtu_execute (clock_world sc) C tmo la t35 t1 req (mkclock c0 log) in
  let tw := N.max c0 (la + t35) in
  let busy := lenN (assemble_rtu req) * t1 in
  log_of w' = (log ++ [VN tw])%list /\
  la' = tw + busy /\
  clock_of w' = tw + busy + t35 /\
  p = None /\ e = sc.
Proof.
  intros Hc Hla Ht35 Ht1 Hn Hsc Hsc0 Hbc Hpr Hsh Hue.
  unfold t_rtu_execute.
  cbn [clock_world t_now t_setdl t_write].
  change (negb (0 =? 0)) with false. cbv iota.
  rewrite !sleep_cw_eq.
  change (if slt64 (sub64 (clock_of (mkclock c0 log)) (add64 la t35)) 0
          then sleep_cw (mkclock c0 log)
                 (mul64 (sub64 (clock_of (mkclock c0 log)) (add64 la t35)) minus_one64)
          else mkclock c0 log) with (wait_cw la t35 (mkclock c0 log)).
  rewrite (wait_mk la t35 c0 log Hc Hla Ht35).
  rewrite !clock_of_mk, !log_of_mk.
  set (tw := N.max c0 (la + t35)).
  assert (Htw : tw < 2 ^ 63) by (unfold tw; lia).
  destruct (sleep_after_frame tw (lenN (assemble_rtu req)) t1 t35 (log ++ [VN tw]) Htw Hn Ht1 Ht35)
    as [Hla1 Hsl].
  rewrite Hsl, Hla1.
  rewrite read_rtu_silent by congruence.
  replace (sc =? c_timedout C) with true by lia.
  replace (sc =? c_badcrc C) with false by lia.
  replace (sc =? c_proto C) with false by lia.
  replace (sc =? c_short C) with false by lia.
  cbn [negb orb].
  rewrite clock_of_mk, log_of_mk.
  repeat split; reflexivity.
Qed.

Theorem rtu_write_response_timing sc la t1 req c0 log :
  c0 < 2 ^ 62 -> t1 < 2 ^ 40 ->
  lenN (assemble_rtu req) < 2 ^ 16 ->
  let '(la', w', e) := t_rtu_write_response (clock_world sc) la t1 req (mkclock c0 log) in
  log_of w' = (log ++ [VN c0])%list /\
  la' = c0 + lenN (assemble_rtu req) * t1 /\
  e = 0 /\ clock_of w' = c0.
Proof.
  intros Hc Ht1 Hn.
  unfold t_rtu_write_response.
  cbn [clock_world t_now t_write].
  change (negb (0 =? 0)) with false. cbv iota.
  rewrite !clock_of_mk, !log_of_mk.
  pose proof (prod_bound _ _ Hn Ht1) as Hp.
  rewrite w64_small, mul64_small, add64_small by lia.
  repeat split. lia.
Qed.

Section NeverEarly.
  Variables (T : tworld) (C : tcodes) (sc : N).
  Hypothesis Hnow : forall w, t_now T w = t_now (clock_world sc) w.
  Hypothesis Hsleep : forall w d, t_sleep T w d = t_sleep (clock_world sc) w d.
  Hypothesis Hwrite : forall w bs, t_write T w bs = t_write (clock_world sc) w bs.
  (* setting a deadline and reading are arbitrary, but they log nothing and time
     does not run backwards (nor past 2^62 ns) while a deadline is set; how the
     clock moves during reads, and what Close does (ExecuteRequest never calls
     it), is irrelevant for the instants at which frames are written *)
  Hypothesis Hsetdl_clock : forall w d, clock_of w < 2 ^ 62 ->
    clock_of w <= clock_of (fst (t_setdl T w d)) /\ clock_of (fst (t_setdl T w d)) < 2 ^ 62.
  Hypothesis Hsetdl_log : forall w d, log_of (fst (t_setdl T w d)) = log_of w.
  Hypothesis Hread_log : forall w n, log_of (fst (fst (t_readfull T w n))) = log_of w.

  Lemma now_T w : t_now T w = (w, clock_of w).
  Proof. rewrite Hnow. reflexivity. Qed.

  Lemma sleep_T w d : t_sleep T w d = sleep_cw w d.
  Proof. rewrite Hsleep. reflexivity. Qed.

  Lemma write_T w bs :
    t_write T w bs = (mkclock (clock_of w) (log_of w ++ [VN (clock_of w)]), lenN bs, 0).
  Proof. rewrite Hwrite. reflexivity. Qed.

  Lemma log_of_read_rtu w : log_of (fst (fst (t_read_rtu T C w))) = log_of w.
  Proof.
    unfold t_read_rtu.
    pose proof (Hread_log w 3) as H1.
    destruct (t_readfull T w 3) as [[w1 h] e1]. cbn [fst] in H1.
    destruct (_ && _); [exact H1|].
    destruct (_ && _); [exact H1|].
    destruct (expected_len _ _) as [n|]; [|exact H1].
    destruct (256 <? _); [exact H1|].
    pose proof (Hread_log w1 (n + 2)) as H2.
    destruct (t_readfull T w1 (n + 2)) as [[w2 body] e2]. cbn [fst] in H2.
    rewrite H1 in H2.
    destruct (_ && _); [exact H2|].
    destruct (negb _); [exact H2|].
    destruct (crc_is_equal _ _ _); exact H2.
  Qed.

  Lemma log_of_discard w : log_of (t_discard T w) = log_of w.
  Proof.
    unfold t_discard. rewrite now_T.
    pose proof (Hsetdl_log w (add64 (clock_of w) 500000)) as H1.
    destruct (t_setdl T w _) as [w1 e1]. cbn [fst] in H1.
    pose proof (Hread_log w1 1024) as H2.
    destruct (t_readfull T w1 1024) as [[w2 got] e2]. cbn [fst] in H2.
    congruence.
  Qed.

  (* at most one frame is written, and not before t3.5 after the last activity *)
  Theorem rtu_execute_never_early tmo la t35 t1 req c0 log :
    c0 < 2 ^ 62 -> la < 2 ^ 62 -> t35 < 2 ^ 40 ->
    let '(la', w', p, e) := t_rtu_execute T C tmo la t35 t1 req (mkclock c0 log) in
    log_of w' = log \/
    exists t, log_of w' = (log ++ [VN t])%list /\ la + t35 <= t /\ c0 <= t.
  Proof.
    intros Hc Hla Ht35.
    unfold t_rtu_execute. rewrite now_T. rewrite clock_of_mk.
    pose proof (Hsetdl_clock (mkclock c0 log) (add64 c0 tmo)) as Hc1.
    pose proof (Hsetdl_log (mkclock c0 log) (add64 c0 tmo)) as Hl1.
    rewrite clock_of_mk in Hc1. rewrite log_of_mk in Hl1.
    specialize (Hc1 Hc). destruct Hc1 as [Hc1 Hc1b].
    destruct (t_setdl T (mkclock c0 log) (add64 c0 tmo)) as [w1 e]. cbn [fst] in Hc1, Hc1b, Hl1.
    destruct (negb (e =? 0)); [left; exact Hl1|].
    rewrite now_T. rewrite sleep_T.
    change (if slt64 (sub64 (clock_of w1) (add64 la t35)) 0
            then sleep_cw w1 (mul64 (sub64 (clock_of w1) (add64 la t35)) minus_one64)
            else w1) with (wait_cw la t35 w1).
    pose proof (clock_of_wait la t35 w1 Hc1b Hla Ht35) as Hcw.
    pose proof (log_of_wait la t35 w1) as Hlw.
    set (w3 := wait_cw la t35 w1) in *.
    rewrite now_T. rewrite write_T.
    change (negb (0 =? 0)) with false. cbv iota.
    rewrite now_T. rewrite sleep_T.
    match goal with |- context [t_read_rtu T C ?w] =>
      pose proof (log_of_read_rtu w) as Hl8;
      destruct (t_read_rtu T C w) as [[w8 res] e3] end.
    cbn [fst] in Hl8. rewrite log_of_sleep, log_of_mk in Hl8.
    assert (Hl9 : log_of (if (e3 =? c_badcrc C) || (e3 =? c_proto C) || (e3 =? c_short C)
                          then t_discard T (t_sleep T w8 (mul64 256 t1)) else w8)
                  = (log ++ [VN (clock_of w3)])%list).
    { destruct (_ || _).
      - rewrite log_of_discard, sleep_T, log_of_sleep, Hl8. congruence.
      - rewrite Hl8. congruence. }
    destruct (negb (e3 =? c_timedout C)).
    - rewrite now_T. right. exists (clock_of w3). split; [exact Hl9 | lia].
    - right. exists (clock_of w3). split; [exact Hl9 | lia].
  Qed.
End NeverEarly.

Corollary rtu_execute_never_early_all T C sc tmo la t35 t1 req c0 log :
  (forall w, t_now T w = t_now (clock_world sc) w) ->
  (forall w d, t_sleep T w d = t_sleep (clock_world sc) w d) ->
  (forall w bs, t_write T w bs = t_write (clock_world sc) w bs) ->
  (forall w d, clock_of w < 2 ^ 62 ->
     clock_of w <= clock_of (fst (t_setdl T w d)) /\ clock_of (fst (t_setdl T w d)) < 2 ^ 62) ->
  (forall w d, log_of (fst (t_setdl T w d)) = log_of w) ->
  (forall w n, log_of (fst (fst (t_readfull T w n))) = log_of w) ->
  c0 < 2 ^ 62 -> la < 2 ^ 62 -> t35 < 2 ^ 40 ->
  let '(la', w', p, e) := t_rtu_execute T C tmo la t35 t1 req (mkclock c0 log) in
  exists extra, log_of w' = (log ++ extra)%list /\
    Forall (fun v => exists t, v = VN t /\ la + t35 <= t) extra.
Proof.
  intros Hnow Hsleep Hwrite Hsc Hsl Hrl Hc Hla Ht35.
  pose proof (rtu_execute_never_early T C sc Hnow Hsleep Hwrite Hsc Hsl Hrl
                tmo la t35 t1 req c0 log Hc Hla Ht35) as H.
  destruct (t_rtu_execute T C tmo la t35 t1 req (mkclock c0 log)) as [[[la' w'] p] e].
  destruct H as [H | [t [H [Ht _]]]].
  - exists []. rewrite app_nil_r. split; [exact H | constructor].
  - exists [VN t]. split; [exact H|]. constructor; [|constructor]. exists t. split; [reflexivity | exact Ht].
Qed.

Check rtu_execute_timing.
Check rtu_write_response_timing.
Check rtu_execute_never_early.
Print Assumptions rtu_execute_timing.
Print Assumptions rtu_write_response_timing.
Print Assumptions rtu_execute_never_early.
Print Assumptions rtu_execute_never_early_all.
