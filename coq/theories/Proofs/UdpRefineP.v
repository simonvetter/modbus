(* The wrapper model of Model/Transport.v (t_udp_read: what the translated
   udpSockWrapper.Read computes, Proofs/SrcWrapRunP.v) run on a world that is a
   queue of datagrams refines the C12 model of the same wrapper (Model/Udp.v,
   usw_read): same bytes delivered, same leftover, same queue. Model level only
   (no GoLite evaluation). *)
From Coq Require Import List NArith Lia Bool.
Import ListNotations.
From Modbus Require Import Base.Bytes Model.Crc Model.Wire Model.GoLite Model.Transport Model.Chunks Model.Udp.
From Modbus Require Import Proofs.GoLiteP Proofs.TransportStreamP.
Open Scope N_scope.

(* the world is the queue of datagrams waiting in the socket, oldest first *)
Definition enc_dq (q : list (list N)) : val := VL (map vbytes q).

Definition dec_dgram (v : val) : list N := match v with VL b => unbytes b | _ => [] end.
Definition dec_dq (w : val) : list (list N) := match w with VL l => map dec_dgram l | _ => [] end.

(* sock.Read(buf), len(buf) = n: no datagram: the deadline expires (error value 2);
   otherwise the oldest datagram, cut to the buffer (the rest of it is lost) *)
Definition dq_world : tworld := {|
  t_now := fun w => (w, 0);
  t_sleep := fun w _ => w;
  t_setdl := fun w _ => (w, 0);
  t_write := fun w bs => (w, lenN bs, 0);
  t_readfull := fun w n =>
    match dec_dq w with
    | [] => (w, [], 2)
    | d :: rest => (enc_dq rest, firstn (N.to_nat n) d, 0)
    end;
  t_close := fun w => (w, 0)
|}.

Definition dgrams_bytes (q : list (list N)) : Prop := Forall (fun d => bytesb d = true) q.

Lemma dec_enc_dq q : dgrams_bytes q -> dec_dq (enc_dq q) = q.
Proof.
  unfold dec_dq, enc_dq. intros H. rewrite map_map.
  induction H as [|d q Hd Hq IH]; cbn [map]; [reflexivity|].
  rewrite IH. f_equal. unfold dec_dgram, vbytes. apply unbytes_map. exact Hd.
Qed.

(* the world keeps the promise of a Read on every state, decodable or not *)
Lemma dq_world_wf : tread_wf dq_world.
Proof.
  intros w n. cbn [t_readfull dq_world].
  destruct (dec_dq w) as [|d rest] eqn:E.
  - split; [reflexivity|]. unfold lenN. cbn [List.length]. lia.
  - split.
    + apply bytesb_firstn.
      unfold dec_dq in E. destruct w as [x|b|l]; try discriminate E.
      destruct l as [|v l]; [discriminate E|]. cbn [map] in E. inversion E; subst.
      unfold dec_dgram. destruct v; try reflexivity. apply unbytes_bytes.
    + unfold lenN. rewrite firstn_length. lia.
Qed.

(* [left]: the bytes at the front of rxbuf that are handed out *)
Lemma take_norm (left rxbuf buf : list N) :
  firstn (List.length left) rxbuf = left ->
  t_udp_take (lenN left) rxbuf buf =
  let k := Nat.min (List.length buf) (List.length left) in
  (N.of_nat (List.length left - k),
   (if (k <? List.length left)%nat then go_copy rxbuf (skipn k left) else rxbuf),
   go_copy buf left, N.of_nat k).
Proof.
  intros Hpre. unfold t_udp_take, go_copy_n. rewrite to_nat_lenN, Hpre. cbv zeta.
  rewrite Nat2N.id. unfold lenN.
  set (k := Nat.min (List.length buf) (List.length left)).
  replace (N.of_nat (List.length left) - N.of_nat k) with (N.of_nat (List.length left - k)) by lia.
  destruct (N.of_nat k <? N.of_nat (List.length left)) eqn:E1;
    destruct (k <? List.length left)%nat eqn:E2; try reflexivity; lia.
Qed.

Lemma take_refines (left rxbuf buf : list N) :
  List.length rxbuf = usw_rxbuf_len -> firstn (List.length left) rxbuf = left ->
  (List.length left <= usw_rxbuf_len)%nat ->
  let '(lft', rxbuf', buf', k) := t_udp_take (lenN left) rxbuf buf in
  let got := firstn (List.length buf) left in
  let left' := skipn (List.length buf) left in
  k = lenN got /\ firstn (List.length got) buf' = got /\
  skipn (List.length got) buf' = skipn (List.length got) buf /\
  lft' = lenN left' /\ firstn (List.length left') rxbuf' = left' /\
  List.length rxbuf' = usw_rxbuf_len.
Proof.
  intros Hrx Hpre Hle. rewrite (take_norm left rxbuf buf Hpre). cbv zeta.
  unfold usw_rxbuf_len in *.
  unfold go_copy, lenN.
  destruct (Nat.ltb_spec (List.length buf) (List.length left)) as [Hlt|Hge].
  - (* the buffer is smaller than what is there: the rest moves to the front *)
    rewrite (Nat.min_l (List.length buf) (List.length left)) by lia.
    replace (List.length buf <? List.length left)%nat with true by lia.
    assert (Hg : List.length (firstn (List.length buf) left) = List.length buf)
      by (rewrite firstn_length; lia).
    assert (Hs : List.length (skipn (List.length buf) left) = (List.length left - List.length buf)%nat)
      by apply skipn_length.
    rewrite Hg, Hs.
    rewrite (Nat.min_r (List.length rxbuf)) by lia.
    rewrite (@firstn_all2 _ (List.length left - List.length buf)%nat (skipn (List.length buf) left)) by (rewrite Hs; lia).
    repeat split.
    + rewrite <- Hg at 1. apply firstn_app_length.
    + rewrite <- Hg at 1. rewrite skipn_app_length. reflexivity.
    + rewrite <- Hs at 1. apply firstn_app_length.
    + rewrite app_length, !skipn_length. lia.
  - (* everything fits *)
    rewrite (Nat.min_r (List.length buf) (List.length left)) by lia.
    replace (List.length left <? List.length left)%nat with false by lia.
    rewrite Nat.sub_diag.
    rewrite (firstn_all2 (n := List.length buf) left) by lia.
    rewrite (skipn_all2 (n := List.length buf) left) by lia.
    rewrite firstn_all. cbn [List.length firstn].
    repeat split.
    + apply firstn_app_length.
    + rewrite skipn_app_length. reflexivity.
    + exact Hrx.
Qed.

(* [u]: the state of the wrapper in the C12 model; the concrete wrapper holds
   the leftover bytes at the front of its 260-byte rxbuf, the socket holds the
   queued datagrams *)
Theorem udp_read_refines : forall (u : usw) (rxbuf buf : list N),
  dgrams_bytes (usw_net u) ->
  List.length rxbuf = usw_rxbuf_len ->
  firstn (List.length (usw_left u)) rxbuf = usw_left u ->
  (List.length (usw_left u) <= usw_rxbuf_len)%nat ->
  let '(lft', rxbuf', buf', w', rlen, e) :=
    t_udp_read dq_world (lenN (usw_left u)) rxbuf buf (enc_dq (usw_net u)) in
  match usw_read (List.length buf) u with
  | Rd1 got u' =>
      e = 0 /\ rlen = lenN got /\ firstn (List.length got) buf' = got /\
      skipn (List.length got) buf' = skipn (List.length got) buf /\
      lft' = lenN (usw_left u') /\ firstn (List.length (usw_left u')) rxbuf' = usw_left u' /\
      List.length rxbuf' = usw_rxbuf_len /\ w' = enc_dq (usw_net u')
  | Rd1None => e <> 0 /\ buf' = buf /\ lft' = 0
  end.
Proof.
  intros [left net] rxbuf buf Hby Hrx Hpre Hle. cbn [usw_left usw_net] in *.
  unfold t_udp_read, usw_read. cbn [usw_left usw_net].
  destruct left as [|b left].
  - (* nothing left over: a datagram is read *)
    change (0 <? lenN []) with false. cbv iota.
    cbn [t_readfull dq_world]. rewrite (dec_enc_dq net Hby).
    destruct net as [|d net'].
    + cbn [negb N.eqb]. repeat split; discriminate.
    + change (negb (0 =? 0)) with false. cbv iota.
      assert (Hlr : N.to_nat (lenN rxbuf) = usw_rxbuf_len) by (rewrite to_nat_lenN; exact Hrx).
      rewrite Hlr.
      set (rx := firstn usw_rxbuf_len d).
      assert (Hrxl : (List.length rx <= usw_rxbuf_len)%nat) by (unfold rx; rewrite firstn_length; lia).
      pose proof (take_refines rx (rx ++ skipn (List.length rx) rxbuf) buf) as Ht.
      destruct (t_udp_take (lenN rx) (rx ++ skipn (List.length rx) rxbuf) buf) as [[[lft' rxbuf'] buf'] k].
      cbv zeta in Ht. cbn [usw_left usw_net].
      destruct Ht as (H1 & H2 & H3 & H4 & H5 & H6).
      * rewrite app_length, skipn_length. lia.
      * apply firstn_app_length.
      * exact Hrxl.
      * repeat split; assumption.
  - (* leftover bytes are handed out *)
    replace (0 <? lenN (b :: left)) with true by (unfold lenN; cbn [List.length]; lia).
    cbv iota.
    pose proof (take_refines (b :: left) rxbuf buf Hrx Hpre Hle) as Ht.
    destruct (t_udp_take (lenN (b :: left)) rxbuf buf) as [[[lft' rxbuf'] buf'] k].
    cbv zeta in Ht. cbn [usw_left usw_net].
    destruct Ht as (H1 & H2 & H3 & H4 & H5 & H6).
    repeat split; assumption.
Qed.

Print Assumptions dq_world_wf.
Print Assumptions udp_read_refines.
