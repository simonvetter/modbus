(* C12 - Results do not depend on how the byte stream is segmented. Lemmas:
   Proofs/ChunksP.v, Proofs/UdpP.v. Models: Model/Chunks.v (a connection is a
   list of chunks, one Read returns at most one chunk, io.ReadFull loops) and
   Model/Udp.v (udpSockWrapper); vocabulary (same_stream, seg_*, dgrams_ok,
   call_same, is_suffix): Spec/SegmentSpec.v. *)
From Modbus Require Import Base.Bytes Model.Crc Model.Encoding Model.Wire Model.Client Model.Server
  Model.Chunks Model.Udp Spec.ModbusSpec Spec.ServerSpec Spec.ServerSessionSpec Spec.SegmentSpec
  Proofs.ChunksP Proofs.UdpP.

(* T1: io.ReadFull over ANY chunking (empty chunks included) obtains exactly the
   bytes read_full obtains from the concatenation and leaves exactly the rest
   of the stream; when fewer than n bytes are to come both are short, have
   read the same bytes and have consumed everything *)
Theorem c12_read_full_chunks : forall n cs,
  match read_full_chunks n cs with
  | GFull g r => read_full n (concat cs) = RFull g (concat r)
  | GShort g r => read_full n (concat cs) = RShort g /\ concat r = []
  end.
Proof. exact read_full_chunks_ok. Qed.

Theorem c12_read_full_flat : forall n cs,
  match read_full n (concat cs) with
  | RFull g rest => exists r, read_full_chunks n cs = GFull g r /\ concat r = rest
  | RShort g => exists r, read_full_chunks n cs = GShort g r /\ concat r = []
  end.
Proof.
  intros n cs.
  pose proof (read_full_chunks_ok n cs) as H.
  destruct (read_full_chunks n cs) as [g r|g r].
  - rewrite H. exists r. split; reflexivity.
  - destruct H as [H He]. rewrite H. exists r. split; [reflexivity|exact He].
Qed.

(* T2: the frame readers over any chunking = the flat readers over the concatenation *)
Theorem c12_read_mbap_chunks : forall e cs,
  read_mbap e (concat cs) = (fst (read_mbap_c e cs), concat (snd (read_mbap_c e cs))).
Proof. intros e cs. exact (g_read_mbap_flat read_full_chunks (@concat N) read_full_chunks_ok e cs). Qed.

Theorem c12_mbap_read_response_chunks : forall fuel e txn cs,
  mbap_read_response fuel e txn (concat cs) =
  (fst (mbap_read_response_c fuel e txn cs), concat (snd (mbap_read_response_c fuel e txn cs))).
Proof.
  intros fuel e txn cs.
  exact (g_mbap_read_response_flat read_full_chunks (@concat N) read_full_chunks_ok fuel e txn cs).
Qed.

Theorem c12_read_rtu_chunks : forall e cs,
  read_rtu e (concat cs) = (fst (read_rtu_c e cs), concat (snd (read_rtu_c e cs))).
Proof. intros e cs. exact (g_read_rtu_flat read_full_chunks (@concat N) read_full_chunks_ok e cs). Qed.

Theorem c12_rtu_read_response_chunks : forall e cs,
  rtu_read_response e (concat cs) =
  (fst (rtu_read_response_c e cs), concat (snd (rtu_read_response_c e cs))).
Proof.
  intros e cs.
  exact (g_rtu_read_response_flat read_full_chunks (@concat N) read_full_chunks_ok e cs).
Qed.

Theorem c12_client_call_chunks : forall fr cfg txn o e cs,
  client_call fr cfg txn o e (concat cs) =
  let r := client_call_c fr cfg txn o e cs in
  mkcall (gcr_res r) (gcr_writes r) (concat (gcr_rest r)) (gcr_txn r).
Proof. exact client_call_chunks. Qed.

Theorem c12_server_run_chunks : forall (St : Type) (h : handler St) st e cs,
  server_run_c h st e cs = server_run h st e (concat cs).
Proof. exact @server_run_chunks. Qed.

(* hence: whatever the frames and however their bytes are cut into reads, the
   outcome is that of one-frame-per-read delivery *)
Theorem c12_client_any_segmentation : forall fr cfg txn o e frames cs,
  same_stream cs frames ->
  call_same (client_call_c fr cfg txn o e cs) (client_call_c fr cfg txn o e frames).
Proof. intros fr cfg txn o e frames cs. apply client_call_segmentation. Qed.

Theorem c12_server_any_segmentation : forall (St : Type) (h : handler St) st e frames cs,
  same_stream cs frames ->
  server_run_c h st e cs = server_run_c h st e frames.
Proof. intros St h st e frames cs. apply server_run_segmentation. Qed.

(* the segmentations the property names are instances: byte by byte, every
   split point, every pair of split points, all frames in one segment *)
Theorem c12_named_segmentations : forall frames j k,
  same_stream (seg_bytewise (concat frames)) frames /\
  same_stream (seg_split k (concat frames)) frames /\
  same_stream (seg_split2 j k (concat frames)) frames /\
  same_stream (seg_coalesced frames) frames.
Proof. exact named_segmentations. Qed.

Theorem c12_client_named : forall fr cfg txn o e frames j k,
  let ref := client_call_c fr cfg txn o e frames in
  call_same (client_call_c fr cfg txn o e (seg_bytewise (concat frames))) ref /\
  call_same (client_call_c fr cfg txn o e (seg_split k (concat frames))) ref /\
  call_same (client_call_c fr cfg txn o e (seg_split2 j k (concat frames))) ref /\
  call_same (client_call_c fr cfg txn o e (seg_coalesced frames)) ref.
Proof.
  intros fr cfg txn o e frames j k ref. unfold ref.
  destruct (named_segmentations frames j k) as (H1 & H2 & H3 & H4).
  split; [|split; [|split]]; apply client_call_segmentation; assumption.
Qed.

Theorem c12_server_named : forall (St : Type) (h : handler St) st e frames j k,
  let ref := server_run_c h st e frames in
  server_run_c h st e (seg_bytewise (concat frames)) = ref /\
  server_run_c h st e (seg_split k (concat frames)) = ref /\
  server_run_c h st e (seg_split2 j k (concat frames)) = ref /\
  server_run_c h st e (seg_coalesced frames) = ref.
Proof.
  intros St h st e frames j k ref. unfold ref.
  destruct (named_segmentations frames j k) as (H1 & H2 & H3 & H4).
  split; [|split; [|split]]; apply server_run_segmentation; assumption.
Qed.

(* T3, UDP: full reads through udpSockWrapper.Read over datagrams of at most 260 bytes =
   full reads over the concatenation of the datagrams *)
Theorem c12_udp_read_full : forall n ds, dgrams_ok ds ->
  match usw_read_full n (usw_init ds) with
  | GFull g r => read_full n (concat ds) = RFull g (usw_flat r)
  | GShort g r => read_full n (concat ds) = RShort g /\ usw_flat r = []
  end.
Proof. intros n ds H. rewrite <- (dgrams_ok_flat ds H). apply usw_read_full_ok. Qed.

(* in every state (without the bound): the wrapper presents its leftover
   followed by the queued datagrams, each cut to 260 bytes *)
Theorem c12_udp_read_full_any : forall n u,
  match usw_read_full n u with
  | GFull g r => read_full n (usw_flat u) = RFull g (usw_flat r)
  | GShort g r => read_full n (usw_flat u) = RShort g /\ usw_flat r = []
  end.
Proof. exact usw_read_full_ok. Qed.

(* the leftover is a suffix of the last datagram received (cut to the receive
   buffer): initially, after every single Read with any buffer length and
   after every full read; so it always fits the 260-byte buffer *)
Theorem c12_udp_invariant_init : forall ds, usw_inv ds (usw_init ds).
Proof. intros ds. exists []. split; [reflexivity|]. exists []. reflexivity. Qed.

Theorem c12_udp_invariant_read : forall all n u got u',
  usw_inv all u -> usw_read n u = Rd1 got u' -> usw_inv all u'.
Proof. exact usw_read_inv. Qed.

Theorem c12_udp_invariant_read_full : forall all n u, usw_inv all u ->
  match usw_read_full n u with GFull _ r => usw_inv all r | GShort _ r => usw_inv all r end.
Proof. exact usw_read_full_inv. Qed.

Theorem c12_udp_leftover_bound : forall all u, usw_inv all u -> (length (usw_left u) <= 260)%nat.
Proof.
  intros all u (pre & _ & (p & Hp)). apply (f_equal (@length N)) in Hp.
  rewrite firstn_length, app_length in Hp. unfold usw_rxbuf_len in Hp. lia.
Qed.

Theorem c12_udp_client_call : forall fr cfg txn o e ds, dgrams_ok ds ->
  client_call fr cfg txn o e (concat ds) =
  let r := client_call_u fr cfg txn o e (usw_init ds) in
  mkcall (gcr_res r) (gcr_writes r) (usw_flat (gcr_rest r)) (gcr_txn r).
Proof. exact client_call_dgrams. Qed.

(* all partitions of a stream into datagrams of at most 260 bytes are alike *)
Theorem c12_udp_partitions : forall fr cfg txn o e ds1 ds2,
  dgrams_ok ds1 -> dgrams_ok ds2 -> same_stream ds1 ds2 ->
  let r1 := client_call_u fr cfg txn o e (usw_init ds1) in
  let r2 := client_call_u fr cfg txn o e (usw_init ds2) in
  gcr_res r1 = gcr_res r2 /\ gcr_writes r1 = gcr_writes r2 /\ gcr_txn r1 = gcr_txn r2 /\
  usw_flat (gcr_rest r1) = usw_flat (gcr_rest r2).
Proof.
  intros fr cfg txn o e ds1 ds2 H1 H2 Hs. pose proof (client_call_dgrams fr cfg txn o e ds1 H1) as E1.
  pose proof (client_call_dgrams fr cfg txn o e ds2 H2) as E2.
  unfold same_stream in Hs. rewrite Hs in E1. rewrite E1 in E2. cbv zeta in E2.
  injection E2 as Ha Hb Hc Hd. cbv zeta. auto.
Qed.

(* the bound is necessary: a longer datagram loses its tail *)
Theorem c12_udp_truncates : forall d, (260 < length d)%nat ->
  exists r, usw_read_full (length d) (usw_init [d]) = GShort (firstn 260 d) r /\ usw_flat r = [].
Proof. exact usw_truncates. Qed.

(* without the bound: the call sees every datagram cut to 260 bytes *)
Theorem c12_udp_client_call_any : forall fr cfg txn o e u,
  client_call fr cfg txn o e (usw_flat u) =
  let r := client_call_u fr cfg txn o e u in
  mkcall (gcr_res r) (gcr_writes r) (usw_flat (gcr_rest r)) (gcr_txn r).
Proof. exact client_call_udp. Qed.

(* T4: pipelining under any chunking: complete frames, however their bytes are cut
   into reads, are each answered exactly once, in order, with their own
   transaction id (spec_session is the reference session of C03) *)
Theorem c12_pipelined_chunks : forall (St : Type) (h : handler St) frames tail st e cs,
  Forall (fun f => fst f < 65536 /\ pdu_wf (snd f)) frames ->
  concat cs = concat (map (fun f => spec_mbap (fst f) (snd f)) frames) ++ tail ->
  server_run_c h st e cs =
  spec_session h st frames (fun st' => server_run h st' e tail).
Proof. exact @server_pipelined_chunks. Qed.

(* non-vacuity: concrete instances of the statements above *)
Definition c12_reply : list N := [0;1;0;0;0;7;17;3;4;0x0a;0x0b;0x0c;0x0d].
Definition c12_cfg : ccfg := mkcfg 17 BigE HighFirst.
Definition c12_op : op := OpReadRegs 2 0xfffc 1 Holding.

(* byte by byte, with empty chunks in between *)
Example c12_ex_bytewise :
  gcr_res (client_call_c FMbap c12_cfg 0 c12_op Stall
             ([] :: seg_bytewise c12_reply ++ [[]])) = Ok (VNums [0x0a0b0c0d]).
Proof. vm_compute. reflexivity. Qed.

(* a foreign frame and the reply coalesced, cut in the middle of the second header *)
Example c12_ex_coalesced :
  let s := [0;9;0;0;0;3;17;3;0] ++ c12_reply ++ [0xee] in
  let r := client_call_c FMbap c12_cfg 0 c12_op Stall (seg_split 12 s) in
  gcr_res r = Ok (VNums [0x0a0b0c0d]) /\ gcr_rest r = [[0xee]].
Proof. vm_compute. split; reflexivity. Qed.

(* a short read: the same bytes are consumed *)
Example c12_ex_short :
  read_full_chunks 7 [[1;2];[];[3]] = GShort [1;2;3] [] /\ read_full 7 [1;2;3] = RShort [1;2;3].
Proof. vm_compute. split; reflexivity. Qed.

Example c12_ex_partial_chunk :
  read_full_chunks 3 [[1;2];[3;4;5]] = GFull [1;2;3] [[4;5]].
Proof. vm_compute. reflexivity. Qed.

Definition c12_example_handler : handler N :=
  fun st r => (st + 1, mkhres (repeat true (N.to_nat (h_qty r))) (repeat 7 (N.to_nat (h_qty r))) HNone).

(* two pipelined requests delivered in three segments that ignore the frame boundaries *)
Example c12_ex_pipelined :
  server_run_c c12_example_handler 0 Closed
    (seg_split2 5 9 (spec_mbap 7 (mkpdu 1 3 [0; 16; 0; 2]) ++ spec_mbap 8 (mkpdu 1 0x2B [14]))) =
  [EvCall (mkhreq HHolding 1 16 2 false [] []);
   EvResp (spec_mbap 7 (mkpdu 1 3 [4; 0; 7; 0; 7]));
   EvResp (spec_mbap 8 (mkpdu 1 0xAB [1]));
   EvClosed].
Proof. vm_compute. reflexivity. Qed.

Example c12_frames_sat :
  Forall (fun f => fst f < 65536 /\ pdu_wf (snd f)) [(7, mkpdu 1 3 [0; 16; 0; 2])].
Proof.
  constructor; [|constructor]. split; [reflexivity|]. unfold pdu_wf. cbn.
  repeat split; try reflexivity; discriminate.
Qed.

(* UDP: the reply spread over three datagrams; leftover handling *)
Example c12_ex_udp :
  let ds := [firstn 6 c12_reply; firstn 2 (skipn 6 c12_reply); skipn 8 c12_reply] in
  dgrams_ok ds /\
  gcr_res (client_call_u FMbap c12_cfg 0 c12_op Stall (usw_init ds)) = Ok (VNums [0x0a0b0c0d]).
Proof.
  split; [repeat constructor|vm_compute; reflexivity].
Qed.

(* UDP: two frames in one datagram of 272 > 260 bytes: the reply is cut and the
   call times out although the stream, delivered over TCP, contains the reply *)
Example c12_ex_udp_too_long :
  let foreign := assemble_mbap 9 (mkpdu 17 3 (250 :: repeat 0 250)) in
  length (foreign ++ c12_reply) = 272%nat /\
  gcr_res (client_call_u FMbap c12_cfg 0 c12_op Stall (usw_init [foreign ++ c12_reply])) = Err ETimeout /\
  cr_res (client_call FMbap c12_cfg 0 c12_op Stall (foreign ++ c12_reply)) = Ok (VNums [0x0a0b0c0d]).
Proof. vm_compute. repeat split; reflexivity. Qed.

Print Assumptions c12_read_full_chunks.
Print Assumptions c12_read_full_flat.
Print Assumptions c12_read_mbap_chunks.
Print Assumptions c12_mbap_read_response_chunks.
Print Assumptions c12_read_rtu_chunks.
Print Assumptions c12_rtu_read_response_chunks.
Print Assumptions c12_client_call_chunks.
Print Assumptions c12_server_run_chunks.
Print Assumptions c12_client_any_segmentation.
Print Assumptions c12_server_any_segmentation.
Print Assumptions c12_named_segmentations.
Print Assumptions c12_client_named.
Print Assumptions c12_server_named.
Print Assumptions c12_udp_read_full.
Print Assumptions c12_udp_read_full_any.
Print Assumptions c12_udp_invariant_init.
Print Assumptions c12_udp_invariant_read.
Print Assumptions c12_udp_invariant_read_full.
Print Assumptions c12_udp_leftover_bound.
Print Assumptions c12_udp_client_call.
Print Assumptions c12_udp_partitions.
Print Assumptions c12_udp_truncates.
Print Assumptions c12_udp_client_call_any.
Print Assumptions c12_pipelined_chunks.
