(* C07 - Every client call completes within the timeout, whatever the peer does
   (lemmas: Proofs/TimedP.v). The peer is ANY timed stream s : list (Z * N) of
   (arrival time in ns, byte) with an optional close time c: silence is [], a
   stall after k bytes is a stream of k bytes, a flood is as long as one likes;
   no theorem below restricts the content, the length or the times of s. *)
From Modbus Require Import Base.Bytes Model.Crc Model.Encoding Model.Wire Model.Client
  Model.Timed Spec.ModbusSpec Spec.ClientSpec Spec.TimedSpec Proofs.TimedP.

(* T1: MBAP transports (tcp, tcp+tls, udp): the call returns by t0 + timeout *)
Theorem c07_bound_mbap : forall k la cfg txn o t0 c s, (0 <= tm_timeout k)%Z ->
  (t0 <= tmc_finish (tm_client_call FMbap k la cfg txn o t0 c s) <= t0 + tm_timeout k)%Z.
Proof. exact tm_client_time_mbap. Qed.

(* RTU transports (rtu, rtuovertcp, rtuoverudp): the call returns by
     max (t0 + timeout + g) (t0 + t35 + n*t1 + t35) + 256*t1 + 500 us + g
   where n is the request length and g the poll granularity of the link
   (0 on a net.Conn, 10 ms behind serialPortWrapper: the read AND the flush
   may each overrun their deadline by one poll) *)
Theorem c07_bound_rtu : forall k la cfg txn o t0 c s,
  op_wf o -> tm_conf_wf k -> (la <= t0)%Z ->
  (t0 <= tmc_finish (tm_client_call FRtu k la cfg txn o t0 c s)
      <= tm_rtu_bound k t0 (tm_req_len cfg o))%Z.
Proof. exact tm_client_time_rtu. Qed.

(* the same with the formula spelled out, for a net.Conn *)
Theorem c07_bound_rtu_netconn : forall k la cfg txn o t0 c s,
  op_wf o -> tm_conf_wf k -> tm_gran k = 0%Z -> (la <= t0)%Z ->
  let n := tm_req_len cfg o in
  (tmc_finish (tm_client_call FRtu k la cfg txn o t0 c s)
   <= Z.max (t0 + tm_timeout k) (t0 + tm_t35 k + n * tm_t1 k + tm_t35 k)
      + 256 * tm_t1 k + 500000)%Z.
Proof.
  intros k la cfg txn o t0 c s Hwf Hk Hg Hla n.
  pose proof (tm_client_time_rtu k la cfg txn o t0 c s Hwf Hk Hla) as H.
  unfold tm_rtu_bound in H. rewrite Hg in H. fold n in H. lia.
Qed.

(* ... and behind the serial wrapper (g = 10 ms) *)
Theorem c07_bound_rtu_serial : forall k la cfg txn o t0 c s,
  op_wf o -> tm_conf_wf k -> tm_gran k = 10000000%Z -> (la <= t0)%Z ->
  let n := tm_req_len cfg o in
  (tmc_finish (tm_client_call FRtu k la cfg txn o t0 c s)
   <= Z.max (t0 + tm_timeout k + 10000000) (t0 + tm_t35 k + n * tm_t1 k + tm_t35 k)
      + 256 * tm_t1 k + 500000 + 10000000)%Z.
Proof.
  intros k la cfg txn o t0 c s Hwf Hk Hg Hla n.
  pose proof (tm_client_time_rtu k la cfg txn o t0 c s Hwf Hk Hla) as H.
  unfold tm_rtu_bound in H. rewrite Hg in H. fold n in H. lia.
Qed.

(* T2: total silence: the request-timed-out error, exactly at the deadline *)
Theorem c07_silence_mbap : forall k la cfg txn o t0,
  op_wf o -> valid_op o = true -> (0 <= tm_timeout k)%Z ->
  let r := tm_client_call FMbap k la cfg txn o t0 None [] in
  tmc_res r = Err ETimeout /\ tmc_finish r = (t0 + tm_timeout k)%Z.
Proof. exact tm_silence_mbap. Qed.

(* RTU on a net.Conn: at the deadline, or at the end of the post-write sleep
   when the configuration makes that later *)
Theorem c07_silence_rtu : forall k la cfg txn o t0,
  op_wf o -> valid_op o = true -> tm_conf_wf k -> tm_gran k = 0%Z ->
  let r := tm_client_call FRtu k la cfg txn o t0 None [] in
  tmc_res r = Err ETimeout /\
  tmc_finish r = Z.max (t0 + tm_timeout k) (tm_rtu_read_start k la t0 (tm_req_len cfg o)).
Proof. exact tm_silence_rtu. Qed.

(* RTU behind the serial wrapper: less than one poll period after the deadline *)
Theorem c07_silence_serial : forall k la cfg txn o t0,
  op_wf o -> valid_op o = true -> tm_conf_wf k -> (0 < tm_gran k)%Z ->
  (tm_rtu_read_start k la t0 (tm_req_len cfg o) <= t0 + tm_timeout k)%Z ->
  let r := tm_client_call FRtu k la cfg txn o t0 None [] in
  tmc_res r = Err ETimeout /\
  (t0 + tm_timeout k < tmc_finish r <= t0 + tm_timeout k + tm_gran k)%Z.
Proof. exact tm_silence_serial. Qed.

(* a timeout is never reported early: the transport-level timeout error comes
   exactly at the deadline (RTU: or at the end of the post-write sleep when
   that is later; the re-synchronisation delay is not added to a timeout) *)
Theorem c07_timeout_not_early_mbap : forall timeout t0 c txn s t rest, (0 <= timeout)%Z ->
  mbap_exchange_t timeout t0 c txn s = (Err ETimeout, t, rest) -> t = (t0 + timeout)%Z.
Proof.
  intros timeout t0 c txn s t rest Ht H.
  pose proof (mbap_exchange_sim timeout t0 c txn s Ht) as Hs. cbv zeta in Hs. rewrite H in Hs.
  destruct (mbap_read_response _ _ _ _) as [r' ru]. apply Hs. reflexivity.
Qed.

Theorem c07_timeout_not_early_rtu : forall k la t0 nreq c s t rest,
  tm_conf_wf k -> tm_gran k = 0%Z -> (0 <= nreq)%Z ->
  rtu_exchange_t k la t0 nreq c s = (Err ETimeout, t, rest) ->
  t = Z.max (t0 + tm_timeout k) (tm_rtu_read_start k la t0 nreq).
Proof. exact rtu_exchange_timeout. Qed.

(* T3: a valid reply, preceded only by frames that have to be skipped, whose last
   byte arrives by the deadline is accepted with its values - whatever comes
   after it, whenever, and whether or not the peer then closes *)
Theorem c07_timely_reply_mbap : forall k la cfg txn o t0 c pre post res vs frames,
  op_wf o -> cfg_wf cfg -> txn < 65536 -> valid_op o = true -> (0 <= tm_timeout k)%Z ->
  bytesb (p_payload res) = true -> answers cfg o res vs ->
  Forall (skippable (u16 (txn + 1))) frames ->
  map snd pre = concat frames ++ spec_frame FMbap (u16 (txn + 1)) res ->
  Forall (fun p => (fst p <= t0 + tm_timeout k)%Z) pre ->
  let r := tm_client_call FMbap k la cfg txn o t0 c (pre ++ post) in
  tmc_res r = Ok vs /\ (t0 <= tmc_finish r <= t0 + tm_timeout k)%Z.
Proof. exact tm_timely_mbap. Qed.

(* RTU (net.Conn): the reply is at the start of the stream, complete by the
   deadline, and the post-write sleep ends before the deadline *)
Theorem c07_timely_reply_rtu : forall k la cfg txn o t0 c pre post res vs,
  op_wf o -> cfg_wf cfg -> valid_op o = true -> tm_conf_wf k -> tm_gran k = 0%Z ->
  (tm_rtu_read_start k la t0 (tm_req_len cfg o) <= t0 + tm_timeout k)%Z ->
  bytesb (p_payload res) = true -> answers cfg o res vs ->
  map snd pre = spec_frame FRtu 0 res ->
  Forall (fun p => (fst p <= t0 + tm_timeout k)%Z) pre ->
  tmc_res (tm_client_call FRtu k la cfg txn o t0 c (pre ++ post)) = Ok vs.
Proof. exact tm_timely_rtu. Qed.

(* the general fact behind T3: the timed call with deadline D returns what the
   untimed client of C01/C02 returns on the bytes that arrived by D (followed
   by silence, or by EOF when the peer closed by D with nothing outstanding) *)
Theorem c07_deadline_view_mbap : forall k la cfg txn o t0 c s, (0 <= tm_timeout k)%Z ->
  let D := (t0 + tm_timeout k)%Z in
  let r := tm_client_call FMbap k la cfg txn o t0 c s in
  let u := client_call FMbap cfg txn o (tm_end D c s) (map snd (tm_avail D s)) in
  tmc_res r = cr_res u /\ map snd (tm_avail D (tmc_rest r)) = cr_rest u.
Proof. exact tm_client_sim_mbap. Qed.

Theorem c07_deadline_view_rtu : forall k la cfg txn o t0 c s,
  op_wf o -> tm_conf_wf k -> tm_gran k = 0%Z ->
  (tm_rtu_read_start k la t0 (tm_req_len cfg o) <= t0 + tm_timeout k)%Z ->
  let D := (t0 + tm_timeout k)%Z in
  tmc_res (tm_client_call FRtu k la cfg txn o t0 c s) =
  cr_res (client_call FRtu cfg txn o (tm_end D c s) (map snd (tm_avail D s))).
Proof. exact tm_client_sim_rtu. Qed.

(* relation to the untimed model: every byte already there when the call
   starts, then silence = Client.client_call with end Stall *)
Theorem c07_untimed_mbap : forall k la cfg txn o t0 s, (0 <= tm_timeout k)%Z ->
  Forall (fun p => (fst p <= t0)%Z) s ->
  let r := tm_client_call FMbap k la cfg txn o t0 None s in
  let u := client_call FMbap cfg txn o Stall (map snd s) in
  tmc_res r = cr_res u /\ map snd (tm_avail (t0 + tm_timeout k) (tmc_rest r)) = cr_rest u.
Proof.
  intros k la cfg txn o t0 s Ht Hs.
  pose proof (tm_client_sim_mbap k la cfg txn o t0 None s Ht) as H. cbv zeta in H.
  rewrite tm_avail_all in H; [exact H|].
  eapply Forall_impl; [|exact Hs]. cbn. intros a Ha. lia.
Qed.

Theorem c07_untimed_rtu : forall k la cfg txn o t0 s,
  op_wf o -> tm_conf_wf k -> tm_gran k = 0%Z ->
  (tm_rtu_read_start k la t0 (tm_req_len cfg o) <= t0 + tm_timeout k)%Z ->
  Forall (fun p => (fst p <= t0)%Z) s ->
  tmc_res (tm_client_call FRtu k la cfg txn o t0 None s) =
  cr_res (client_call FRtu cfg txn o Stall (map snd s)).
Proof.
  intros k la cfg txn o t0 s Hwf Hk Hg Hst Hs.
  pose proof (tm_client_sim_rtu k la cfg txn o t0 None s Hwf Hk Hg Hst) as H. cbv zeta in H.
  rewrite tm_avail_all in H; [exact H|].
  eapply Forall_impl; [|exact Hs]. cbn. intros a Ha. destruct Hk as (Ht & _). lia.
Qed.

(* T4: the measure of the skip loop: a frame that lets readResponse go round
   again has consumed at least 8 bytes of the stream ... *)
Theorem c07_skip_consumes : forall g D c now s r t rest,
  tm_read_mbap g D c now s = (r, t, rest) ->
  match r with
  | FOk _ _ | FErr EUnknownProto => (length rest + 8 <= length s)%nat
  | FErr _ => (length rest <= length s)%nat
  end.
Proof.
  intros g D c now s r t rest H. apply tm_read_mbap_consumes in H as (pre & -> & H).
  rewrite app_length. destruct r as [p tid|[]]; lia.
Qed.

(* ... so one unit of fuel per 8 bytes is enough (the exchange uses |s| + 1) *)
Theorem c07_skip_terminates : forall g D c txn fuel now s, (length s < 8 * fuel)%nat ->
  fst (fst (tm_mbap_read_response fuel g D c txn now s)) <> OutOfFuel.
Proof.
  intros g D c txn fuel now s Hf.
  destruct (tm_mbap_read_response fuel g D c txn now s) as [[r t] rest] eqn:E.
  apply tm_mbap_loop_spec in E as (_ & _ & Ho). exact (Ho Hf).
Qed.

Theorem c07_no_fuel_artefact : forall fr k la cfg txn o t0 c s, op_wf o ->
  tmc_res (tm_client_call fr k la cfg txn o t0 c s) <> Panic /\
  tmc_res (tm_client_call fr k la cfg txn o t0 c s) <> OutOfFuel.
Proof. exact tm_client_no_panic. Qed.

(* on a net.Conn, entered before the deadline: the n bytes at
   max(now, latest arrival among them) when that is <= D ... *)
Theorem c07_read_full_in_time : forall D c n cur s, (cur <= D)%Z -> (n <= length s)%nat ->
  (tm_tmax (firstn n s) cur <= D)%Z ->
  read_full_t 0 D c n cur s =
    TmFull (map snd (firstn n s)) (tm_tmax (firstn n s) cur) (skipn n s).
Proof. intros D c n. exact (rft_full D c n). Qed.

(* ... otherwise what arrived by D and the timeout, at D *)
Theorem c07_read_full_late : forall D n cur s, (cur <= D)%Z ->
  ((length s < n)%nat \/ (D < tm_tmax (firstn n s) cur)%Z) ->
  read_full_t 0 D None n cur s =
    TmShort (map snd (tm_avail D s)) ETimeout D (skipn (length (tm_avail D s)) s).
Proof. intros D n. exact (rft_late D n). Qed.

(* with non-decreasing arrival times that instant is the arrival of the n-th byte *)
Theorem c07_nth_arrival : forall n s cur, tm_sorted s -> (n < length s)%nat ->
  tm_tmax (firstn (S n) s) cur = Z.max cur (fst (nth n s (0%Z, 0))).
Proof. exact tm_tmax_sorted. Qed.

(* non-vacuity: concrete instances of the statements above *)
Definition ex_k : tm_conf := mk_tm_conf 150000000 572916 1750000 0.   (* 150 ms, 19200 bps *)
Definition ex_ks : tm_conf := mk_tm_conf 150000000 572916 1750000 10000000. (* same, serial *)
Definition ex_cfg : ccfg := mkcfg 17 BigE HighFirst.
Definition ex_o : op := OpReadRegs 1 0x10 1 Holding.
Definition ex_mbap_reply : list N := [0; 1; 0; 0; 0; 5; 17; 3; 2; 0xab; 0xcd].
Definition ex_foreign : list N := [0; 9; 0; 0; 0; 5; 17; 3; 2; 0; 0].   (* transaction 9 *)
Definition ex_rtu_reply : list N := assemble_rtu (mkpdu 17 3 [2; 0xab; 0xcd]).
Definition ex_at (t : Z) (l : list N) : list (Z * N) := map (fun b => (t, b)) l.
Definition ex_run fr k s := let r := tm_client_call fr k 0%Z ex_cfg 0 ex_o 1000%Z None s in
                            (tmc_res r, tmc_finish r).

Example c07_ex_conf : tm_conf_wf ex_k /\ tm_conf_wf ex_ks /\ op_wf ex_o /\ valid_op ex_o = true /\
  cfg_wf ex_cfg /\ (tm_rtu_read_start ex_k 0 1000 (tm_req_len ex_cfg ex_o) <= 1000 + tm_timeout ex_k)%Z.
Proof.
  unfold tm_conf_wf, op_wf, cfg_wf, ex_k, ex_ks, ex_o, ex_cfg.
  cbn [tm_timeout tm_t1 tm_t35 tm_gran c_unit].
  repeat split; try lia; vm_compute; (reflexivity || discriminate).
Qed.

(* a reply delayed by 0.8 x timeout is accepted when its last byte arrives *)
Example c07_ex_delayed : ex_run FMbap ex_k (ex_at 120001000 ex_mbap_reply) = (Ok (VNums [0xabcd]), 120001000%Z).
Proof. vm_compute. reflexivity. Qed.

(* a stall after every k < 11 bytes of that reply: timeout at the deadline *)
Example c07_ex_stall : forallb (fun k =>
    match ex_run FMbap ex_k (ex_at 5000 (firstn k ex_mbap_reply)) with
    | (Err ETimeout, t) => (t =? 150001000)%Z
    | _ => false
    end) (seq 0 11) = true.
Proof. vm_compute. reflexivity. Qed.

(* a flood of well-formed frames with a foreign transaction id, one per ms for
   5 x timeout: the skip loop is cut by the deadline it cannot re-arm *)
Example c07_ex_flood :
  ex_run FMbap ex_k (flat_map (fun i => ex_at (1000 + Z.of_nat i * 1000000) ex_foreign) (seq 0 750))
  = (Err ETimeout, 150001000%Z).
Proof. vm_compute. reflexivity. Qed.

(* a trickle, one byte every timeout/4 *)
Example c07_ex_trickle :
  ex_run FMbap ex_k (map (fun i => ((1000 + Z.of_nat i * 37500000)%Z, nth i ex_mbap_reply 0)) (seq 0 11))
  = (Err ETimeout, 150001000%Z).
Proof. vm_compute. reflexivity. Qed.

(* the peer closes after 3 bytes: an i/o error at the close time *)
Example c07_ex_close :
  let r := tm_client_call FMbap ex_k 0%Z ex_cfg 0 ex_o 1000%Z (Some 7000%Z) (ex_at 5000 (firstn 3 ex_mbap_reply)) in
  (tmc_res r, tmc_finish r) = (Err EIO, 7000%Z).
Proof. vm_compute. reflexivity. Qed.

(* RTU: timely reply; garbage with an unknown function code => protocol error,
   256*t1 later the 500 us flush (the call was entered 1 us after the last
   activity: the pre-send wait lasts until la + t35); silence behind the
   serial wrapper *)
Example c07_ex_rtu_ok : ex_run FRtu ex_k (ex_at 30000000 ex_rtu_reply) = (Ok (VNums [0xabcd]), 30000000%Z).
Proof. vm_compute. reflexivity. Qed.

Example c07_ex_rtu_garbage :
  ex_run FRtu ex_k (ex_at 2000 [17; 0x55; 1; 2; 3])
  = (Err EProtocol, (1750000 + 8 * 572916 + 1750000 + 256 * 572916 + 500000)%Z).
Proof. vm_compute. reflexivity. Qed.

Example c07_ex_serial_silence : exists t, ex_run FRtu ex_ks [] = (Err ETimeout, t) /\
  (150001000 < t <= 160001000)%Z.
Proof. eexists. split; [vm_compute; reflexivity|lia]. Qed.

Print Assumptions c07_bound_mbap.
Print Assumptions c07_bound_rtu.
Print Assumptions c07_bound_rtu_netconn.
Print Assumptions c07_bound_rtu_serial.
Print Assumptions c07_silence_mbap.
Print Assumptions c07_silence_rtu.
Print Assumptions c07_silence_serial.
Print Assumptions c07_timeout_not_early_mbap.
Print Assumptions c07_timeout_not_early_rtu.
Print Assumptions c07_timely_reply_mbap.
Print Assumptions c07_timely_reply_rtu.
Print Assumptions c07_deadline_view_mbap.
Print Assumptions c07_deadline_view_rtu.
Print Assumptions c07_untimed_mbap.
Print Assumptions c07_untimed_rtu.
Print Assumptions c07_skip_consumes.
Print Assumptions c07_skip_terminates.
Print Assumptions c07_no_fuel_artefact.
Print Assumptions c07_read_full_in_time.
Print Assumptions c07_read_full_late.
Print Assumptions c07_nth_arrival.
