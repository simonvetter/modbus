(* C14 (continued) - the peer is authenticated NOW, whatever the validity period
   of the local end's own certificate (TLSServerCert / TLSClientCert may be expired
   or not yet valid). Model/TlsLocal.v gives the local key pair a validity period
   and crypto/tls the clock of its configuration (tls.Config.Time); the oracles are
   families indexed by the reading of that clock, and crypto/tls' documentation is
   assumed of each member at its own instant: forall t, tls_srv_documented (hs t)
   verifies t. Lemmas in Proofs/TlsLocalP.v and Proofs/TlsPolicyP.v. *)
From Modbus Require Import Base.Bytes Model.Encoding Model.Wire Model.Client Model.Server
  Model.Role Model.Config Model.TlsPolicy Model.TlsLocal
  Spec.ModbusSpec Spec.ServerSpec Spec.ServerSessionSpec Spec.ConfigSpec Spec.TlsSpec
  Proofs.TlsPolicyP Proofs.TlsLocalP.
From Coq Require String.
Import String.StringSyntax.

(* the instant handed to certificate validation is time.Now(), for every
   configuration (in particular for every local validity period) *)
Theorem c14b_server_check_time : forall now c, tls_server_check_time now c = now.
Proof. reflexivity. Qed.

Theorem c14b_client_check_time : forall now c, tls_client_check_time now c = now.
Proof. reflexivity. Qed.

Section C14b.
  Variable hs hc : N -> tls_policy -> tls_peer -> option tls_session.
  Variable verifies : option (list tls_cert) -> tls_usage -> N -> list N -> list tls_cert -> Prop.
  Variable now : N.

  Section Server.
    Context {St : Type} (h : list N -> handler St).

    (* the serve decision (the whole event list of the connection) is
       independent of the validity period of the server's own certificate,
       and so is the tls.Config the handshake runs under *)
    Theorem c14b_server_local_validity_irrelevant : forall c w peer st e s,
      tls_server_conn_l hs now h (tsl_set_window c w) peer st e s =
      tls_server_conn_l hs now h c peer st e s.
    Proof. intros c w peer st e s. unfold tls_server_conn_l. rewrite tsl_conf_set_window. reflexivity. Qed.

    Theorem c14b_server_policy_local_validity_irrelevant : forall c w,
      tls_policy_of_server (tsl_conf (tsl_set_window c w)) = tls_policy_of_server (tsl_conf c).
    Proof. intros c w. rewrite tsl_conf_set_window. reflexivity. Qed.

    (* T1: a handler invocation implies a peer authenticated at the current
       time, whatever tsl_own c holds *)
    Theorem c14b_server_authenticates_now : forall c rest peer st e s r,
      (forall t, tls_srv_documented (hs t) verifies t) ->
      url_scheme (tsl_url c) STcpTls rest ->
      In (EvCall r) (tls_server_conn_l hs now h c peer st e s) ->
      exists cas sess,
        tsl_cas c = Some cas /\
        hs now (tls_policy_of_server (tsl_conf c)) peer = Some sess /\
        spec_client_authenticated verifies now cas peer sess.
    Proof.
      intros c rest peer st e s r Hdoc.
      exact (tls_server_call_authenticated (hs now) verifies now h (tsl_conf c) rest peer st e s r (Hdoc now)).
    Qed.

    (* a chain that does not verify at the current time is refused: no premise
       about any other instant, the chain may verify at all of them *)
    Theorem c14b_server_refuses_unverified_now : forall c rest peer st e s,
      (forall t, tls_srv_documented (hs t) verifies t) ->
      url_scheme (tsl_url c) STcpTls rest ->
      (forall cas, tsl_cas c = Some cas ->
                   ~ verifies (Some cas) TlsUsageClientAuth now [] (tpe_chain peer)) ->
      forall r, ~ In (EvCall r) (tls_server_conn_l hs now h c peer st e s).
    Proof.
      intros c rest peer st e s Hdoc.
      exact (tls_server_unverified (hs now) verifies now h (tsl_conf c) rest peer st e s (Hdoc now)).
    Qed.

    (* T4: a peer the handshake accepts at the current time is served, whatever
       the validity period of the server's own certificate *)
    Theorem c14b_server_serves : forall c rest peer sess st e t p r tail,
      (forall t, tls_srv_documented (hs t) verifies t) ->
      (forall role, handler_wf (h role)) ->
      url_scheme (tsl_url c) STcpTls rest -> rest <> [] ->
      tsl_own c <> None -> tsl_cas c <> None ->
      hs now (tls_policy_of_server (tsl_conf c)) peer = Some sess ->
      t < 65536 -> pdu_wf p -> spec_decode p = Some r -> in_range r = true ->
      exists leaf more,
        tpe_chain peer = leaf :: more /\
        let role := extract_role (tlc_exts leaf) in
        tls_server_conn_l hs now h c peer st e (spec_mbap t p ++ tail) =
        EvCall r :: EvResp (spec_mbap t (spec_response p r (snd (h role st r)))) ::
        server_run (h role) (fst (h role st r)) e tail.
    Proof.
      intros c rest peer sess st e t p r tail Hdoc Hwf Hu Hr Hown Hcas.
      apply (tls_server_serves (hs now) verifies now h (tsl_conf c) rest peer sess st e t p r tail
               (Hdoc now) Hwf Hu Hr); [|exact Hcas].
      cbn [tsl_conf tsv_cert]. destruct (tsl_own c); [discriminate|destruct (Hown eq_refl)].
    Qed.
  End Server.

  (* the send decision is independent of the validity period of the client's
     own certificate *)
  Theorem c14b_client_local_validity_irrelevant : forall c w server cfg txn o e s,
    tls_client_tx_l hc now (tcl_set_window c w) server cfg txn o e s =
    tls_client_tx_l hc now c server cfg txn o e s.
  Proof. intros c w server cfg txn o e s. unfold tls_client_tx_l. rewrite tcl_conf_set_window. reflexivity. Qed.

  Theorem c14b_client_open_local_validity_irrelevant : forall c w eff server,
    tls_client_open_l hc now (tcl_set_window c w) eff server = tls_client_open_l hc now c eff server.
  Proof. intros c w eff server. unfold tls_client_open_l. rewrite tcl_conf_set_window. reflexivity. Qed.

  Theorem c14b_client_policy_local_validity_irrelevant : forall c w,
    tls_policy_of_client (tcl_conf (tcl_set_window c w)) = tls_policy_of_client (tcl_conf c).
  Proof. intros c w. rewrite tcl_conf_set_window. reflexivity. Qed.

  (* T2: bytes on the connection imply a server authenticated at the current time *)
  Theorem c14b_client_authenticates_now : forall c rest server cfg txn o e s,
    (forall t, tls_cli_documented (hc t) verifies t) ->
    url_scheme (tcl_url_l c) STcpTls rest ->
    tls_client_tx_l hc now c server cfg txn o e s <> [] ->
    exists roots sess,
      tcl_roots_l c = Some roots /\
      hc now (tls_policy_of_client (tcl_conf c)) server = Some sess /\
      spec_server_authenticated verifies now roots (tls_dial_host rest) server sess.
  Proof.
    intros c rest server cfg txn o e s Hdoc.
    exact (tls_client_tx_authenticated (hc now) verifies now (tcl_conf c) rest server cfg txn o e s (Hdoc now)).
  Qed.

  Theorem c14b_client_refuses_unverified_now : forall c rest server cfg txn o e s,
    (forall t, tls_cli_documented (hc t) verifies t) ->
    url_scheme (tcl_url_l c) STcpTls rest ->
    (forall roots, tcl_roots_l c = Some roots ->
       ~ verifies (Some roots) TlsUsageServerAuth now (tls_dial_host rest) (tpe_chain server)) ->
    tls_client_tx_l hc now c server cfg txn o e s = [].
  Proof.
    intros c rest server cfg txn o e s Hdoc Hu Hno.
    apply (tls_client_unauthenticated (hc now) verifies now (tcl_conf c) rest server cfg txn o e s (Hdoc now) Hu).
    intros roots sess Hr (_ & _ & _ & leaf & more & Hch & _ & Hv).
    apply (Hno roots Hr). rewrite Hch. exact Hv.
  Qed.

  (* T4, client side *)
  Theorem c14b_client_sends : forall c rest server sess cfg txn o e s req,
    url_scheme (tcl_url_l c) STcpTls rest ->
    tcl_own c <> None -> tcl_roots_l c <> None ->
    hc now (tls_policy_of_client (tcl_conf c)) server = Some sess ->
    client_request cfg o = Ok req ->
    tls_client_tx_l hc now c server cfg txn o e s = [assemble_mbap (u16 (txn + 1)) req].
  Proof.
    intros c rest server sess cfg txn o e s req Hu Hown Hroots.
    apply (tls_client_sends (hc now) (tcl_conf c) rest server sess cfg txn o e s req Hu); [|exact Hroots].
    cbn [tcl_conf tcl_cert]. destruct (tcl_own c); [discriminate|destruct (Hown eq_refl)].
  Qed.
End C14b.

Print Assumptions c14b_server_check_time.
Print Assumptions c14b_client_check_time.
Print Assumptions c14b_server_local_validity_irrelevant.
Print Assumptions c14b_server_policy_local_validity_irrelevant.
Print Assumptions c14b_server_authenticates_now.
Print Assumptions c14b_server_refuses_unverified_now.
Print Assumptions c14b_server_serves.
Print Assumptions c14b_client_local_validity_irrelevant.
Print Assumptions c14b_client_open_local_validity_irrelevant.
Print Assumptions c14b_client_policy_local_validity_irrelevant.
Print Assumptions c14b_client_authenticates_now.
Print Assumptions c14b_client_refuses_unverified_now.
Print Assumptions c14b_client_sends.

(* Non-vacuity: an oracle family whose verification depends on the instant
   (every certificate has a validity period, looked up by identity) and that
   satisfies the documented premises at every instant; the model run on it
   with local certificates that are expired / not yet valid *)

Definition c14b_toy_window (id : N) : tls_window :=
  if id =? 3 then mk_tls_window 0 150          (* a peer certificate that expired at 150 *)
  else if id =? 4 then mk_tls_window 250 900   (* a peer certificate valid from 250 *)
  else mk_tls_window 0 1000.

Definition c14b_toy_verifiesb (pool : option (list tls_cert)) (t : N) (chain : list tls_cert) : bool :=
  match pool, chain with
  | Some p, leaf :: _ =>
      existsb (fun c => tlc_id c =? tlc_id leaf) p && tls_in_window t (c14b_toy_window (tlc_id leaf))
  | _, _ => false
  end.

Definition c14b_toy_verifies (pool : option (list tls_cert)) (u : tls_usage) (t : N) (host : list N)
                             (chain : list tls_cert) : Prop :=
  c14b_toy_verifiesb pool t chain = true.

Definition c14b_toy_handshake (t : N) (pol : tls_policy) (peer : tls_peer) : option tls_session :=
  if negb (tpe_speaks_tls peer) then None
  else
    match find (fun v => tls_version_geb v (tpo_min_version pol)) (tpe_versions peer) with
    | None => None
    | Some v =>
        if c14b_toy_verifiesb (tpo_pool pol) t (tpe_chain peer)
        then Some (mk_tls_session v (tpe_chain peer)) else None
    end.

Example c14b_toy_srv_documented : forall t, tls_srv_documented (c14b_toy_handshake t) c14b_toy_verifies t.
Proof.
  intros t pol peer sess. unfold c14b_toy_handshake.
  destruct (tpe_speaks_tls peer); [|discriminate]. cbn [negb].
  destruct (find _ (tpe_versions peer)) as [v|] eqn:Ef; [|discriminate].
  apply find_some in Ef. destruct Ef as [Hin Hge].
  destruct (c14b_toy_verifiesb (tpo_pool pol) t (tpe_chain peer)) eqn:Ev; [|discriminate].
  intros [= <-]. cbn [tss_version tss_peer_certs].
  split; [reflexivity|]. split; [exact Hin|]. split; [exact Hge|].
  intros _. split; [reflexivity|]. split; [|exact Ev].
  intros E. rewrite E in Ev. unfold c14b_toy_verifiesb in Ev. destruct (tpo_pool pol); discriminate Ev.
Qed.

Example c14b_toy_cli_documented : forall t, tls_cli_documented (c14b_toy_handshake t) c14b_toy_verifies t.
Proof.
  intros t pol peer sess. unfold c14b_toy_handshake.
  destruct (tpe_speaks_tls peer); [|discriminate]. cbn [negb].
  destruct (find _ (tpe_versions peer)) as [v|] eqn:Ef; [|discriminate].
  apply find_some in Ef. destruct Ef as [Hin Hge].
  destruct (c14b_toy_verifiesb (tpo_pool pol) t (tpe_chain peer)) eqn:Ev; [|discriminate].
  intros [= <-]. cbn [tss_version tss_peer_certs].
  split; [reflexivity|]. split; [exact Hin|]. split; [exact Hge|].
  intros _. split; [reflexivity|]. split; [|exact Ev].
  intros E. rewrite E in Ev. unfold c14b_toy_verifiesb in Ev. destruct (tpo_pool pol); discriminate Ev.
Qed.

Definition c14b_handler : list N -> handler N :=
  fun role st r =>
    (st + 1, mkhres (repeat true (N.to_nat (h_qty r))) (repeat (lenN role) (N.to_nat (h_qty r))) HNone).

Definition c14b_ca : tls_cert := mk_tls_cert 1 [].
Definition c14b_own : tls_cert := mk_tls_cert 2 [].
Definition c14b_peer_expired_150 : tls_cert := mk_tls_cert 3 [].
Definition c14b_peer_valid_from_250 : tls_cert := mk_tls_cert 4 [].
Definition c14b_peer_valid : tls_cert := mk_tls_cert 5 [].

(* the current time is 200; the local certificate expired at 100 (valid from 300) *)
Definition c14b_now : N := 200.
Definition c14b_expired_own : tls_own := mk_tls_own c14b_own (mk_tls_window 0 100).
Definition c14b_notyet_own : tls_own := mk_tls_own c14b_own (mk_tls_window 300 900).

Definition c14b_pool : list tls_cert :=
  [c14b_ca; c14b_peer_expired_150; c14b_peer_valid_from_250; c14b_peer_valid].

Definition c14b_srv_conf (own : tls_own) : tls_srv_conf_l :=
  mk_tls_srv_conf_l (str "tcp+tls://0.0.0.0:802") 0 0 (Some own) (Some c14b_pool).

Definition c14b_cli_conf (own : tls_own) : tls_cli_conf_l :=
  mk_tls_cli_conf_l (str "tcp+tls://10.1.2.3:802") 0 (Some own) (Some c14b_pool).

Definition c14b_request : list N := spec_mbap 7 (mkpdu 1 3 [0; 16; 0; 2]).

(* a server whose own certificate expired at 100 (resp. is valid from 300), at
   time 200: the peer whose certificate expired at 150 (after the local one)
   and the peer whose certificate is valid from 250 (before the local one)
   are refused, the peer with a currently valid certificate is served *)
Example c14b_example_server :
  map (fun cp : tls_own * tls_cert =>
         tls_server_conn_l c14b_toy_handshake c14b_now c14b_handler (c14b_srv_conf (fst cp))
           (mk_tls_peer true [snd cp] [TLS12; TLS13]) 0 Closed c14b_request)
    [(c14b_expired_own, c14b_peer_expired_150); (c14b_expired_own, c14b_peer_valid_from_250);
     (c14b_notyet_own, c14b_peer_expired_150); (c14b_notyet_own, c14b_peer_valid_from_250);
     (c14b_expired_own, c14b_peer_valid); (c14b_notyet_own, c14b_peer_valid)] =
  [[EvClosed]; [EvClosed]; [EvClosed]; [EvClosed];
   [EvCall (mkhreq HHolding 1 16 2 false [] []); EvResp (spec_mbap 7 (mkpdu 1 3 [4; 0; 0; 0; 0])); EvClosed];
   [EvCall (mkhreq HHolding 1 16 2 false [] []); EvResp (spec_mbap 7 (mkpdu 1 3 [4; 0; 0; 0; 0])); EvClosed]].
Proof. vm_compute. reflexivity. Qed.

(* the example discriminates: the same oracle family asked at the instant the
   local certificate expired (100), resp. becomes valid (300), accepts them *)
Example c14b_example_other_instants :
  (tls_is_some (c14b_toy_handshake 100 (tls_policy_of_server (tsl_conf (c14b_srv_conf c14b_expired_own)))
                  (mk_tls_peer true [c14b_peer_expired_150] [TLS12])),
   tls_is_some (c14b_toy_handshake 300 (tls_policy_of_server (tsl_conf (c14b_srv_conf c14b_notyet_own)))
                  (mk_tls_peer true [c14b_peer_valid_from_250] [TLS12])),
   tls_is_some (c14b_toy_handshake c14b_now (tls_policy_of_server (tsl_conf (c14b_srv_conf c14b_expired_own)))
                  (mk_tls_peer true [c14b_peer_expired_150] [TLS12]))) =
  (true, true, false).
Proof. vm_compute. reflexivity. Qed.

(* the client: requests go out to the currently valid server only *)
Example c14b_example_client :
  map (fun cp : tls_own * tls_cert =>
         tls_client_tx_l c14b_toy_handshake c14b_now (c14b_cli_conf (fst cp))
           (mk_tls_peer true [snd cp] [TLS12]) (mkcfg 1 BigE HighFirst) 0
           (OpReadRegs 1 16 2 Holding) Closed [])
    [(c14b_expired_own, c14b_peer_expired_150); (c14b_notyet_own, c14b_peer_valid_from_250);
     (c14b_expired_own, c14b_peer_valid); (c14b_notyet_own, c14b_peer_valid)] =
  [[]; []; [spec_mbap 1 (mkpdu 1 3 [0; 16; 0; 2])]; [spec_mbap 1 (mkpdu 1 3 [0; 16; 0; 2])]].
Proof. vm_compute. reflexivity. Qed.

Example c14b_url_sat : url_scheme (tsl_url (c14b_srv_conf c14b_expired_own)) STcpTls (str "0.0.0.0:802").
Proof. reflexivity. Qed.
