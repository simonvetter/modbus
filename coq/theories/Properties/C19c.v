(* C19, replies that arrive in pieces (header first and the body after a pause,
   byte by byte with gaps, in segments of a gateway). Lemmas:
   Proofs/TimingPiecesP.v. The instant recorded as the end of a received frame is
   a component of the model (a policy); the silence is kept whenever that instant
   is not earlier than the return of the read that consumed the frame's last byte. *)
From Modbus Require Import Base.Bytes Model.Timing Model.TimingPieces Proofs.TimingP Proofs.TimingPiecesP.
Local Open Scope Z_scope.

(* the condition on the policy, and the silence it gives: all ordered pairs
   of exchanges of every history *)
Theorem c19c_silence : forall pol t1 t35 xs s,
  sound_policy pol -> 0 <= t1 -> 0 <= t35 -> Forall step_ok xs ->
  ForallOrdPairs
    (fun e1 e2 => forall f, frame_end e1 = Some f -> f + t35 <= ev_tx_start e2)
    (run_p pol t1 t35 s xs).
Proof. intros. apply run_p_silence; assumption. Qed.

(* by position, at the delays of a rate of the property *)
Theorem c19c_silence_rate : forall pol r xs s i j e1 e2 f,
  sound_policy pol -> 1 <= r -> r <= 10000000 -> Forall step_ok xs -> (i < j)%nat ->
  nth_error (run_p pol (char_time r) (t35 r) s xs) i = Some e1 ->
  nth_error (run_p pol (char_time r) (t35 r) s xs) j = Some e2 ->
  frame_end e1 = Some f -> f + t35 r <= ev_tx_start e2.
Proof.
  intros pol r xs s i j e1 e2 f Hpol H1 H2 Hok Hij Hi Hj Hf.
  destruct (timing_pos r H1 H2) as [Hc Ht].
  assert (Hs := run_p_silence pol (char_time r) (t35 r) xs s Hpol ltac:(lia) ltac:(lia) Hok).
  exact (ordpairs_nth _ _ Hs i j e1 e2 Hij Hi Hj f Hf).
Qed.

(* one step of the invariant *)
Theorem c19c_exchange_invariant : forall pol t1 t35 s x ps s' e,
  sound_policy pol -> 0 <= t1 -> 0 <= t35 -> admissible x -> Forall piece_ok ps ->
  exchange_p pol t1 t35 s x ps = (s', e) ->
  last_activity s + t35 <= ev_tx_start e /\
  last_activity s <= last_activity s' /\
  (forall f, frame_end e = Some f -> f <= last_activity s') /\
  clock s <= clock s'.
Proof. exact exchange_p_facts. Qed.

(* rtu_transport.go stamps time.Now() after the read: a sound policy; so is
   the earliest instant allowed, and everything later than a sound policy *)
Theorem c19c_code_policy_sound : sound_policy stamp_now.
Proof. intros t1 tr _ (_ & _ & H). exact H. Qed.

Theorem c19c_last_read_sound : sound_policy stamp_last_read.
Proof. intros t1 tr _ _. unfold stamp_last_read. lia. Qed.

Theorem c19c_later_sound : forall pol pol', sound_policy pol ->
  (forall t1 tr, pol t1 tr <= pol' t1 tr) -> sound_policy pol'.
Proof.
  intros pol pol' H Hle t1 tr Ht Htr. specialize (H t1 tr Ht Htr). specialize (Hle t1 tr). lia.
Qed.

(* with the code's stamp the refined machine is the machine of C19 run on
   the reads taken together: c19_silence carries over to pieces *)
Theorem c19c_refines : forall t1 t35 xs s,
  run_p stamp_now t1 t35 s xs = run t1 t35 s (map (fun xp => flat (fst xp) (snd xp)) xs).
Proof. intros t1 t35 xs s. apply run_p_flat. Qed.

Theorem c19c_refines_admissible : forall x ps,
  admissible x -> Forall piece_ok ps -> admissible (flat x ps).
Proof. exact flat_admissible. Qed.

(* an end of frame estimated from the header (header time + announced bytes
   at line rate) is NOT such an instant ... *)
Theorem c19c_estimate_unsound : ~ sound_policy stamp_estimate.
Proof.
  (* a header, then a body that comes later than line rate *)
  intros H. specialize (H 1 (mk_rtrace 0 0 4 10 10) ltac:(lia)).
  unfold trace_ok, stamp_estimate in H. cbn [rt_call rt_header rt_need rt_last rt_now] in H. lia.
Qed.

(* the one-sided measurement of the check (an instant not later than the end
   of the received frame, an instant not earlier than the start of the next
   transmission) can never fail a client with a sound policy *)
Theorem c19c_measurement_sound : forall pol r xs s i j e1 e2 f before arrive,
  sound_policy pol -> 1 <= r -> r <= 10000000 -> Forall step_ok xs -> (i < j)%nat ->
  nth_error (run_p pol (char_time r) (t35 r) s xs) i = Some e1 ->
  nth_error (run_p pol (char_time r) (t35 r) s xs) j = Some e2 ->
  frame_end e1 = Some f -> before <= f -> ev_tx_start e2 <= arrive ->
  t35 r <= arrive - before.
Proof.
  intros pol r xs s i j e1 e2 f before arrive Hpol H1 H2 Hok Hij Hi Hj Hf Hb Ha.
  pose proof (c19c_silence_rate pol r xs s i j e1 e2 f Hpol H1 H2 Hok Hij Hi Hj Hf). lia.
Qed.

(* the predicate of the correspondence check (scenario silenceslow): the
   machine run on the delivery plan of the case, nothing but the line taking
   time, keeps exactly t35 whatever the plan is; the predicate is therefore
   the property's inequality, and every sound policy passes it on its own
   run of the plan *)
Theorem c19c_plan_gap : forall rate n segs, 1 <= rate -> rate <= 10000000 ->
  plan_gap stamp_now rate n segs = t35 rate.
Proof. exact plan_gap_now. Qed.

Theorem c19c_silence_okb : forall rate n segs gap, 1 <= rate -> rate <= 10000000 ->
  slow_silence_okb rate n segs gap = true <-> t35 rate <= gap.
Proof.
  intros rate n segs gap H1 H2. unfold slow_silence_okb.
  rewrite (plan_gap_now rate n segs H1 H2). apply Z.leb_le.
Qed.

Theorem c19c_plan_gap_sound : forall pol rate n segs,
  sound_policy pol -> 1 <= rate -> rate <= 10000000 -> 0 <= n -> plan_ok segs ->
  slow_silence_okb rate n segs (plan_gap pol rate n segs) = true.
Proof.
  intros pol rate n segs Hpol H1 H2 Hn Hs. apply c19c_silence_okb; [assumption..|].
  apply plan_gap_sound; assumption.
Qed.

(* non-vacuity. A 9-byte reply at 9600 bps: header, then the six remaining
   bytes 30 ms later (line rate would be 6.9 ms). The code's policy keeps
   t3.5; the estimate leaves no silence at all and is refused by the
   predicate; delivered at line rate the estimate is harmless. *)
Example c19c_ex_plan :
  plan_ok [(3, 0); (6, 30000000)] /\
  plan_gap stamp_now 9600 8 [(3, 0); (6, 30000000)] = 4010415 /\
  plan_gap stamp_last_read 9600 8 [(3, 0); (6, 30000000)] = 4010415 /\
  plan_gap stamp_estimate 9600 8 [(3, 0); (6, 30000000)] = 0 /\
  slow_silence_okb 9600 8 [(3, 0); (6, 30000000)] 0 = false /\
  plan_gap stamp_estimate 9600 8 [(3, 0); (6, 6000000)] = 4885413 /\
  slow_silence_okb 9600 8 [(3, 0); (6, 6000000)] 4885413 = true.
Proof.
  split; [repeat constructor; cbn; lia|]. repeat split; vm_compute; reflexivity.
Qed.

(* byte by byte with gaps of two character times, and in three segments *)
Example c19c_ex_bytes :
  plan_gap stamp_estimate 115200 8
    [(1, 0); (1, 190000); (1, 190000); (1, 190000); (1, 190000); (1, 190000); (1, 190000)] = 1371944 /\
  t35 115200 = 1750000 /\
  plan_gap stamp_now 115200 8 [(2, 0); (3, 400000); (2, 900000)] = 1750000.
Proof. repeat split; vm_compute; reflexivity. Qed.

(* a history with pieces that satisfies the hypotheses of c19c_silence *)
Definition c19c_ex_history : list (xchg * list piece) :=
  [ (mk_xchg 8 Heard 0 10 20 30 40 500 0 7, [mk_piece 3 100 5; mk_piece 4 30000000 9]);
    (mk_xchg 8 Heard 5 0 0 0 0 0 0 0, [mk_piece 1 0 0; mk_piece 1 2000000 0; mk_piece 5 0 700]);
    (mk_xchg 8 Silent 0 3 3 3 3 300000000 0 0, []);
    (mk_xchg 8 Heard 0 0 0 0 0 0 0 0, [mk_piece 7 0 0]) ].
Example c19c_ex_ok : Forall step_ok c19c_ex_history.
Proof. repeat (constructor; [split; [cbn; unfold admissible; cbn; lia | repeat constructor; cbn; lia]|]). constructor. Qed.
Example c19c_ex_run :
  map (fun e => (ev_tx_start e, frame_end e))
      (run_p stamp_now (char_time 9600) (t35 9600) (mk_tstate 0 (-1000000000000)) c19c_ex_history)
  = map (fun e => (ev_tx_start e, frame_end e))
      (run (char_time 9600) (t35 9600) (mk_tstate 0 (-1000000000000))
           (map (fun xp => flat (fst xp) (snd xp)) c19c_ex_history)).
Proof. vm_compute. reflexivity. Qed.

Print Assumptions c19c_silence.
Print Assumptions c19c_silence_rate.
Print Assumptions c19c_exchange_invariant.
Print Assumptions c19c_code_policy_sound.
Print Assumptions c19c_last_read_sound.
Print Assumptions c19c_later_sound.
Print Assumptions c19c_refines.
Print Assumptions c19c_refines_admissible.
Print Assumptions c19c_estimate_unsound.
Print Assumptions c19c_measurement_sound.
Print Assumptions c19c_plan_gap.
Print Assumptions c19c_silence_okb.
Print Assumptions c19c_plan_gap_sound.
