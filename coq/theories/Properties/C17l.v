(* C17, lists: converting a LIST of 16-, 32- or 64-bit values (floats are their
   bit patterns) to register bytes and back, for both byte orders, both word
   orders, every list length and all values. Statements, each with the last step
   of its proof; the lemmas are in Proofs/EncListsP.v. *)
From Modbus Require Import Base.Bytes Model.Encoding Spec.ModbusSpec Model.EncLists Proofs.EncListsP.

(* the register bytes of a list are the documented layout of every value, in
   order (the bounds on the values are not needed, here and in c17l_position:
   encoder and layout agree on any number) *)
Theorem c17l_layout : forall k e w vs, Forall (fun v => v < vbound k) vs ->
  enc_list k e w vs = spec_list k e w vs.
Proof. exact enc_list_layout. Qed.

Theorem c17l_roundtrip : forall k e w vs, Forall (fun v => v < vbound k) vs ->
  dec_list k e w (enc_list k e w vs) = Some vs.
Proof. exact enc_list_roundtrip. Qed.

(* value number i occupies bytes [i*width, (i+1)*width) and these bytes are the
   layout of that value alone, whatever comes before and after it *)
Theorem c17l_position : forall k e w a v b, Forall (fun x => x < vbound k) (a ++ v :: b) ->
  slice (enc_list k e w (a ++ v :: b)) (2 * vregs k * length a) (2 * vregs k * S (length a)) =
  Some (spec_list k e w [v]).
Proof.
  intros k e w a v b H. apply Forall_app in H as [_ H]. apply Forall_inv in H.
  rewrite <- (enc_list_layout k e w [v]) by (constructor; [exact H|constructor]).
  change (v :: b) with ([v] ++ b). rewrite !enc_list_app.
  rewrite <- (enc_list_length k e w a).
  replace (2 * vregs k * S (length a))%nat
    with (length (enc_list k e w a) + length (enc_list k e w [v]))%nat
    by (rewrite !enc_list_length; cbn [length]; lia).
  apply slice_middle.
Qed.

Theorem c17l_length : forall k e w vs, length (enc_list k e w vs) = (2 * vregs k * length vs)%nat.
Proof. exact enc_list_length. Qed.

(* non-vacuity: concrete instances with a word swap on every element *)
Example c17l_ex_u32s : enc_list W32 BigE LowFirst [0x11223344; 0x55667788; 0x99aabbcc] =
  [0x33; 0x44; 0x11; 0x22; 0x77; 0x88; 0x55; 0x66; 0xbb; 0xcc; 0x99; 0xaa].
Proof. reflexivity. Qed.
Example c17l_ex_u64s : dec_list W64 LittleE HighFirst (enc_list W64 LittleE HighFirst [0xfff8000012345678; 1]) =
  Some [0xfff8000012345678; 1].
Proof. reflexivity. Qed.

Print Assumptions c17l_layout.
Print Assumptions c17l_roundtrip.
Print Assumptions c17l_position.
Print Assumptions c17l_length.
