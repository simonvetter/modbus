(* C15 - The client role is taken faithfully from the certificate (lemmas in
   Proofs/RoleP.v, DerP.v, Utf8P.v, RoleSpecP.v). A certificate is its list of
   extensions, each (has the Modbus Role OID, value octets): any number, any order,
   any octet strings; "role_values exts = [v]" reads "exactly one role extension,
   with value v" (c15_exactly_one). 2^31 is the bound Go's encoding/asn1 puts on a
   length (parseTagAndLength refuses to shift a length >= 2^23). *)
From Modbus Require Import Base.Bytes Model.Utf8 Model.Der Model.Role Spec.RoleSpec
  Proofs.Utf8P Proofs.RoleSpecP Proofs.DerP Proofs.RoleP.

(* T1: a non-empty role comes from exactly one role extension whose value is
   precisely the DER UTF8String of that role, and the role is valid UTF-8 *)
Theorem c15_role_sound : forall exts r, all_bytes exts = true ->
  extract_role exts = r -> r <> [] ->
  role_values exts = [der_utf8string r] /\ utf8_valid r = true /\ lenN r < 2 ^ 31.
Proof. exact role_sound. Qed.

(* ... in the vocabulary of the specification *)
Theorem c15_role_sound_spec : forall exts r, all_bytes exts = true ->
  extract_role exts = r -> r <> [] -> states_role exts r.
Proof. exact role_sound_spec. Qed.

(* T2: exactly one role extension with a well-formed UTF8String value: the
   handlers see that string *)
Theorem c15_role_complete : forall exts r, role_values exts = [der_utf8string r] ->
  utf8_valid r = true -> lenN r < 2 ^ 31 -> extract_role exts = r.
Proof. exact role_complete. Qed.

Theorem c15_role_complete_spec : forall exts r, states_role exts r -> lenN r < 2 ^ 31 ->
  extract_role exts = r.
Proof. exact role_complete_spec. Qed.

(* T3: everything else gives the empty role *)
Theorem c15_otherwise_empty : forall exts, all_bytes exts = true ->
  (forall r, role_values exts = [der_utf8string r] -> utf8_valid r = true -> lenN r < 2 ^ 31 -> r = []) ->
  extract_role exts = [].
Proof.
  intros exts Hb H. destruct (extract_role exts) as [|x r] eqn:E; [reflexivity|].
  destruct (role_sound exts (x :: r) Hb E ltac:(discriminate)) as (Ev & Hv & Hl).
  apply (H _ Ev Hv Hl).
Qed.
Theorem c15_absent : forall exts, role_values exts = [] -> extract_role exts = [].
Proof. intros exts Ev. rewrite extract_role_eq. unfold loop_result. rewrite Ev. reflexivity. Qed.
Theorem c15_duplicated : forall exts, (2 <= length (role_values exts))%nat -> extract_role exts = [].
Proof.
  intros exts H. rewrite extract_role_eq. unfold loop_result.
  destruct (role_values exts) as [|v [|w l]]; cbn [length] in H; try lia. reflexivity.
Qed.
(* all 255 other identifier octets, PrintableString, IA5String, ... included *)
Theorem c15_other_tag : forall exts v, role_values exts = [v] -> hd 0 v <> 12 -> extract_role exts = [].
Proof. intros exts v Ev H. apply (role_bad_value exts v Ev), good_value_tag, H. Qed.
Theorem c15_too_short : forall exts v, role_values exts = [v] -> (length v < 2)%nat -> extract_role exts = [].
Proof. intros exts v Ev H. apply (role_undecodable exts v Ev), unmarshal_short, H. Qed.
Theorem c15_trailing_bytes : forall exts s x t, role_values exts = [der_utf8string s ++ x :: t] ->
  lenN s < 2 ^ 31 -> extract_role exts = [].
Proof. intros exts s x t Ev H. apply (role_bad_value exts _ Ev), good_value_trailing, H. Qed.
Theorem c15_invalid_utf8 : forall exts s, role_values exts = [der_utf8string s] ->
  utf8_valid s = false -> lenN s < 2 ^ 31 -> extract_role exts = [].
Proof.
  intros exts s Ev Hv Hl. apply (role_bad_value exts _ Ev). rewrite good_value_der, Hv by exact Hl.
  reflexivity.
Qed.
Theorem c15_truncated : forall exts n s, role_values exts = [12 :: der_len n ++ s] ->
  lenN s < n -> n < 2 ^ 31 -> extract_role exts = [].
Proof.
  intros exts n s Ev Hs Hn. apply (role_undecodable exts _ Ev).
  rewrite unmarshal_list_header by exact Hn. apply body_truncated, Hs.
Qed.
Theorem c15_truncated_length : forall exts b0 b1 t, role_values exts = [b0 :: b1 :: t] -> 128 <= b1 ->
  (length t < N.to_nat (b1 mod 128))%nat -> extract_role exts = [].
Proof.
  intros exts b0 b1 t Ev Hb Ht. apply (role_undecodable exts _ Ev), unmarshal_long; [exact Hb|].
  intros k <-. apply lo_list_short, Ht.
Qed.
Theorem c15_indefinite_length : forall exts b0 t, role_values exts = [b0 :: 0x80 :: t] ->
  extract_role exts = [].
Proof. intros exts b0 t Ev. apply (role_undecodable exts _ Ev). reflexivity. Qed.
Theorem c15_nonminimal_length : forall exts b0 b t, role_values exts = [b0 :: 0x81 :: b :: t] -> b < 128 ->
  extract_role exts = [].
Proof. intros exts b0 b t Ev Hb. apply (role_undecodable exts _ Ev), unmarshal_nonminimal, Hb. Qed.
Theorem c15_leading_zero_length : forall exts b0 b1 t, role_values exts = [b0 :: b1 :: 0 :: t] ->
  128 <= b1 -> extract_role exts = [].
Proof.
  intros exts b0 b1 t Ev Hb. apply (role_undecodable exts _ Ev), unmarshal_long; [exact Hb|].
  intros k _. apply lo_list_zero.
Qed.
Theorem c15_length_too_long : forall exts b0 b1 t, role_values exts = [b0 :: b1 :: t] ->
  0x85 <= b1 < 256 -> extract_role exts = [].
Proof.
  intros exts b0 b1 t Ev Hb. apply (role_undecodable exts _ Ev), unmarshal_long; [lia|].
  intros [|[|[|[|k]]]] Hk; [lia..|]. apply lo_list_5.
Qed.

(* T4: role extraction is total: the run never ends in an out-of-range index
   or slice (DPanic), whatever the extension contents (not even octets) *)
Theorem c15_total : forall exts, extract_role_run exts = DOk (extract_role exts).
Proof. intros exts. rewrite extract_role_eq. apply extract_role_run_eq. Qed.
Theorem c15_decoder_no_panic : forall b1 t, unmarshal_utf8string (12 :: b1 :: t) <> DPanic.
Proof. intros b1 t. rewrite unmarshal_eq. destruct (unmarshal_list _); discriminate. Qed.

(* T5: the validity test is UTF-8 well-formedness *)
Theorem c15_utf8_valid_iff : forall bs, utf8_valid bs = true <-> well_formed_utf8 bs.
Proof. exact utf8_valid_iff. Qed.
Theorem c15_utf8_encode_bytes : forall cps, forallb is_scalar cps = true -> bytesb (utf8_encode cps) = true.
Proof. exact encode_bytes. Qed.
Theorem c15_utf8_encode_injective : forall cps1 cps2,
  forallb is_scalar cps1 = true -> forallb is_scalar cps2 = true ->
  utf8_encode cps1 = utf8_encode cps2 -> cps1 = cps2.
Proof. intros cps1 cps2 _ _. apply utf8_encode_injective. Qed.

(* T6: plain TCP sessions have the empty role; TLS sessions the extracted one *)
Theorem c15_plain_tcp : forall exts, session_role false exts = [].
Proof. reflexivity. Qed.
Theorem c15_tls : forall exts, session_role true exts = extract_role exts.
Proof. reflexivity. Qed.

(* reading of role_values exts = [v] *)
Theorem c15_exactly_one : forall exts v, role_values exts = [v] <->
  exists pre post, exts = pre ++ (true, v) :: post /\
                   forallb (fun e => negb (fst e)) pre = true /\
                   forallb (fun e => negb (fst e)) post = true.
Proof. exact role_values_one. Qed.

(* closed forms of the DER length, for reading der_utf8string *)
Theorem c15_der_len_forms : forall n,
  (n < 128 -> der_len n = [n]) /\
  (128 <= n < 256 -> der_len n = [0x81; n]) /\
  (256 <= n < 65536 -> der_len n = [0x82; n / 256; n mod 256]) /\
  (65536 <= n < 16777216 -> der_len n = [0x83; n / 65536; (n / 256) mod 256; n mod 256]) /\
  (16777216 <= n < 4294967296 ->
   der_len n = [0x84; n / 16777216; (n / 65536) mod 256; (n / 256) mod 256; n mod 256]).
Proof.
  intros n. repeat split.
  - apply der_len_short. - apply der_len_1. - apply der_len_2. - apply der_len_3. - apply der_len_4.
Qed.

Example c15_ex_role :
  extract_role [(false, [1; 2]); (true, [0x0c; 2; 0x41; 0x42]); (false, [])] = [0x41; 0x42].
Proof. reflexivity. Qed.
Example c15_ex_states : states_role [(false, [1; 2]); (true, [0x0c; 2; 0x41; 0x42])] [0x41; 0x42].
Proof. split; [reflexivity|]. exists [0x41; 0x42]. split; reflexivity. Qed.
Example c15_ex_trailing : extract_role [(true, [0x0c; 1; 0x41; 0])] = [].
Proof. reflexivity. Qed.
Example c15_ex_duplicate :
  extract_role [(true, [0x0c; 1; 0x41]); (false, [5]); (true, [0x0c; 1; 0x41])] = [].
Proof. reflexivity. Qed.
Example c15_ex_second_bad_first_good :
  extract_role [(true, [0x0c; 1; 0x41]); (true, [])] = [].
Proof. reflexivity. Qed.
Example c15_ex_printable : extract_role [(true, [0x13; 1; 0x41])] = [].
Proof. reflexivity. Qed.
Example c15_ex_long_form :
  extract_role [(true, der_utf8string (repeat 0x61 300))] = repeat 0x61 300 /\
  firstn 4 (der_utf8string (repeat 0x61 300)) = [0x0c; 0x82; 1; 44].
Proof. split; vm_compute; reflexivity. Qed.
Example c15_ex_nonminimal : extract_role [(true, [0x0c; 0x81; 1; 0x41])] = [].
Proof. reflexivity. Qed.
Example c15_ex_euro : utf8_encode [0x20AC] = [0xE2; 0x82; 0xAC] /\ utf8_valid [0xE2; 0x82; 0xAC] = true.
Proof. split; reflexivity. Qed.
Example c15_ex_bad_utf8 :
  utf8_valid [0xC0; 0x80] = false /\ utf8_valid [0xED; 0xA0; 0x80] = false /\
  utf8_valid [0xF4; 0x90; 0x80; 0x80] = false /\ utf8_valid [0xE2; 0x82] = false /\
  extract_role [(true, [0x0c; 2; 0xC0; 0x80])] = [].
Proof. repeat split; reflexivity. Qed.
Example c15_ex_empty_string : extract_role [(true, [0x0c; 0])] = [].
Proof. reflexivity. Qed.

Print Assumptions c15_role_sound.
Print Assumptions c15_role_sound_spec.
Print Assumptions c15_role_complete.
Print Assumptions c15_role_complete_spec.
Print Assumptions c15_otherwise_empty.
Print Assumptions c15_absent.
Print Assumptions c15_duplicated.
Print Assumptions c15_other_tag.
Print Assumptions c15_too_short.
Print Assumptions c15_trailing_bytes.
Print Assumptions c15_invalid_utf8.
Print Assumptions c15_truncated.
Print Assumptions c15_truncated_length.
Print Assumptions c15_indefinite_length.
Print Assumptions c15_nonminimal_length.
Print Assumptions c15_leading_zero_length.
Print Assumptions c15_length_too_long.
Print Assumptions c15_total.
Print Assumptions c15_decoder_no_panic.
Print Assumptions c15_utf8_valid_iff.
Print Assumptions c15_utf8_encode_bytes.
Print Assumptions c15_utf8_encode_injective.
Print Assumptions c15_plain_tcp.
Print Assumptions c15_tls.
Print Assumptions c15_exactly_one.
Print Assumptions c15_der_len_forms.
