(* C03 / C04 / C13, source level: ModbusServer.handleTransport AS TRANSLATED FROM THE GO SOURCE ON THIS RUN
   (Gen/SrcPure.v), run on the whole translated program with the transport and the user's handler as external
   functions over an arbitrary outside world, is the model's server loop [srv_loop], whose round is
   [server_process] - the function C03.v is about - over the world's handler. Lemmas in Proofs/SrcServer*P.v. *)
From Coq Require Import List NArith String.
Import ListNotations.
From Modbus Require Import Base.Bytes Model.GoLite Gen.SrcPure Model.Wire Model.Server.
From Modbus Require Import Proofs.GoLiteLinkP Proofs.SrcCrcP Proofs.SrcMiscP Proofs.SrcClientP Proofs.SrcServerP.
From Modbus Require Proofs.SrcServerLinkP.
Open Scope string_scope.
Open Scope N_scope.

(* one iteration of the translated loop, for EVERY request the transport may deliver and every state of the locals *)
Theorem c03t_iteration : forall fe fuel W started tt ca cr w rest req,
  world_hyp fe W -> srv_callee_hyp fe -> List.length rest = 18%nat -> snd (w_read W w) = RdOk req ->
  srv_iter_spec fe fuel W started tt ca cr w rest req.
Proof. exact SrcServerLinkP.srv_iteration. Qed.
Print Assumptions c03t_iteration.

(* the whole function, linked: every external function is a function of the world *)
Theorem c03t_handleTransport : forall base fuel W started tt ca cr w,
  world_hyp base W -> (2000 < fuel)%nat ->
  call_with src_pure base fuel "ModbusServer.handleTransport" [started; tt; VN ca; VN cr; w] =
  match srv_loop W ca cr fuel w with
  | Some w' => GoLite.Ok [started; tt; w']
  | None => GoLite.OutOfFuel
  end.
Proof. exact SrcServerLinkP.src_handleTransport_ok. Qed.
Print Assumptions c03t_handleTransport.

(* what one round of [srv_loop] is: the model's server_process over the
   world's handler (this is the definition of [srv_request], unfolded) *)
Theorem c03t_request_is_server_process : forall W ca cr w req,
  srv_request W ca cr w req =
  let '(w1, _, act) := server_process (model_handler W ca cr) w req in
  match act with
  | Respond res => (fst (w_write W w1 res), true)
  | CloseLink => (fst (w_close W w1), false)
  end.
Proof. reflexivity. Qed.
Print Assumptions c03t_request_is_server_process.
