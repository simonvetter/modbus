(* C01 / C02 / C05, source level, END TO END: the translated methods of client.go run ON TOP OF the translated
   tcpTransport.ExecuteRequest (the external function transport.ExecuteRequest of DESIGN.md 13.9 instantiated by the
   run of the translated transport on a peer byte stream) return what the model's client_call returns - the function
   C01.v and C02.v are about - up to the one distinction the model does not make: io.EOF / io.ErrUnexpectedEOF / other
   i/o errors, which the public methods pass through unchanged, are one class (sout_norm). *)
From Coq Require Import List NArith String.
Import ListNotations.
From Modbus Require Import Base.Bytes.
From Modbus Require Import Model.GoLite.
From Modbus Require Import Gen.SrcPure.
From Modbus Require Import Model.Wire.
From Modbus Require Import Model.Client.
From Modbus Require Import Model.Transport.
From Modbus Require Import Proofs.GoLiteLinkP.
From Modbus Require Import Proofs.SrcCrcP.
From Modbus Require Import Proofs.SrcMiscP.
From Modbus Require Import Proofs.SrcClientP.
From Modbus Require Import Proofs.SrcTransportP.
From Modbus Require Import Proofs.SrcClientLinkP.
From Modbus Require Import Proofs.SrcTransportWorldsP.
From Modbus Require Import Proofs.SrcStackP.
Open Scope string_scope.
Open Scope N_scope.

Theorem c01t_reply_well_formed :
  forall (fuel : nat) (tmo last : N) (e : send) (s : list N) (req : pdu),
       treply_wf (src_tcp_reply fuel tmo last e s req).
Proof. exact src_tcp_reply_wf_all. Qed.
Print Assumptions c01t_reply_well_formed.

Theorem c01t_translated_transport_is_model_transport :
  forall (tmo last : N) (e : send) (s : list N) (req : pdu),
       bytesb s = true ->
       pdu_ok req ->
       last < 65536 ->
       reply_rel (src_tcp_reply (S (Datatypes.length s)) tmo last e s req)
         (model_transport FMbap last e s req).
Proof. exact src_tcp_reply_model. Qed.
Print Assumptions c01t_translated_transport_is_model_transport.

Theorem c01t_requests_are_frames :
  forall (cfg : ccfg) (o : op) (req : pdu),
       ClientSpec.op_wf o -> ClientSpec.cfg_wf cfg -> client_request cfg o = MOk req -> pdu_ok req.
Proof. exact client_request_pdu_ok. Qed.
Print Assumptions c01t_requests_are_frames.

Theorem c01t_call_out_stack :
  forall (cfg : ccfg) (o : op) (tmo last : N) (e : send) (s : list N),
       bytesb s = true ->
       last < 65536 ->
       ClientSpec.op_wf o ->
       ClientSpec.cfg_wf cfg ->
       sout_norm (call_out cfg o (xchg (src_tcp_reply (S (Datatypes.length s)) tmo last e s))) =
       sout_of (cr_res (client_call FMbap cfg last o e s)).
Proof.
  intros cfg o tmo last e s Hs Hl Ho Hc. apply call_out_stack_gen. intros req Hr.
  apply src_tcp_reply_model; [exact Hs|exact (client_request_pdu_ok cfg o req Ho Hc Hr)|exact Hl].
Qed.
Print Assumptions c01t_call_out_stack.

Theorem c01t_WriteCoil_stack :
  forall (cfg : ccfg) (tt tmo last : N) (e : send) (s : list N) (fuel : nat) (a : N) (v : bool),
       bytesb s = true ->
       last < 65536 ->
       ClientSpec.cfg_wf cfg ->
       a < 65536 ->
       exists X : sout,
         call_with src_pure (oracle_of (src_tcp_reply (S (Datatypes.length s)) tmo last e s)) fuel
           "ModbusClient.WriteCoil" (mc_fields cfg tt ++ [VN a; VB v]) = out_err (mc_fields cfg tt) X /\
         sout_norm X = sout_of (cr_res (client_call FMbap cfg last (OpWriteCoil a v) e s)).
Proof.
  intros cfg tt tmo last e s fuel a v Hs Hl Hc Ha.
  exists (call_out cfg (OpWriteCoil a v) (xchg (src_tcp_reply (S (List.length s)) tmo last e s))).
  split.
  - apply src_WriteCoil_ok; [apply src_tcp_reply_hyp|exact Ha].
  - apply c01t_call_out_stack; [exact Hs|exact Hl|exact Ha|exact Hc].
Qed.
Print Assumptions c01t_WriteCoil_stack.

Theorem c01t_ReadRegisters_stack :
  forall (cfg : ccfg) (tt tmo last : N) (e : send) (s : list N) (fuel : nat) 
         (a q rtn : N) (rt : regtype),
       bytesb s = true ->
       last < 65536 ->
       ClientSpec.cfg_wf cfg ->
       a < 65536 ->
       q < 65536 ->
       regtype_sel rt rtn ->
       (300 < fuel)%nat ->
       exists X : sout,
         call_with src_pure (oracle_of (src_tcp_reply (S (Datatypes.length s)) tmo last e s)) fuel
           "ModbusClient.ReadRegisters" (mc_fields cfg tt ++ [VN a; VN q; VN rtn]) =
         out_vals (mc_fields cfg tt) X /\
         sout_norm X = sout_of (cr_res (client_call FMbap cfg last (OpReadRegs 1 a q rt) e s)).
Proof.
  intros cfg tt tmo last e s fuel a q rtn rt Hs Hl Hc Ha Hq Hrt Hfuel.
  exists (call_out cfg (OpReadRegs 1 a q rt) (xchg (src_tcp_reply (S (List.length s)) tmo last e s))).
  split.
  - apply src_ReadRegisters_ok; [apply src_tcp_reply_hyp|assumption..].
  - apply c01t_call_out_stack; [exact Hs|exact Hl| |exact Hc].
    cbn [ClientSpec.op_wf]. split; [left; reflexivity|]. split; [exact Ha|exact Hq].
Qed.
Print Assumptions c01t_ReadRegisters_stack.

