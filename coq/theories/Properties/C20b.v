(* C20b - C20 tied to C04. The LOCAL reference device of Properties/C20.v
   (Model/Cli.v: cli_dev_serve, the model of the emulator the real binary is run
   against) is shown to be the server model driving the memory-backed handler of
   C04 (Model/E2E.v), so: CLI command --cli_doc_op (help text)--> typed call
   --C04--> register file (Spec/RegFile.v). Lemmas: Proofs/CliE2EP.v, CliP.v. *)
From Modbus Require Import Base.Bytes Base.Cells Model.Encoding Model.Wire Model.Client Model.Server
  Model.Strconv Model.Cli Model.E2E
  Spec.ModbusSpec Spec.ClientSpec Spec.ServerSpec Spec.ServerSessionSpec Spec.RegFile
  Spec.StrconvSpec Spec.CliSpec
  Proofs.CliP Proofs.CliDevP Proofs.E2EP Proofs.CliE2EP.
From Coq Require String.
Import String.StringSyntax.
Local Delimit Scope string_scope with string.

(* (1) the reference device IS the server model over the register file.
   For every request PDU the server dispatches (Spec/ServerSpec.v: spec_decode
   names the handler invocation r, in_range: not past 0xFFFF) - whatever
   client produced it - the device's reply is the response the server builds
   from what the memory handler returns, and the device's new contents
   correspond to the handler's new memory. *)
Theorem c20b_device_is_server : forall d m p r, cli_dev_sim d m -> rfmem_wf m ->
  spec_decode p = Some r -> in_range r = true ->
  let hr := e2e_mem_handler rf_nofail m r in
  fst (cli_dev_serve d p) = spec_response p r (snd hr) /\
  cli_dev_sim (snd (cli_dev_serve d p)) (fst hr).
Proof. exact dev_agrees_server. Qed.

(* on the wire: one turn of the server's session loop (e2e_serve, the server
   side of the C04 composition) on the MBAP frame of p sends back exactly the
   frame of the device's reply, after ONE handler invocation r *)
Theorem c20b_device_frame : forall d m t p r, t < 65536 -> pdu_wf p -> cli_dev_sim d m -> rfmem_wf m ->
  spec_decode p = Some r -> in_range r = true ->
  exists m',
    e2e_serve rf_nofail m (spec_frame FMbap t p) =
      (m', [r], assemble_mbap t (fst (cli_dev_serve d p)), Stall) /\
    cli_dev_sim (snd (cli_dev_serve d p)) m'.
Proof.
  intros d m t p r Ht Hp Hs Hm Hd Hr.
  destruct (dev_agrees_server d m p r Hs Hm Hd Hr) as [H1 H2]. cbv zeta in H1, H2.
  eexists. split; [|exact H2]. rewrite H1.
  exact (e2e_serve_decoded rf_nofail m t p r Ht Hp rf_nofail_wf Hd Hr).
Qed.

(* for the request of every typed client call within protocol limits: the
   handler sees the invocation the register file names (rf_request) and both
   memories end in the register file's documented store (rf_commit) *)
Theorem c20b_device_serves_call : forall cfg o d m t,
  op_wf o -> valid_op o = true -> cfg_wf cfg -> t < 65536 -> cli_dev_sim d m -> rfmem_wf m ->
  let req := spec_pdu cfg o in
  client_request cfg o = Ok req /\
  e2e_serve rf_nofail m (spec_frame FMbap t req) =
    (rf_commit cfg m o, [rf_request cfg o], assemble_mbap t (fst (cli_dev_serve d req)), Stall) /\
  cli_dev_sim (snd (cli_dev_serve d req)) (rf_commit cfg m o).
Proof. exact dev_serves_op. Qed.

(* in particular for every CLI command within limits (o: the help text's
   operation of the command) *)
Theorem c20b_command_served : forall c o cfg d m t,
  cli_op_wf c -> cli_doc_op c = Some o -> valid_op o = true -> cfg_wf cfg -> t < 65536 ->
  cli_dev_sim d m -> rfmem_wf m ->
  let req := spec_pdu cfg o in
  cli_to_op c = Some o /\ client_request cfg o = Ok req /\
  e2e_serve rf_nofail m (spec_frame FMbap t req) =
    (rf_commit cfg m o, [rf_request cfg o], assemble_mbap t (fst (cli_dev_serve d req)), Stall) /\
  cli_dev_sim (snd (cli_dev_serve d req)) (rf_commit cfg m o).
Proof.
  intros c o cfg d m t Hwf Hd V Hc Ht Hs Hm req.
  destruct (op_agree c o Hwf Hd) as (o' & Ho' & Hwf' & _ & Heq). specialize (Heq V). subst o'.
  split; [exact Ho'|]. exact (dev_serves_op cfg o d m t Hwf' V Hc Ht Hs Hm).
Qed.

(* (2) the history of a command list. sid:n is SetUnitId n; every other
   command is ONE typed call: the documented one (cli_rf_op, from the help
   text) resp. the code's (cli_rf_op_code, 16-bit quantity + 1); the two
   differ only where both are rejected locally. *)
Theorem c20b_history_ops : forall c, cli_op_wf c ->
  (exists u, c = CoSetUnit u /\ cli_rf_op c = RfSetUnit u /\ cli_rf_op_code c = RfSetUnit u) \/
  (exists o o', cli_doc_op c = Some o /\ cli_to_op c = Some o' /\ op_wf o' /\
                valid_op o' = valid_op o /\ (valid_op o = true -> o' = o) /\
                cli_rf_op c = RfCall o /\ cli_rf_op_code c = RfCall o').
Proof. exact rf_op_by_cases. Qed.

Theorem c20b_code_count_irrelevant : forall cs, Forall cli_op_wf cs -> forall s,
  rf_run s (cli_history_code cs) = rf_run s (cli_history cs).
Proof. exact rf_run_code. Qed.

(* (2a) with the library's server model in the loop: one iteration of the
   CLI's execution loop is one step of the C04 composition (client model ->
   MBAP -> server model -> memory handler) - same unit id / encoding, same
   transaction counter, corresponding memories, and the lines printed are the
   rendering of what the composition returned to the caller *)
Theorem c20b_exec_is_composition : forall st s c, cli_op_wf c -> cli_e2e_sim st s ->
  let r := e2e_step rf_nofail s (cli_rf_op_code c) in
  cli_e2e_sim (cli_exec st c) (fst r) /\
  cs_out (cli_exec st c) = cs_out st ++ cli_print c (fst (snd r)).
Proof. exact cli_exec_e2e. Qed.

Theorem c20b_run_is_composition : forall cs st s, Forall cli_op_wf cs -> cli_e2e_sim st s ->
  let r := e2e_run s (cli_history_code cs) in
  cli_e2e_sim (cli_run st cs) (fst r) /\
  cs_out (cli_run st cs) = cs_out st ++ cli_printed_of cs (snd r).
Proof. exact cli_run_e2e. Qed.

Theorem c20b_state_of : forall st, cfg_wf (cs_cfg st) -> cs_txn st < 65536 -> cli_dev_wf (cs_dev st) ->
  cli_e2e_sim st (cli_e2e_of st).
Proof. exact e2e_of_sim. Qed.

(* (2b) composed with C04 (c04_step / c04_history): CLI command -> documented
   operation -> register-file semantics. The final unit id / encoding, the
   final device contents and everything printed are those of the abstract
   register file run on the documented operations of the commands. *)
Theorem c20b_exec_refines_regfile : forall st m c,
  cli_op_wf c -> cfg_wf (cs_cfg st) -> cs_txn st < 65536 -> cli_dev_sim (cs_dev st) m -> rfmem_wf m ->
  let r := rf_step rf_nofail (cs_cfg st, m) (cli_rf_op c) in
  cs_cfg (cli_exec st c) = fst (fst r) /\
  cli_dev_sim (cs_dev (cli_exec st c)) (snd (fst r)) /\ rfmem_wf (snd (fst r)) /\
  cs_txn (cli_exec st c) < 65536 /\
  cs_out (cli_exec st c) = cs_out st ++ cli_print c (fst (snd r)).
Proof. exact cli_exec_refines_rf. Qed.

Theorem c20b_run_refines_regfile : forall cs st m,
  Forall cli_op_wf cs -> cfg_wf (cs_cfg st) -> cs_txn st < 65536 -> cli_dev_sim (cs_dev st) m -> rfmem_wf m ->
  let r := rf_run (cs_cfg st, m) (cli_history cs) in
  cs_cfg (cli_run st cs) = fst (fst r) /\
  cli_dev_sim (cs_dev (cli_run st cs)) (snd (fst r)) /\ rfmem_wf (snd (fst r)) /\
  cs_out (cli_run st cs) = cs_out st ++ cli_printed_of cs (snd r).
Proof. exact cli_run_refines_rf. Qed.

(* from main: an accepted command line (every argument parsed, i.e. by
   c20_grammar_exact a command of the documented grammar) *)
Theorem c20b_main_refines_regfile : forall pf32 pf64,
  (forall s v, pf32 s = Some v -> v < 2 ^ 32) -> (forall s v, pf64 s = Some v -> v < 2 ^ 64) ->
  forall e w u args dev st,
  Forall (fun a => bytesb a = true) args -> bytesb u = true -> cli_dev_wf dev ->
  cli_main pf32 pf64 e w u args dev = CliDone st ->
  exists unit en wo ops,
    sc_parse_uint 64 u = ScOk unit /\ unit < 256 /\
    cli_endian_of e = Some en /\ cli_word_of w = Some wo /\
    Forall2 (fun a o => cli_parse_cmd pf32 pf64 a = CliOk o) args ops /\
    let r := rf_run (mkcfg unit en wo, cli_dev_mem dev) (cli_history ops) in
    cs_cfg st = fst (fst r) /\ cli_dev_sim (cs_dev st) (snd (fst r)) /\
    cs_out st = cli_printed_of ops (snd r).
Proof.
  intros pf32 pf64 B32 B64 e w u args dev st Hb Hu Hd H.
  destruct (main_done pf32 pf64 e w u args dev st H) as (unit & en & wo & ops & H1 & H2 & H3 & H4 & H5 & H6).
  exists unit, en, wo, ops. do 4 (split; [assumption|]). split; [apply parse_all_ok; exact H5|].
  pose proof (parse_all_wf pf32 pf64 B32 B64 args ops Hb H5) as Hall.
  destruct (cli_run_refines_rf ops (mkclist (mkcfg unit en wo) 0 dev [] []) (cli_dev_mem dev) Hall
              ltac:(cbn; exact H2) ltac:(cbn; lia) (dev_mem_sim dev) (dev_mem_wf dev Hd)) as (E1 & E2 & _ & E4).
  cbv zeta in *. cbn [cs_cfg cs_out app] in *. subst st. split; [exact E1|]. split; [exact E2|exact E4].
Qed.

(* rh/ri:T:a+q: value i is decoded (rf_regs_value: most significant word first
   unless low-word-first, each register byte-swapped for little-endian) from
   the registers a + i*w(T) .. a + i*w(T) + w(T) - 1 of the holding (rh) or input
   (ri) table; c20_printed_nums gives the printed address a + i*w(T) *)
Theorem c20b_read_regs : forall st m h t a q,
  t <> CtBytes -> a < 65536 -> q < 65536 -> cfg_wf (cs_cfg st) -> cs_txn st < 65536 ->
  cli_dev_sim (cs_dev st) m -> rfmem_wf m ->
  (q + 1) * cli_width t <= 125 -> a + (q + 1) * cli_width t <= 65536 ->
  let c := CoReadRegs h t a q in
  let w := cli_width t in
  let tbl := if h then rf_holding m else rf_input m in
  cli_rf_op c = RfCall (OpReadRegs w a (q + 1) (if h then Holding else InputReg)) /\
  cs_out (cli_exec st c) = cs_out st ++
    cli_print c (Ok (VNums (map (fun i => rf_regs_value (cs_cfg st) (cells_load tbl (a + N.of_nat i * w) w))
                                (seq 0 (N.to_nat (q + 1)))))) /\
  cli_dev_sim (cs_dev (cli_exec st c)) m.
Proof.
  intros st m h t a q Ht Ha Hq Hc Htx Hsim Hm Hlim Hend c w tbl.
  set (o := OpReadRegs w a (q + 1) (if h then Holding else InputReg)).
  assert (Hd : cli_doc_op c = Some o) by (unfold c, o, w; destruct t; try congruence; reflexivity).
  assert (Hop : cli_rf_op c = RfCall o) by (unfold cli_rf_op, cli_rf_op_by, c; fold c; rewrite Hd; reflexivity).
  assert (Hv : valid_op o = true) by (rewrite (read_regs_valid h t a q o Ht Hd); fold w; lia).
  destruct (exec_valid_rf st m c o (conj Ha Hq) Hop Hv Hc Htx Hsim Hm) as [E5 E2].
  split; [exact Hop|]. split; [|exact E2]. rewrite E5. unfold tbl. destruct h; reflexivity.
Qed.

(* wr:T:a:v: the documented store (rf_value_regs, c04_layout32/64) at a *)
Theorem c20b_write_num : forall st m t a v,
  t <> CtBytes -> a < 65536 -> v < 2 ^ (16 * cli_width t) -> a + cli_width t <= 65536 ->
  cfg_wf (cs_cfg st) -> cs_txn st < 65536 -> cli_dev_sim (cs_dev st) m -> rfmem_wf m ->
  let c := CoWriteNum t a v in
  cs_out (cli_exec st c) = cs_out st ++ [ClWrote] /\
  cli_dev_sim (cs_dev (cli_exec st c))
    (mkrfmem (rf_coils m) (rf_discrete m)
       (cells_store (rf_holding m) a (rf_value_regs (cs_cfg st) (cli_width t) v)) (rf_input m)).
Proof.
  intros st m t a v Ht Ha Hv Hend Hc Htx Hsim Hm c.
  assert (Hwf : cli_op_wf c) by (cbn; repeat split; assumption).
  destruct (width_cases t) as [Hw | Hw2].
  - assert (Hop : cli_rf_op c = RfCall (OpWriteReg a v)).
    { unfold cli_rf_op, cli_rf_op_by, c. cbn [cli_doc_op]. rewrite Hw. reflexivity. }
    assert (Hvalid : valid_op (OpWriteReg a v) = true) by valid_tac.
    rewrite Hw. exact (exec_valid_rf st m c _ Hwf Hop Hvalid Hc Htx Hsim Hm).
  - set (w := cli_width t) in *.
    assert (Hop : cli_rf_op c = RfCall (OpWriteRegs w a [v])).
    { unfold cli_rf_op, cli_rf_op_by, c. cbn [cli_doc_op]. fold w. destruct Hw2 as [-> | ->]; reflexivity. }
    assert (Hvalid : valid_op (OpWriteRegs w a [v]) = true).
    { unfold valid_op. cbn [op_regtype_ok op_count op_limit op_addr lenN length]. destruct Hw2 as [-> | ->]; cbn; lia. }
    destruct (exec_valid_rf st m c _ Hwf Hop Hvalid Hc Htx Hsim Hm) as [E5 E2].
    cbn [rf_commit flat_map] in E2. rewrite app_nil_r in E2. split; [exact E5|exact E2].
Qed.

Theorem c20b_read_bools : forall st m coil a q,
  a < 65536 -> q < 65536 -> cfg_wf (cs_cfg st) -> cs_txn st < 65536 ->
  cli_dev_sim (cs_dev st) m -> rfmem_wf m -> q + 1 <= 2000 -> a + q + 1 <= 65536 ->
  let c := CoReadBools coil a q in
  cs_out (cli_exec st c) = cs_out st ++
    cli_print c (Ok (VBools (cells_load (if coil then rf_coils m else rf_discrete m) a (q + 1)))) /\
  cli_dev_sim (cs_dev (cli_exec st c)) m.
Proof.
  intros st m coil a q Ha Hq Hc Htx Hsim Hm Hlim Hend c.
  set (o := OpReadBools (negb coil) a (q + 1)).
  assert (Hv : valid_op o = true) by (rewrite (read_bools_valid coil a q o eq_refl); lia).
  destruct (exec_valid_rf st m c o (conj Ha Hq) eq_refl Hv Hc Htx Hsim Hm) as [E5 E2].
  split; [|exact E2]. rewrite E5. destruct coil; reflexivity.
Qed.

Theorem c20b_write_coil : forall st m a v,
  a < 65536 -> cfg_wf (cs_cfg st) -> cs_txn st < 65536 -> cli_dev_sim (cs_dev st) m -> rfmem_wf m ->
  let c := CoWriteCoil a v in
  cs_out (cli_exec st c) = cs_out st ++ [ClWrote] /\
  cli_dev_sim (cs_dev (cli_exec st c))
    (mkrfmem (cells_store (rf_coils m) a [v]) (rf_discrete m) (rf_holding m) (rf_input m)).
Proof.
  intros st m a v Ha Hc Htx Hsim Hm c.
  assert (Hvalid : valid_op (OpWriteCoil a v) = true) by valid_tac.
  exact (exec_valid_rf st m c _ Ha eq_refl Hvalid Hc Htx Hsim Hm).
Qed.

Theorem c20b_read_bytes : forall st m h a q,
  a < 65536 -> q < 65536 -> cfg_wf (cs_cfg st) -> cs_txn st < 65536 ->
  cli_dev_sim (cs_dev st) m -> rfmem_wf m -> (q + 2) / 2 <= 125 -> a + (q + 2) / 2 <= 65536 ->
  let c := CoReadRegs h CtBytes a q in
  let tbl := if h then rf_holding m else rf_input m in
  cs_out (cli_exec st c) = cs_out st ++
    cli_print c (Ok (VBytes (firstn (N.to_nat (q + 1))
      (flat_map (rf_reg_bytes (rf_swapped (cs_cfg st) false)) (cells_load tbl a ((q + 2) / 2)))))) /\
  cli_dev_sim (cs_dev (cli_exec st c)) m.
Proof.
  intros st m h a q Ha Hq Hc Htx Hsim Hm Hlim Hend c tbl.
  set (o := OpReadBytes false a (q + 1) (if h then Holding else InputReg)).
  assert (Hv : valid_op o = true) by (rewrite (read_bytes_valid h a q o eq_refl); lia).
  destruct (exec_valid_rf st m c o (conj Ha Hq) eq_refl Hv Hc Htx Hsim Hm) as [E5 E2].
  split; [|exact E2]. rewrite E5. cbn [rf_read o]. replace (q + 1 + 1) with (q + 2) by lia.
  unfold tbl. destruct h; reflexivity.
Qed.

Theorem c20b_write_bytes : forall st m a bs,
  a < 65536 -> bytesb bs = true -> 1 <= (lenN bs + 1) / 2 <= 123 -> a + (lenN bs + 1) / 2 <= 65536 ->
  cfg_wf (cs_cfg st) -> cs_txn st < 65536 -> cli_dev_sim (cs_dev st) m -> rfmem_wf m ->
  let c := CoWriteBytes a bs in
  cs_out (cli_exec st c) = cs_out st ++ [ClWrote] /\
  cli_dev_sim (cs_dev (cli_exec st c))
    (mkrfmem (rf_coils m) (rf_discrete m)
       (cells_store (rf_holding m) a (rf_bytes_regs (rf_swapped (cs_cfg st) false) bs)) (rf_input m)).
Proof.
  intros st m a bs Ha Hb Hn Hend Hc Htx Hsim Hm c.
  assert (Hvalid : valid_op (OpWriteBytes false a bs) = true).
  { unfold valid_op. cbn [op_regtype_ok op_count op_limit op_addr]. lia. }
  exact (exec_valid_rf st m c _ (conj Ha Hb) eq_refl Hvalid Hc Htx Hsim Hm).
Qed.

(* the emulator's initial contents are a 16-bit device and stand for a
   register file *)
Example c20b_ex_init :
  cli_dev_wf cli_dev_init /\ cli_dev_sim cli_dev_init (cli_dev_mem cli_dev_init) /\
  rfmem_wf (cli_dev_mem cli_dev_init) /\
  cli_e2e_sim (mkclist (mkcfg 1 BigE HighFirst) 0 cli_dev_init [] [])
              (cli_e2e_of (mkclist (mkcfg 1 BigE HighFirst) 0 cli_dev_init [] [])).
Proof.
  split; [exact dev_init_wf|]. split; [apply dev_mem_sim|]. split; [exact (dev_mem_wf _ dev_init_wf)|].
  apply e2e_of_sim; [reflexivity|reflexivity|exact dev_init_wf].
Qed.

(* a request the server dispatches: read holding registers 5..6 of unit 1.
   The server model over the emulator's initial contents invokes the handler
   once and sends back the frame of the device's reply *)
Example c20b_ex_frame :
  let p := mkpdu 1 3 [0; 5; 0; 2] in
  let r := mkhreq HHolding 1 5 2 false [] [] in
  pdu_wf p /\ spec_decode p = Some r /\ in_range r = true /\
  (let '(_, calls, reply, e) := e2e_serve rf_nofail (cli_dev_mem cli_dev_init) (spec_frame FMbap 7 p) in
   (calls, reply, e)) =
  ([r], assemble_mbap 7 (fst (cli_dev_serve cli_dev_init p)), Stall) /\
  assemble_mbap 7 (fst (cli_dev_serve cli_dev_init p)) =
    [0; 7; 0; 0; 0; 7; 1; 3; 4; 0x29; 0x47; 0xc7; 0x7e].
Proof.
  cbv zeta. split; [unfold pdu_wf; cbn; repeat split; try lia; reflexivity|].
  vm_compute. repeat split; reflexivity.
Qed.

Definition c20b_nof : list N -> option N := fun _ => None.

(* "wr:uint32:0x10:0x11223344 rh:uint32:0x10 rh:uint16:0x10+1 sid:9 wc:3:true
   rc:2+2 rh:uint64:0+31" with --endianness little --word-order lowfirst:
   accepted, well formed; the last command is over the limit *)
Definition c20b_ex_args : list (list N) :=
  [sc_str "wr:uint32:0x10:0x11223344"%string; sc_str "rh:uint32:0x10"%string;
   sc_str "rh:uint16:0x10+1"%string; sc_str "sid:9"%string; sc_str "wc:3:true"%string;
   sc_str "rc:2+2"%string; sc_str "rh:uint64:0+31"%string].

Definition c20b_ex_ops : list cli_operation :=
  [CoWriteNum CtU32 16 0x11223344; CoReadRegs true CtU32 16 0; CoReadRegs true CtU16 16 1;
   CoSetUnit 9; CoWriteCoil 3 true; CoReadBools true 2 2; CoReadRegs true CtU64 0 31].

Example c20b_ex_parse :
  cli_parse_all c20b_nof c20b_nof c20b_ex_args = CliOk c20b_ex_ops /\ Forall cli_op_wf c20b_ex_ops.
Proof.
  split; [vm_compute; reflexivity|].
  unfold c20b_ex_ops. repeat (apply Forall_cons; [cbn; repeat split; try lia; try discriminate|]); try apply Forall_nil;
    vm_compute; reflexivity.
Qed.

(* the documented history of the command line *)
Example c20b_ex_history :
  map snd (cli_history c20b_ex_ops) =
  [RfCall (OpWriteRegs 2 16 [0x11223344]); RfCall (OpReadRegs 2 16 1 Holding);
   RfCall (OpReadRegs 1 16 2 Holding); RfSetUnit 9; RfCall (OpWriteCoil 3 true);
   RfCall (OpReadBools false 2 3); RfCall (OpReadRegs 4 0 32 Holding)].
Proof. vm_compute. reflexivity. Qed.

(* the CLI run against the emulator prints what the register file returns:
   the value written comes back, the two registers hold the low word first,
   each byte-swapped; the over-limit read fails locally *)
Example c20b_ex_run :
  let out := cli_main c20b_nof c20b_nof (sc_str "little"%string) (sc_str "lowfirst"%string) (sc_str "1"%string)
               c20b_ex_args cli_dev_init in
  let r := rf_run (mkcfg 1 LittleE LowFirst, cli_dev_mem cli_dev_init) (cli_history c20b_ex_ops) in
  cli_printed out = cli_printed_of c20b_ex_ops (snd r) /\
  cli_printed out =
    [ClWrote; ClNum 2 16 0x11223344; ClNum 1 16 0x3344; ClNum 1 17 0x1122; ClWrote;
     ClBool 2 false; ClBool 3 true; ClBool 4 true; ClFail] /\
  map snd (snd r) =
    [[mkhreq HHolding 1 16 2 true [] [0x4433; 0x2211]]; [mkhreq HHolding 1 16 2 false [] []];
     [mkhreq HHolding 1 16 2 false [] []]; []; [mkhreq HCoils 9 3 1 true [true] []];
     [mkhreq HCoils 9 2 3 false [] []]; []] /\
  cells_load (rf_holding (snd (fst r))) 15 4 = [cli_pat_hold 15; 0x4433; 0x2211; cli_pat_hold 18].
Proof. vm_compute. repeat split; reflexivity. Qed.

Print Assumptions c20b_device_is_server.
Print Assumptions c20b_device_frame.
Print Assumptions c20b_device_serves_call.
Print Assumptions c20b_command_served.
Print Assumptions c20b_history_ops.
Print Assumptions c20b_code_count_irrelevant.
Print Assumptions c20b_exec_is_composition.
Print Assumptions c20b_run_is_composition.
Print Assumptions c20b_state_of.
Print Assumptions c20b_exec_refines_regfile.
Print Assumptions c20b_run_refines_regfile.
Print Assumptions c20b_main_refines_regfile.
Print Assumptions c20b_read_regs.
Print Assumptions c20b_write_num.
Print Assumptions c20b_read_bools.
Print Assumptions c20b_write_coil.
Print Assumptions c20b_read_bytes.
Print Assumptions c20b_write_bytes.
