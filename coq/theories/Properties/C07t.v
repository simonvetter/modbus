(* C07, source level: the serial port wrapper of serial.go AS TRANSLATED FROM THE GO SOURCE ON THIS RUN (the port and
   the clock as external functions over the world). For EVERY port: Read called after the deadline returns the
   request-timed-out error without touching the port or the buffer; before the deadline it hands out what the port
   read, and the driver's own short timeout is masked as "no data, no error" so that io.ReadFull calls again - until
   the deadline check ends the loop; SetDeadline only stores the instant. *)
From Coq Require Import List NArith String.
Import ListNotations.
From Modbus Require Import Base.Bytes.
From Modbus Require Import Model.GoLite.
From Modbus Require Import Gen.SrcPure.
From Modbus Require Import Model.Wire.
From Modbus Require Import Model.Client.
From Modbus Require Import Model.Transport.
From Modbus Require Import Proofs.GoLiteLinkP.
From Modbus Require Import Proofs.SrcCrcP.
From Modbus Require Import Proofs.SrcMiscP.
From Modbus Require Import Proofs.SrcClientP.
From Modbus Require Import Proofs.SrcTransportP.
From Modbus Require Import Proofs.SrcWrapP.
From Modbus Require Import Proofs.SrcSerialP.
Open Scope string_scope.
Open Scope N_scope.

Theorem c07t_serial_Read :
  forall (base : fenv) (fuel : nat) (T : tworld) (deadline : N) (buf : list N) (w : val),
       port_hyp base T ->
       tread_wf T ->
       lenN buf < 2 ^ 32 ->
       call_with src_pure base fuel "serialPortWrapper.Read" [VN deadline; vbytes buf; w] =
       out_serial_read T deadline buf w.
Proof.
  intros base fuel T deadline buf w HT Hwf Hlen.
  link_step "serialPortWrapper.Read" src_fn_serialPortWrapper_Read.
  apply run_serial_Read; [apply port_hyp_env, HT|assumption..].
Qed.
Print Assumptions c07t_serial_Read.

Theorem c07t_serial_Write :
  forall (base : fenv) (fuel : nat) (T : tworld) (deadline : N) (buf : list N) (w : val),
       port_hyp base T ->
       call_with src_pure base fuel "serialPortWrapper.Write" [VN deadline; vbytes buf; w] =
       out_serial_write T deadline buf w.
Proof.
  intros base fuel T deadline buf w HT.
  link_step "serialPortWrapper.Write" src_fn_serialPortWrapper_Write.
  apply run_serial_Write, port_hyp_env, HT.
Qed.
Print Assumptions c07t_serial_Write.

Theorem c07t_serial_SetDeadline :
  forall (base : fenv) (fuel : nat) (deadline d : N) (w : val),
       call_with src_pure base fuel "serialPortWrapper.SetDeadline" [VN deadline; VN d; w] =
       out_serial_setdl d w.
Proof.
  intros base fuel deadline d w.
  link_step "serialPortWrapper.SetDeadline" src_fn_serialPortWrapper_SetDeadline.
  apply run_serial_SetDeadline.
Qed.
Print Assumptions c07t_serial_SetDeadline.

Theorem c07t_serial_Close :
  forall (base : fenv) (fuel : nat) (T : tworld) (deadline : N) (w : val),
       port_hyp base T ->
       call_with src_pure base fuel "serialPortWrapper.Close" [VN deadline; w] =
       out_serial_close T deadline w.
Proof.
  intros base fuel T deadline w HT.
  link_step "serialPortWrapper.Close" src_fn_serialPortWrapper_Close.
  apply run_serial_Close, port_hyp_env, HT.
Qed.
Print Assumptions c07t_serial_Close.

Theorem c07t_read_after_deadline :
  forall (T : tworld) (ct st deadline : N) (buf : list N) (w : val),
       deadline < snd (t_now T w) -> t_serial_read T ct st deadline buf w = (buf, fst (t_now T w), 0, ct).
Proof.
  intros T ct st deadline buf w H.
  unfold t_serial_read.
  destruct (t_now T w) as [w0 now]. cbn [fst snd] in *.
  apply N.ltb_lt in H. rewrite H. reflexivity.
Qed.
Print Assumptions c07t_read_after_deadline.

Theorem c07t_read_masks_driver_timeout :
  forall (T : tworld) (ct st deadline : N) (buf : list N) (w : val),
       snd (t_now T w) <= deadline ->
       st <> 0 ->
       let
       '(w1, got, e) := t_readfull T (fst (t_now T w)) (lenN buf) in
        e = st ->
        t_serial_read T ct st deadline buf w =
        ((got ++ skipn (Datatypes.length got) buf)%list, w1, lenN got, 0).
Proof.
  intros T ct st deadline buf w H Hst.
  unfold t_serial_read.
  destruct (t_now T w) as [w0 now]. cbn [fst snd] in *.
  destruct (t_readfull T w0 (lenN buf)) as [[w1 got] e].
  intros ->.
  apply N.ltb_ge in H. rewrite H.
  apply N.eqb_neq in Hst. rewrite Hst, N.eqb_refl. reflexivity.
Qed.
Print Assumptions c07t_read_masks_driver_timeout.

