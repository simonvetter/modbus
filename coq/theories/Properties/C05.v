(* C05 - Replies are matched to requests by transaction id. Lemmas:
   Proofs/TxnP.v. Model: Model/Wire.v (readMBAPFrame, readResponse),
   Model/Client.v (ExecuteRequest, executeRequest), Model/TxnHistory.v (a
   history of calls on one connection: the counter and the unread peer bytes
   are carried from call to call). Vocabulary: Spec/ClientSpec.v, Spec/TxnSpec.v. *)
From Modbus Require Import Base.Bytes Model.Crc Model.Encoding Model.Wire Model.Client
  Model.TxnHistory Spec.ModbusSpec Spec.ClientSpec Spec.TxnSpec Proofs.TxnP.

(* T1: the request goes out with the incremented counter t'; if the exchange
   returns a reply PDU, that PDU is the content of a frame of the stream, at a
   frame boundary, whose header carries protocol id 0 and transaction id t';
   every frame before it had a foreign protocol id or another transaction id;
   what follows it stays unread. Every byte stream. *)
Theorem c05_reply_matches : forall txn req e s p w rest t',
  bytesb s = true ->
  transport_exchange FMbap txn req e s = (Ok p, w, rest, t') ->
  t' = u16 (txn + 1) /\ w = [spec_frame FMbap t' req] /\
  exists frames,
    Forall (skippable t') frames /\
    s = concat frames ++ spec_frame FMbap t' p ++ rest /\
    lenN (p_payload p) <= 252.
Proof. exact exchange_reply_matches. Qed.

(* T2a: frames with a foreign protocol id or another transaction id - any
   number, any content - are never returned and have no influence at all: the
   outcome, the bytes left unread and the counter are those of the same
   stream without them *)
Theorem c05_skipped_transparent : forall txn req e frames rest,
  Forall (skippable (u16 (txn + 1))) frames ->
  transport_exchange FMbap txn req e (concat frames ++ rest) =
  transport_exchange FMbap txn req e rest.
Proof. exact exchange_skips. Qed.

(* T2b: a stream made only of such frames (followed by nothing, or by less
   than a header): the call reads on until the stream is exhausted and then
   fails with the error of the stream end - never with a reply *)
Theorem c05_keeps_waiting : forall txn req e frames tail,
  Forall (skippable (u16 (txn + 1))) frames -> (length tail < 7)%nat ->
  transport_exchange FMbap txn req e (concat frames ++ tail) =
  (Err (short_err e), [assemble_mbap (u16 (txn + 1)) req], [], u16 (txn + 1)).
Proof. exact exchange_waits. Qed.

(* ... which for a silent peer is the timeout, at the level of the public call *)
Theorem c05_call_times_out : forall cfg txn o frames tail,
  op_wf o -> valid_op o = true ->
  Forall (skippable (u16 (txn + 1))) frames -> (length tail < 7)%nat ->
  let r := client_call FMbap cfg txn o Stall (concat frames ++ tail) in
  cr_res r = Err ETimeout /\ cr_rest r = [] /\ cr_txn r = u16 (txn + 1).
Proof. intros cfg txn o. exact (call_waits cfg txn o Stall). Qed.

(* T3a: over any history (any byte streams, any outcomes) the counter
   advances by exactly one per transmitted request, modulo 2^16 *)
Theorem c05_counter : forall cfg xs st,
  Forall (fun x => op_wf (ths_op x)) xs -> th_txn st < 65536 ->
  th_txn (hist_final FMbap cfg st xs) = (th_txn st + th_sent xs) mod 65536.
Proof. exact hist_counter. Qed.

(* T3b: the request at any position of any history is sent with transaction id
   (counter + number of requests transmitted before it + 1) mod 2^16; locally
   rejected calls transmit nothing *)
Theorem c05_request_id : forall cfg st pre x post d,
  cfg_wf cfg -> th_txn st < 65536 ->
  Forall (fun x => op_wf (ths_op x)) (pre ++ x :: post) ->
  let r := nth (length pre) (hist_run FMbap cfg st (pre ++ x :: post)) d in
  (valid_op (ths_op x) = true ->
   cr_writes r = [spec_frame FMbap (th_id (th_txn st) (th_sent pre)) (spec_pdu cfg (ths_op x))]) /\
  (valid_op (ths_op x) = false -> cr_writes r = [] /\ cr_res r = Err EParams).
Proof. exact hist_request_id. Qed.

(* T3c: requests i and i + k carry different ids for 0 < k < 65536; the bound
   is exact (the 16-bit counter wraps); a fresh client starts with id 1 *)
Theorem c05_ids_distinct : forall txn0 i k, 0 < k < 65536 ->
  th_id txn0 (i + k) <> th_id txn0 i.
Proof. intros txn0 i k Hk. rewrite th_id_eq. lia. Qed.

Theorem c05_ids_period : forall txn0 i, th_id txn0 (i + 65536) = th_id txn0 i.
Proof. intros txn0 i. apply th_id_eq. lia. Qed.

Theorem c05_ids_fresh : forall i, i < 65535 -> th_id (th_txn th_init) i = i + 1.
Proof. intros i H. cbn [th_txn th_init]. unfold th_id. lia. Qed.

(* T4a: every finite history in which the peer delivers whole frames, each
   either built as the reply to some request i (any i: on time, late, early,
   duplicated, in any order) or carrying a foreign protocol id, during any
   call. Request number j = length pre sees the frames still pending plus
   those delivered during the call, and
   - returns exactly what a lone, on-time delivery of the FIRST pending reply
     built for a request i with i = j (mod 2^16) would return, leaving the
     frames behind it pending, or
   - if there is no such frame, fails with the error of the stream end (the
     timeout for a silent peer) having passed over everything pending. *)
Theorem c05_history : forall cfg txn0 pend0 e0 pre x post d,
  txn0 < 65536 -> Forall th_frame_wf pend0 -> Forall th_sstep_ok (pre ++ x :: post) ->
  let j := lenN pre in
  let t := (txn0 + j) mod 65536 in
  let e := th_end_after (th_end_run e0 pre) (ss_end x) in
  let all := th_pending 0 pend0 pre ++ ss_frames x in
  let r := nth (length pre)
             (hist_run FMbap cfg (mkth txn0 (th_stream txn0 pend0) e0)
                (map (th_concrete txn0) (pre ++ x :: post))) d in
  match th_take j all with
  | Some (res, rest) =>
      cr_res r = cr_res (client_call FMbap cfg t (ss_op x) e (spec_frame FMbap (th_id txn0 j) res)) /\
      cr_rest r = th_stream txn0 rest
  | None => cr_res r = Err (short_err e) /\ cr_rest r = []
  end.
Proof. exact hist_frames. Qed.

Theorem c05_rule_some : forall j pend res rest,
  th_take j pend = Some (res, rest) <->
  exists skipped i,
    pend = skipped ++ ThReply i res :: rest /\ i mod 65536 = j mod 65536 /\
    Forall (fun f => th_accepts j f = false) skipped.
Proof. exact th_take_some. Qed.

Theorem c05_rule_none : forall j pend,
  th_take j pend = None <-> Forall (fun f => th_accepts j f = false) pend.
Proof. exact th_take_none. Qed.

(* T4b: if request j succeeds, the frame it consumed was built for a request i
   with i = j (mod 2^16), i.e. with j's transaction id *)
Theorem c05_no_misattribution : forall cfg txn0 pend0 e0 pre x post d vs,
  txn0 < 65536 -> Forall th_frame_wf pend0 -> Forall th_sstep_ok (pre ++ x :: post) ->
  let j := lenN pre in
  let r := nth (length pre)
             (hist_run FMbap cfg (mkth txn0 (th_stream txn0 pend0) e0)
                (map (th_concrete txn0) (pre ++ x :: post))) d in
  cr_res r = Ok vs ->
  exists skipped i res rest,
    th_pending 0 pend0 pre ++ ss_frames x = skipped ++ ThReply i res :: rest /\
    i mod 65536 = j mod 65536 /\
    th_id txn0 i = th_id txn0 j /\
    Forall (fun f => th_accepts j f = false) skipped /\
    cr_res (client_call FMbap cfg ((txn0 + j) mod 65536) (ss_op x)
              (th_end_after (th_end_run e0 pre) (ss_end x))
              (spec_frame FMbap (th_id txn0 j) res)) = Ok vs /\
    cr_rest r = th_stream txn0 rest.
Proof. exact hist_no_misattribution. Qed.

(* T4c: a late reply to request i is passed over by requests i+1 .. i+65535
   (and so are foreign-protocol frames by every request); at distance 65536
   the ids coincide and the stale reply is taken *)
Theorem c05_late_reply_passed_over : forall i k res, 0 < k < 65536 ->
  th_accepts (i + k) (ThReply i res) = false.
Proof. intros i k res Hk. cbn [th_accepts]. apply N.eqb_neq. lia. Qed.

Theorem c05_foreign_passed_over : forall j t proto res,
  th_accepts j (ThForeign t proto res) = false.
Proof. reflexivity. Qed.

Theorem c05_late_reply_at_wrap : forall i res, th_accepts (i + 65536) (ThReply i res) = true.
Proof. intros i res. cbn [th_accepts]. apply N.eqb_eq. lia. Qed.

(* non-vacuity: concrete instances of the statements above *)
Definition c05_cfg : ccfg := mkcfg 1 BigE HighFirst.
Definition c05_read : op := OpReadRegs 1 0 1 Holding.
Definition c05_reply (v : N) : pdu := mkpdu 1 3 [2; v / 256; v mod 256].

(* a fresh client: request 0 gets nothing; during request 1 arrive the late
   reply to request 0, a foreign-protocol frame carrying request 1's id, the
   reply to request 1 - twice; request 2 finds the duplicate and nothing
   else; request 3 is answered on time *)
Definition c05_script : list th_sstep :=
  [ mksstep c05_read [] Stall;
    mksstep c05_read [ThReply 0 (c05_reply 100); ThForeign 2 7 (c05_reply 999);
                      ThReply 1 (c05_reply 101); ThReply 1 (c05_reply 101)] Stall;
    mksstep c05_read [] Stall;
    mksstep c05_read [ThReply 3 (c05_reply 103)] Stall ].

Example c05_script_ok : Forall th_sstep_ok c05_script.
Proof.
  assert (Hop : op_wf c05_read /\ valid_op c05_read = true).
  { split; [|reflexivity]. cbn. repeat split; try reflexivity. left. reflexivity. }
  destruct Hop as [Hwf V].
  assert (Hl : forall v, lenN (p_payload (c05_reply v)) <= 252) by (intros v; cbn; lia).
  repeat constructor; try exact Hwf; try exact V; try apply Hl; try lia; try reflexivity.
Qed.

Example c05_script_run :
  map (fun r => (cr_res r, cr_rest r))
      (hist_run FMbap c05_cfg th_init (map (th_concrete 0) c05_script)) =
  [ (Err ETimeout, []);
    (Ok (VNums [101]), th_stream 0 [ThReply 1 (c05_reply 101)]);
    (Err ETimeout, []);
    (Ok (VNums [103]), []) ].
Proof. vm_compute. reflexivity. Qed.

Example c05_script_ids :
  map cr_writes (hist_run FMbap c05_cfg th_init (map (th_concrete 0) c05_script)) =
  [ [[0;1; 0;0; 0;6; 1; 3; 0;0; 0;1]]; [[0;2; 0;0; 0;6; 1; 3; 0;0; 0;1]];
    [[0;3; 0;0; 0;6; 1; 3; 0;0; 0;1]]; [[0;4; 0;0; 0;6; 1; 3; 0;0; 0;1]] ].
Proof. vm_compute. reflexivity. Qed.

(* the counter wraps: after id 65535 comes id 0, and a stale frame carrying
   the id that is current 65536 requests later is taken *)
Example c05_wrap_ids : th_id 0 65534 = 65535 /\ th_id 0 65535 = 0 /\ th_id 0 65536 = 1 /\ th_id 0 0 = 1.
Proof. vm_compute. repeat split; reflexivity. Qed.

Example c05_wrap_run :
  map (fun r => (cr_res r, cr_txn r))
      (hist_run FMbap c05_cfg (mkth 65534 [] Stall)
         [ mkthstep c05_read (spec_frame FMbap 65535 (c05_reply 7)) Stall;
           mkthstep c05_read (spec_frame FMbap 65535 (c05_reply 8)) Stall;
           mkthstep c05_read (spec_frame FMbap 1 (c05_reply 9)) Stall ]) =
  [ (Ok (VNums [7]), 65535); (Err ETimeout, 0); (Ok (VNums [9]), 1) ].
Proof. vm_compute. reflexivity. Qed.

(* skippable frames exist: another transaction id, a foreign protocol id *)
Example c05_skippable_sat :
  Forall (skippable (u16 (4 + 1)))
    [ [0;4; 0;0; 0;5; 1; 3; 2; 0;9]; [0;5; 0;7; 0;5; 1; 3; 2; 0;9] ].
Proof.
  constructor; [|constructor; [|constructor]].
  - exists 4, 0, 1, 3, [2; 0; 9]. split; [reflexivity|].
    unfold lenN, u16. cbn [length]. repeat split; lia.
  - exists 5, 7, 1, 3, [2; 0; 9]. split; [reflexivity|].
    unfold lenN, u16. cbn [length]. repeat split; lia.
Qed.

Print Assumptions c05_reply_matches.
Print Assumptions c05_skipped_transparent.
Print Assumptions c05_keeps_waiting.
Print Assumptions c05_call_times_out.
Print Assumptions c05_counter.
Print Assumptions c05_request_id.
Print Assumptions c05_ids_distinct.
Print Assumptions c05_ids_period.
Print Assumptions c05_ids_fresh.
Print Assumptions c05_history.
Print Assumptions c05_rule_some.
Print Assumptions c05_rule_none.
Print Assumptions c05_no_misattribution.
Print Assumptions c05_late_reply_passed_over.
Print Assumptions c05_foreign_passed_over.
Print Assumptions c05_late_reply_at_wrap.
