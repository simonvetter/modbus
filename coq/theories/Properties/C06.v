(* C06 - RTU frames carry a correct CRC-16 and corruption is never accepted.
   Checksum part: statements, each with the last step of its proof; the lemmas
   are in Proofs/CrcP.v. The client-level statements are in C06b.v. *)
From Modbus Require Import Base.Bytes Model.Crc Spec.ModbusSpec Proofs.CrcP.

(* T1: the table-driven checksum is the bit-serial CRC-16/MODBUS
   (reflected polynomial 0xA001, initial value 0xFFFF) for every byte string *)
Theorem c06_table_is_bitserial : forall l, bytesb l = true -> crc16 l = crc_ref l.
Proof. exact crc16_is_ref. Qed.

(* T2: however the bytes are fed *)
Theorem c06_chunking : forall s a b, crc_from s (a ++ b) = crc_from (crc_from s a) b.
Proof. exact crc_from_app. Qed.
Theorem c06_chunks : forall s chunks, crc_from s (concat chunks) = fold_left crc_from chunks s.
Proof. exact crc_from_concat. Qed.

(* T4: GF(2) linearity *)
Theorem c06_linear : forall s m e, length m = length e -> bytesb m = true -> bytesb e = true ->
  crc_from s (xor_bytes m e) = N.lxor (crc_from s m) (crc_from 0 e).
Proof. exact crc_from_xor. Qed.

(* acceptance test = zero residue = trailer equals the low-byte-first CRC *)
Theorem c06_accept_iff : forall s lo hi, s < 65536 -> lo < 256 -> hi < 256 ->
  crc_is_equal s lo hi = true <-> [lo; hi] = crc_value s.
Proof. exact crc_is_equal_iff. Qed.
Theorem c06_residue_iff : forall s lo hi, s < 65536 -> lo < 256 -> hi < 256 ->
  crc_from s [lo; hi] = 0 <-> [lo; hi] = crc_value s.
Proof. exact residue_zero_iff. Qed.

(* T5: every single-bit error, every burst of at most 16 bits (any frame
   length) and every double-bit error in a frame of at most 256 bytes has a
   non-zero syndrome *)
Theorem c06_detect : forall e, low_weight e -> crc_from 0 e <> 0.
Proof. exact detect_low_weight. Qed.

(* hence a valid frame hit by such an error never carries a matching trailer *)
Theorem c06_corrupted_rejected : forall body e body' lo hi,
  bytesb body = true -> bytesb e = true -> low_weight e ->
  length e = length (body ++ crc_bytes body) ->
  xor_bytes (body ++ crc_bytes body) e = body' ++ [lo; hi] ->
  crc_is_equal (crc16 body') lo hi = false.
Proof. exact corrupted_frame_rejected. Qed.

(* non-vacuity *)
Example c06_ex_crc : crc_bytes [0x01; 0x03; 0x00; 0x00; 0x00; 0x0a] = [0xc5; 0xcd].
Proof. reflexivity. Qed.
Example c06_ex_low_weight : low_weight (zeros 2 ++ [0x80; 0xff; 0x7f] ++ zeros 3).
Proof.
  apply lw_burst. split; [reflexivity|]. split; [cbn; lia|].
  exists 7, 0xffff. cbn. lia.
Qed.

Print Assumptions c06_table_is_bitserial.
Print Assumptions c06_chunking.
Print Assumptions c06_chunks.
Print Assumptions c06_linear.
Print Assumptions c06_accept_iff.
Print Assumptions c06_residue_iff.
Print Assumptions c06_detect.
Print Assumptions c06_corrupted_rejected.
