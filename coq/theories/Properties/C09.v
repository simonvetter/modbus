(* C09 - Server never serves more than MaxClients and always reclaims slots.
   Lemmas in Proofs/SlotsP.v and Proofs/IdleTimerP.v. The step sequences of
   Model/Slots.v are exactly the interleavings of the accept goroutine's, the
   session goroutines' and the Start/Stop callers' atomic actions. *)
From Coq Require Import List Arith Bool Permutation.
Import ListNotations.
From Coq Require Import ZArith.
From Modbus Require Import Model.Slots Proofs.SlotsP Model.IdleTimer Proofs.IdleTimerP.

Theorem c09_invariant : forall m tr, Inv (run (init m) tr).
Proof. exact reachable_inv. Qed.

(* T1: at every instant at most MaxClients connections are being served *)
Theorem c09_bound : forall m tr,
  let s := run (init m) tr in
  serving_count s <= m /\ NoDup (clients s) /\ (forall c, stat s c = Serving -> In c (clients s)).
Proof.
  intros m tr. cbn zeta. destruct (reachable_inv m tr) as [Ib Ind Im _ _ _ _].
  rewrite maxc_run in Ib. split; [|split].
  - exact (Nat.le_trans _ _ _ (serving_le_clients _) Ib).
  - exact Ind.
  - intros c H. apply Im. left. exact H.
Qed.

(* T2: an arrival at the limit (or while stopped) is closed ... *)
Theorem c09_full_rejects : forall s c, Inv s -> stat s c = Taken ->
  (started s = false \/ maxc s <= length (clients s)) ->
  stat (step s (Enrol c)) c = Rejected /\ closed (step s (Enrol c)) c = true /\
  clients (step s (Enrol c)) = clients s.
Proof. exact full_list_rejects. Qed.

(* ... and none of its requests ever reaches a handler: after every sequence
   pre of steps Req c is disabled (tr and post only name the place of the Req
   step in a longer trace; nothing is assumed of them) *)
Theorem c09_rejected_never_served : forall s tr c, stat s c = Rejected ->
  forall pre l post, tr = pre ++ l :: post -> l = Req c -> enabled (run s pre) l = false.
Proof.
  intros s tr c H pre l post _ ->. cbn [enabled]. rewrite (rejected_run pre s c H). reflexivity.
Qed.

(* T3: the removal deletes exactly the ended connection, for every position
   in the list, i.e. for every order in which served connections end *)
Theorem c09_remove_exact : forall s c, Inv s -> stat s c = Ended ->
  Permutation (clients s) (c :: clients (step s (Remove c))) /\
  closed (step s (Remove c)) c = true.
Proof. exact remove_exact. Qed.

(* T4: the slot is free again: a later connection is served *)
Theorem c09_slot_reclaimed : forall s c d, Inv s -> stat s c = Ended -> started s = true ->
  stat s d = Taken -> d <> c -> length (clients s) <= maxc s ->
  let s1 := step s (Remove c) in
  let s2 := step s1 (Enrol d) in
  stat s2 d = Serving /\ In d (clients s2).
Proof. exact slot_reclaimed. Qed.

(* T5: idle expiry, over every admissible history of request reads of a
   session: the session is closed no earlier than the timeout after the last
   request read began, and a connection that stays idle is closed at exactly
   that instant *)
Theorem c09_idle_not_early : forall timeout t0 tr t,
  idle_valid timeout (idle_init t0) (tr ++ [IExpire t]) = true ->
  exists r, last_read_start tr None = Some r /\ (r + timeout <= t)%Z.
Proof. exact idle_not_early. Qed.
Theorem c09_idle_expiry_enabled : forall timeout t0 tr r, (0 <= timeout)%Z ->
  idle_valid timeout (idle_init t0) (tr ++ [IReadStart r]) = true ->
  idle_valid timeout (idle_init t0) ((tr ++ [IReadStart r]) ++ [IExpire (r + timeout)]) = true.
Proof. exact idle_expiry_enabled. Qed.

Example c09_ex_idle :
  idle_valid 200 (idle_init 0) [IReadStart 0; IRequest 50; IReadStart 51; IExpire 251] = true /\
  idle_valid 200 (idle_init 0) [IReadStart 0; IRequest 50; IReadStart 51; IExpire 250] = false.
Proof. vm_compute. split; reflexivity. Qed.

(* non-vacuity: a trace that reaches the limit, rejects, reclaims *)
Example c09_ex :
  let tr := [Start; Arrive 1; Take 1; Enrol 1; Arrive 2; Take 2; Enrol 2;
             End 1 Disconnect; Arrive 3; Take 3; Remove 1; Enrol 3] in
  let s := run (init 1) tr in
  stat s 1 = Removed /\ stat s 2 = Rejected /\ stat s 3 = Serving /\ clients s = [3].
Proof. vm_compute. repeat split; reflexivity. Qed.

Print Assumptions c09_invariant.
Print Assumptions c09_bound.
Print Assumptions c09_full_rejects.
Print Assumptions c09_rejected_never_served.
Print Assumptions c09_remove_exact.
Print Assumptions c09_slot_reclaimed.
Print Assumptions c09_idle_not_early.
Print Assumptions c09_idle_expiry_enabled.
