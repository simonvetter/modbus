(* C19, serial clients: the delays of a client opened on a serial device do
   not depend on the character framing of the line. Statements, each with the
   last step of its proof; the lemmas are in Proofs/TimingLineP.v and
   Proofs/TimingP.v. *)
From Modbus Require Import Base.Bytes Model.Timing Model.TimingLine Spec.TimingSpec Proofs.TimingLineP.
Local Open Scope Z_scope.

(* for every speed and EVERY line settings (data bits, parity, stop bits) the
   character time of the opened client is eleven bit times and its
   inter-frame delay is 3.5 of those characters below 19200 bps, 1750 us from
   19200 bps upward (the declarative rules of Spec/TimingSpec.v; stated
   over the rates of the property, the upper bound is not needed) *)
Theorem c19b_open_spec : forall c, 1 <= lc_speed c -> lc_speed c <= 10000000 ->
  char_time_ok (lc_speed c) (open_t1 c) /\ t35_ok (lc_speed c) (open_t1 c) (open_t35 c).
Proof.
  intros c H1 _. split; [apply TimingP.char_time_spec|apply TimingP.t35_spec]; exact H1.
Qed.

Theorem c19b_open_okb : forall c, 1 <= lc_speed c -> lc_speed c <= 10000000 ->
  timing_okb (lc_speed c) (open_t1 c) (open_t35 c) = true.
Proof. intros c H1 _. exact (TimingP.timing_model_ok _ H1). Qed.

(* two configurations with the same speed have the same delays ... *)
Theorem c19b_speed_only : forall c c', lc_speed c = lc_speed c' ->
  open_t1 c = open_t1 c' /\ open_t35 c = open_t35 c'.
Proof. intros c c' H. unfold open_t1, open_t35. rewrite H. split; reflexivity. Qed.

(* ... namely those of Model/Timing.v, whatever the framing *)
Theorem c19b_any_framing : forall r d p s d' p' s',
  open_t1 (mk_line_cfg r d p s) = open_t1 (mk_line_cfg r d' p' s') /\
  open_t35 (mk_line_cfg r d p s) = open_t35 (mk_line_cfg r d' p' s') /\
  open_t1 (mk_line_cfg r d p s) = char_time r /\ open_t35 (mk_line_cfg r d p s) = t35 r.
Proof. intros. repeat split; reflexivity. Qed.

(* the predicate of the correspondence check is the property's inequality *)
Theorem c19b_silence_okb : forall c gap, silence_okb c gap = true <-> t35 (lc_speed c) <= gap.
Proof. intros c gap. unfold silence_okb, open_t35. rewrite Z.leb_le. reflexivity. Qed.

(* every history of exchanges of such a client keeps the silence ... *)
Theorem c19b_silence : forall c xs s i j e1 e2 f,
  1 <= lc_speed c -> lc_speed c <= 10000000 -> Forall admissible xs -> (i < j)%nat ->
  nth_error (run (open_t1 c) (open_t35 c) s xs) i = Some e1 ->
  nth_error (run (open_t1 c) (open_t35 c) s xs) j = Some e2 ->
  frame_end e1 = Some f -> f + open_t35 c <= ev_tx_start e2.
Proof.
  intros c xs s i j e1 e2 f H1 H2 Hadm Hij Hi Hj Hf. unfold open_t1, open_t35 in *.
  eapply TimingP.run_silence_rate; eassumption.
Qed.

(* ... so the one-sided measurement (an instant not later than the end of
   the received frame, an instant not earlier than the start of the next
   transmission) can never fail the model *)
Theorem c19b_measurement_sound : forall c xs s i j e1 e2 f before arrive,
  1 <= lc_speed c -> lc_speed c <= 10000000 -> Forall admissible xs -> (i < j)%nat ->
  nth_error (run (open_t1 c) (open_t35 c) s xs) i = Some e1 ->
  nth_error (run (open_t1 c) (open_t35 c) s xs) j = Some e2 ->
  frame_end e1 = Some f -> before <= f -> ev_tx_start e2 <= arrive ->
  silence_okb c (arrive - before) = true.
Proof.
  intros c xs s i j e1 e2 f before arrive H1 H2 Hadm Hij Hi Hj Hf Hb Ha.
  pose proof (c19b_silence c xs s i j e1 e2 f H1 H2 Hadm Hij Hi Hj Hf) as H.
  apply c19b_silence_okb. unfold open_t35 in H. lia.
Qed.

(* the framing matters: below 19200 bps, delays derived from the real length
   of a character shorter than eleven bits are strictly shorter than the
   specified ones, and a silence of that length is refused *)
Theorem c19b_short_characters : forall c, 1 <= lc_speed c -> lc_speed c < 19200 ->
  0 <= line_char_bits c -> line_char_bits c < 11 ->
  framed_char_time c < open_t1 c /\ framed_t35 c < open_t35 c /\
  silence_okb c (framed_t35 c) = false.
Proof. exact framed_short. Qed.

(* non-vacuity: line settings of 9, 10, 11 and 12 bits per character *)
Example c19b_ex_bits :
  map line_char_bits [mk_line_cfg 300 7 0 1; mk_line_cfg 300 8 0 1; mk_line_cfg 300 7 1 0;
                      mk_line_cfg 300 8 0 0; mk_line_cfg 300 8 2 0; mk_line_cfg 300 8 1 2]
  = [9; 10; 10; 11; 11; 12].
Proof. reflexivity. Qed.
Example c19b_ex_300 :
  open_t1 (mk_line_cfg 300 8 0 1) = 36666666 /\ open_t35 (mk_line_cfg 300 8 0 1) = 128333331 /\
  framed_t35 (mk_line_cfg 300 8 0 1) = 116666665 /\
  silence_okb (mk_line_cfg 300 8 0 1) 128333331 = true /\
  silence_okb (mk_line_cfg 300 8 0 1) 128333330 = false.
Proof. repeat split; reflexivity. Qed.

Print Assumptions c19b_open_spec.
Print Assumptions c19b_open_okb.
Print Assumptions c19b_speed_only.
Print Assumptions c19b_any_framing.
Print Assumptions c19b_silence_okb.
Print Assumptions c19b_silence.
Print Assumptions c19b_measurement_sound.
Print Assumptions c19b_short_characters.
