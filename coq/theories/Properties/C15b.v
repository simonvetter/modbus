(* C15 (continued) - the role is that of the client leaf certificate of THAT
   session: sequences of TLS sessions on one running server (lemmas in
   Proofs/RoleSeqP.v, Proofs/RoleP.v). tls_serve_sessions hs c peers
   (Model/RoleSeq.v) is what one server object hands to the handlers of the
   connections peers, in the order they are accepted: None = refused (no handler
   invocation), Some role = the ClientRole of every invocation of that session.
   hs is Go's crypto/tls, an oracle as in C14 (tls_srv_documented). *)
From Modbus Require Import Base.Bytes Model.Utf8 Model.Der Model.Role Model.TlsPolicy Model.RoleSeq
  Spec.RoleSpec Proofs.RoleSeqP.

(* every session is decided on its own: what the server answers to a
   connection does not depend on the connections accepted before or after it *)
Theorem c15_sessions_independent : forall hs c earlier peer later,
  nth_error (tls_serve_sessions hs c (earlier ++ peer :: later)) (length earlier) =
  nth_error (tls_serve_sessions hs c [peer]) 0.
Proof. exact serve_sessions_alone. Qed.

Theorem c15_sessions_pointwise : forall hs c peers i,
  nth_error (tls_serve_sessions hs c peers) i = option_map (tls_start_tls hs c) (nth_error peers i).
Proof. exact serve_sessions_nth. Qed.

(* the role of a served session is extract_role of the leaf presented on
   that connection (to which c15_role_sound .. c15_total of C15.v apply) *)
Theorem c15_sessions_role_of_leaf : forall hs verifies now c peers i role,
  tls_srv_documented hs verifies now ->
  nth_error (tls_serve_sessions hs c peers) i = Some (Some role) ->
  exists peer leaf more,
    nth_error peers i = Some peer /\ tpe_chain peer = leaf :: more /\
    role = extract_role (tlc_exts leaf).
Proof. exact serve_sessions_leaf. Qed.

(* a non-empty role is stated by the leaf of that very session *)
Theorem c15_sessions_role_sound : forall hs verifies now c peers i role,
  tls_srv_documented hs verifies now ->
  nth_error (tls_serve_sessions hs c peers) i = Some (Some role) -> role <> [] ->
  exists peer leaf more,
    nth_error peers i = Some peer /\ tpe_chain peer = leaf :: more /\
    (all_bytes (tlc_exts leaf) = true -> states_role (tlc_exts leaf) role).
Proof.
  intros hs verifies now c peers i role Hdoc Hn Hne.
  destruct (serve_sessions_leaf hs verifies now c peers i role Hdoc Hn)
    as (peer & leaf & more & Hp & Hc & Hr).
  exists peer, leaf, more. split; [exact Hp|]. split; [exact Hc|].
  intros Hb. apply RoleP.role_sound_spec; auto.
Qed.

(* a served session whose leaf states r has role r, whatever certificates the
   other sessions of the same server presented *)
Theorem c15_sessions_role_complete : forall hs verifies now c earlier peer later leaf more r role,
  tls_srv_documented hs verifies now ->
  tpe_chain peer = leaf :: more -> states_role (tlc_exts leaf) r -> lenN r < 2 ^ 31 ->
  nth_error (tls_serve_sessions hs c (earlier ++ peer :: later)) (length earlier) = Some (Some role) ->
  role = r.
Proof.
  intros hs verifies now c earlier peer later leaf more r role Hdoc Hc Hst Hlen.
  rewrite serve_sessions_alone. cbn [tls_serve_sessions nth_error]. intros [= Hs].
  destruct (start_tls_leaf hs verifies now c peer role Hdoc Hs) as (leaf' & more' & Hc' & ->).
  rewrite Hc in Hc'. injection Hc' as <- _. apply RoleP.role_complete_spec; assumption.
Qed.

(* non-vacuity: an oracle that completes the handshake of every TLS peer that
   presents a chain, at TLS 1.3; it satisfies tls_srv_documented when every
   chain verifies *)
Definition c15b_hs (pol : tls_policy) (peer : tls_peer) : option tls_session :=
  if tpe_speaks_tls peer then
    match tpe_chain peer, tpe_versions peer with
    | _ :: _, [TLS13] => Some (mk_tls_session TLS13 (tpe_chain peer))
    | _, _ => None
    end
  else None.

Example c15b_ex_documented : tls_srv_documented c15b_hs (fun _ _ _ _ _ => True) 0.
Proof.
  intros pol peer sess. unfold c15b_hs.
  destruct (tpe_speaks_tls peer) eqn:Et; [|discriminate].
  destruct (tpe_chain peer) as [|leaf more] eqn:Ec; [discriminate|].
  destruct (tpe_versions peer) as [|[] [|]] eqn:Ev; try discriminate.
  intros [= <-]. cbn. repeat split; auto; try discriminate.
  destruct (tpo_min_version pol); reflexivity.
Qed.

Definition c15b_conf : tls_srv_conf :=
  mk_tls_srv_conf [] 0 0 (Some (mk_tls_cert 2 [])) (Some [mk_tls_cert 1 []]).
Definition c15b_peer (exts : list cert_ext) : tls_peer :=
  mk_tls_peer true [mk_tls_cert 7 exts] [TLS13].

(* five connections presenting certificates with the same identity (7) whose
   role extension differs, then a peer without certificate: operator, none,
   viewer, PrintableString, operator again, refused *)
Example c15b_ex_sequence :
  tls_serve_sessions c15b_hs c15b_conf
    [ c15b_peer [(true, [0x0c; 2; 0x6f; 0x70])];
      c15b_peer [(false, [1; 2])];
      c15b_peer [(true, [0x0c; 2; 0x76; 0x69])];
      c15b_peer [(true, [0x13; 2; 0x6f; 0x70])];
      c15b_peer [(true, [0x0c; 2; 0x6f; 0x70])];
      mk_tls_peer true [] [TLS13] ]
  = [Some [0x6f; 0x70]; Some []; Some [0x76; 0x69]; Some []; Some [0x6f; 0x70]; None].
Proof. reflexivity. Qed.

Print Assumptions c15_sessions_independent.
Print Assumptions c15_sessions_pointwise.
Print Assumptions c15_sessions_role_of_leaf.
Print Assumptions c15_sessions_role_sound.
Print Assumptions c15_sessions_role_complete.
