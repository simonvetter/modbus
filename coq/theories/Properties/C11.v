(* C11 - Concurrent server sessions are isolated from each other (lemmas in
   Proofs/SessionsP.v). Model/Sessions.v: shared handler state + one private
   session per connection; `ins` is an ARBITRARY interleaving of (connection,
   chunk | end) inputs, any number of connections, any transaction ids (equal ids
   on different connections included). Vocabulary in Spec/SessionsSpec.v; server_run
   / spec_mbap / pdu_wf are the single-connection model and specification of C03. *)
From Modbus Require Import Base.Bytes Model.Encoding Model.Wire Model.Server
  Spec.ModbusSpec Spec.ServerSpec Spec.ServerSessionSpec Model.Sessions Spec.SessionsSpec
  Proofs.SessionsP.

Section C11.
  Context {St : Type} (gh : ghandler St).

  (* T1, routing: whatever a step on input of connection c produces is addressed to c *)
  Theorem c11_step_tagged : forall g c x, Forall (fun o => fst o = c) (snd (gstep gh g (c, x))).
  Proof. exact (gstep_tagged gh). Qed.

  (* over a whole run: outputs only go to connections that sent something *)
  Theorem c11_run_tagged : forall ins g k e, In (k, e) (snd (grun gh g ins)) -> In k (map fst ins).
  Proof.
    induction ins as [|[c x] t IH]; intros g k e Hin; cbn [grun] in Hin; [destruct Hin|].
    pose proof (gstep_tagged gh g c x) as HT.
    destruct (gstep gh g (c, x)) as [g1 o1]. specialize (IH g1 k e).
    destruct (grun gh g1 t) as [g2 o2]. cbn [snd] in *.
    apply in_app_or in Hin. destruct Hin as [Hin|Hin].
    - left. rewrite Forall_forall in HT. symmetry. exact (HT _ Hin).
    - right. exact (IH Hin).
  Qed.

  (* every handler invocation made for connection c carries c's address and
     role, in every run, whatever the other connections do *)
  Theorem c11_calls_identity : forall c a ro ins g g' outs,
    gs_lookup c (g_sessions g) = Some (gs_fresh a ro) -> grun gh g ins = (g', outs) ->
    calls_from a ro (gproj c outs).
  Proof.
    intros c a ro ins g g' outs Hl Hr.
    destruct (grun_proj_oracle gh c ins g _ g' outs Hl Hr) as (s' & _ & Hf).
    rewrite feeds_fresh_whole in Hf. apply (sess_whole_facts _ _ _ _ _ _ _ _ _ Hf).
  Qed.

  (* every response written to c answers the next unanswered request frame
     of c, in order, and carries THAT frame's transaction id and unit id
     (handler calls carry its unit id); for any shared handler, any number of
     connections, any interleaving *)
  Theorem c11_answers : forall c a ro ins g g' outs frames tail,
    gs_lookup c (g_sessions g) = Some (gs_fresh a ro) -> grun gh g ins = (g', outs) ->
    Forall (fun f => fst f < 65536 /\ pdu_wf (snd f)) frames ->
    gin_stream (gproj c ins) = frames_stream frames ++ tail ->
    answers_ok frames (map gev_strip (gproj c outs)).
  Proof. exact (sessions_answers gh). Qed.

  (* T2, non-interference. Oracle form, any handler: what c observes in a global run is exactly the
     single-connection session (C03's server_run) on c's own bytes, the shared
     handler being replaced by the list of answers it returned to c's calls.
     Other connections influence c through those answers only. (close_tail
     completes the observations of a still-open session with the final close
     that server_run always ends with.) *)
  Theorem c11_projection_oracle : forall c a ro ins g g' outs e,
    gs_lookup c (g_sessions g) = Some (gs_fresh a ro) -> grun gh g ins = (g', outs) ->
    exists s', gs_lookup c (g_sessions g') = Some s' /\ gs_addr s' = a /\ gs_role s' = ro /\
      map gev_strip (gproj c outs) ++ close_tail (gs_closed s') =
      server_run oracle_handler (gev_answers (gproj c outs)) e (gin_stream (gproj c ins)).
  Proof. exact (sessions_projection_oracle gh). Qed.

  (* pure form: if the handler's answer is a function of the request (its
     state may still change), c's observations are EXACTLY the private session
     of c fed with c's whole byte stream at once - whatever the others sent,
     however the chunks interleave, however c's bytes were chunked *)
  Theorem c11_projection_pure : forall (f : greq -> hres), (forall st r, snd (gh st r) = f r) ->
    forall c a ro ins g g' outs,
    gs_lookup c (g_sessions g) = Some (gs_fresh a ro) -> grun gh g ins = (g', outs) ->
    exists s', gs_lookup c (g_sessions g') = Some s' /\
      sess_whole (gh_pure f) tt a ro (gin_stream (gproj c ins)) (gin_ended (gproj c ins)) =
      (tt, s', gproj c outs).
  Proof. exact (sessions_projection_pure gh). Qed.

  (* ... which is the single-connection model of C03 on c's own stream *)
  Theorem c11_projection_pure_run : forall (f : greq -> hres), (forall st r, snd (gh st r) = f r) ->
    forall c a ro ins g g' outs e,
    gs_lookup c (g_sessions g) = Some (gs_fresh a ro) -> grun gh g ins = (g', outs) ->
    exists s', gs_lookup c (g_sessions g') = Some s' /\
      map gev_strip (gproj c outs) ++ close_tail (gs_closed s') =
      server_run (fun (_ : unit) r => (tt, f (mkgreq a ro r))) tt e (gin_stream (gproj c ins)).
  Proof.
    intros f Hp c a ro ins g g' outs e Hl Hr.
    destruct (sessions_projection_pure gh f Hp c a ro ins g g' outs Hl Hr) as (s' & Hl' & Hf).
    exists s'. split; [exact Hl'|]. apply (sess_whole_facts _ _ _ _ _ _ _ _ _ Hf).
  Qed.

  (* T3, no head-of-line blocking (logical half): a step on c reads and writes c's session only *)
  Theorem c11_others_unchanged : forall g c x c', c' <> c ->
    gs_lookup c' (g_sessions (fst (gstep gh g (c, x)))) = gs_lookup c' (g_sessions g).
  Proof.
    intros g c x c' Hne. unfold gstep. cbn [fst snd].
    destruct (gs_lookup c (g_sessions g)) as [s|]; [|reflexivity].
    destruct (sess_feed gh (g_shared g) s x) as [[st' s'] evs]. cbn [fst g_sessions].
    apply gs_lookup_update_other. exact Hne.
  Qed.

  (* frame by frame: the step that delivers the last byte of a complete
     request frame of c dispatches and answers it (transaction id of that
     frame), then goes on with c's remaining bytes. There is NO hypothesis on
     the other sessions: they may be stalled mid-frame or closed. *)
  Theorem c11_frame_step : forall g c s chunk t p rest,
    gs_lookup c (g_sessions g) = Some s -> gs_closed s = false ->
    gs_buf s ++ chunk = spec_mbap t p ++ rest -> t < 65536 -> pdu_wf p ->
    let a := gs_addr s in
    let ro := gs_role s in
    let '(st', calls, act) := server_process (conn_handler gh a ro) (g_shared g) p in
    snd (gstep gh g (c, GData chunk)) =
    map (fun r => (c, GEvCall (mkgreq a ro r) (snd (gh (g_shared g) (mkgreq a ro r))))) calls ++
    match act with
    | Respond res =>
        (c, GEvResp (spec_mbap t res)) ::
        snd (gstep gh (mkgstate st' (gs_update c (mkgsess rest a ro false) (g_sessions g))) (c, GData []))
    | CloseLink => [(c, GEvClosed)]
    end.
  Proof. exact (gstep_frame gh). Qed.

  Theorem c11_no_hol : forall g c s chunk t p rest,
    gs_lookup c (g_sessions g) = Some s -> gs_closed s = false ->
    gs_buf s ++ chunk = spec_mbap t p ++ rest -> t < 65536 -> pdu_wf p ->
    exists o, In o (snd (gstep gh g (c, GData chunk))) /\
      (o = (c, GEvClosed) \/ exists res, o = (c, GEvResp (spec_mbap t res)) /\ p_unit res = p_unit p).
  Proof.
    intros g c s chunk t p rest Hl Hc Hb Ht Hp.
    pose proof (gstep_frame gh g c s chunk t p rest Hl Hc Hb Ht Hp) as HF. cbv zeta in HF.
    pose proof (server_process_unit (conn_handler gh (gs_addr s) (gs_role s)) (g_shared g) p) as HU.
    destruct (server_process (conn_handler gh (gs_addr s) (gs_role s)) (g_shared g) p) as [[st' calls] act].
    rewrite HF. destruct HU as [_ HU]. destruct act as [res|].
    - exists (c, GEvResp (spec_mbap t res)). split; [apply in_or_app; right; left; reflexivity|].
      right. exists res. split; [reflexivity|exact HU].
    - exists (c, GEvClosed). split; [apply in_or_app; right; left; reflexivity|left; reflexivity].
  Qed.
End C11.

(* chunking independence per connection: two runs - other chunkings of c's
   bytes, other interleavings, other connections, other shared states, even
   another handler with the same answers - give c the same observations and
   leave c's session in the same state as soon as c sent the same bytes *)
Theorem c11_chunking : forall {S1 S2} (gh1 : ghandler S1) (gh2 : ghandler S2) (f : greq -> hres),
  (forall st r, snd (gh1 st r) = f r) -> (forall st r, snd (gh2 st r) = f r) ->
  forall c a ro ins1 g1 g1' outs1 ins2 g2 g2' outs2,
  gs_lookup c (g_sessions g1) = Some (gs_fresh a ro) -> grun gh1 g1 ins1 = (g1', outs1) ->
  gs_lookup c (g_sessions g2) = Some (gs_fresh a ro) -> grun gh2 g2 ins2 = (g2', outs2) ->
  gin_stream (gproj c ins1) = gin_stream (gproj c ins2) ->
  gin_ended (gproj c ins1) = gin_ended (gproj c ins2) ->
  gproj c outs1 = gproj c outs2 /\ gs_lookup c (g_sessions g1') = gs_lookup c (g_sessions g2').
Proof.
  intros S1 S2 gh1 gh2 f Hp1 Hp2 c a ro ins1 g1 g1' outs1 ins2 g2 g2' outs2 L1 R1 L2 R2 Hs He.
  destruct (sessions_projection_pure gh1 f Hp1 c a ro ins1 g1 g1' outs1 L1 R1) as (s1 & Hl1 & H1).
  destruct (sessions_projection_pure gh2 f Hp2 c a ro ins2 g2 g2' outs2 L2 R2) as (s2 & Hl2 & H2).
  rewrite Hs, He, H2 in H1. injection H1 as <- <-. split; [reflexivity|congruence].
Qed.

(* a frame's header: the response to a request carries its transaction id,
   protocol id 0 and the unit id *)
Theorem c11_resp_carries : forall t r, resp_carries t (p_unit r) (spec_mbap t r).
Proof. exact spec_mbap_carries. Qed.

Theorem c11_init_lookup : forall {St} (st : St) conns c a ro,
  gs_lookup c (g_sessions (ginit st conns)) = Some (gs_fresh a ro) <->
  (exists pre post, conns = pre ++ (c, (a, ro)) :: post /\ ~ In c (map fst pre)).
Proof. exact @ginit_lookup. Qed.

(* Non-vacuity: three connections, the SAME transaction id 7 on all of
   them, a stateful handler with request-determined answers. Connection 0
   stalls after 5 bytes of its frame; 1 and 2 are served meanwhile (2 in two
   chunks around 1's traffic); 1 ends, its later bytes are ignored; 0 is
   served when the rest of its frame arrives. *)
Definition c11_handler : ghandler N :=
  fun st r => (st + 1, mkhres (repeat true (N.to_nat (h_qty (g_req r))))
                              (repeat (h_addr (g_req r) + g_conn_addr r) (N.to_nat (h_qty (g_req r)))) HNone).
Definition c11_answer (r : greq) : hres :=
  mkhres (repeat true (N.to_nat (h_qty (g_req r))))
         (repeat (h_addr (g_req r) + g_conn_addr r) (N.to_nat (h_qty (g_req r)))) HNone.
Definition c11_frame (unit addr : N) : list N := spec_mbap 7 (mkpdu unit 3 [0; addr; 0; 1]).
Definition c11_conns : list (N * (N * N)) := [(0, (100, 0)); (1, (101, 5)); (2, (102, 0))].
Definition c11_ins : list (N * ginput) :=
  [(0, GData (firstn 5 (c11_frame 1 10)));
   (1, GData (c11_frame 2 20));
   (2, GData (firstn 9 (c11_frame 3 30)));
   (1, GData (c11_frame 2 21 ++ firstn 3 (c11_frame 2 22)));
   (2, GData (skipn 9 (c11_frame 3 30)));
   (1, GEnd);
   (0, GData (skipn 5 (c11_frame 1 10)));
   (1, GData (c11_frame 2 23))].

Definition c11_call (a ro unit addr : N) : gevent :=
  GEvCall (mkgreq a ro (mkhreq HHolding unit addr 1 false [] [])) (mkhres [true] [addr + a] HNone).

Example c11_run_example :
  snd (grun c11_handler (ginit 0 c11_conns) c11_ins) =
  [(1, c11_call 101 5 2 20); (1, GEvResp [0; 7; 0; 0; 0; 5; 2; 3; 2; 0; 121]);
   (1, c11_call 101 5 2 21); (1, GEvResp [0; 7; 0; 0; 0; 5; 2; 3; 2; 0; 122]);
   (2, c11_call 102 0 3 30); (2, GEvResp [0; 7; 0; 0; 0; 5; 3; 3; 2; 0; 132]);
   (1, GEvClosed);
   (0, c11_call 100 0 1 10); (0, GEvResp [0; 7; 0; 0; 0; 5; 1; 3; 2; 0; 110])].
Proof. vm_compute. reflexivity. Qed.

Example c11_handler_pure_sat : forall st r, snd (c11_handler st r) = c11_answer r.
Proof. reflexivity. Qed.

Example c11_fresh_sat : gs_lookup 1 (g_sessions (ginit 0 c11_conns)) = Some (gs_fresh 101 5).
Proof. reflexivity. Qed.

(* the stalled connection's projection is its own session, as the theorems say *)
Example c11_projection_example :
  gproj 0 (snd (grun c11_handler (ginit 0 c11_conns) c11_ins)) =
  snd (sess_whole (gh_pure c11_answer) tt 100 0 (c11_frame 1 10) false).
Proof. vm_compute. reflexivity. Qed.

Example c11_stream_sat :
  gin_stream (gproj 1 c11_ins) =
  frames_stream [(7, mkpdu 2 3 [0; 20; 0; 1]); (7, mkpdu 2 3 [0; 21; 0; 1])] ++ firstn 3 (c11_frame 2 22).
Proof. vm_compute. reflexivity. Qed.

Example c11_frame_sat : 7 < 65536 /\ pdu_wf (mkpdu 2 3 [0; 20; 0; 1]).
Proof. unfold pdu_wf. cbn. repeat split; try reflexivity; discriminate. Qed.

Print Assumptions c11_step_tagged.
Print Assumptions c11_run_tagged.
Print Assumptions c11_calls_identity.
Print Assumptions c11_answers.
Print Assumptions c11_projection_oracle.
Print Assumptions c11_projection_pure.
Print Assumptions c11_projection_pure_run.
Print Assumptions c11_others_unchanged.
Print Assumptions c11_frame_step.
Print Assumptions c11_no_hol.
Print Assumptions c11_chunking.
Print Assumptions c11_resp_carries.
Print Assumptions c11_init_lookup.
