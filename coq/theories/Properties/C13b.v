(* C13, second part - the cut facts hold for every way a connection may report
   its end: the io.Reader contract lets a Read return its last bytes TOGETHER
   with the end of the stream (n > 0, err = EOF / reset), or the error alone in
   a later call. Here the connection is any list of chunks plus that choice
   (Model/TailErr.v). Lemmas: Proofs/TailErrP.v, ChunksP.v, CutP.v, ServerP.v. *)
From Modbus Require Import Base.Bytes Model.Crc Model.Encoding Model.Wire Model.Client
  Model.Server Model.Chunks Model.TailErr
  Spec.ModbusSpec Spec.ClientSpec Spec.ServerSpec Spec.ServerSessionSpec Spec.CutSpec
  Proofs.ChunksP Proofs.TailErrP.

(* T0: io.ReadFull over such a connection = a full read on the concatenation
   (bytes obtained, bytes left, short reads included) *)
Theorem c13b_read_full : rdf_ok read_full_tail tc_flat.
Proof. exact read_full_tail_ok. Qed.

Section C13b.
  Context {St : Type} (h : handler St).

  (* where the end is reported cannot be observed *)
  Theorem c13b_server_delivery_irrelevant : forall st e cs tl,
    server_run_t h st e (mktconn cs tl) = server_run h st e (concat cs).
  Proof. intros st e cs tl. exact (server_run_tail h st e (mktconn cs tl)). Qed.

  (* T1a: a request cut inside, whatever the chunks and wherever the end is
     reported: no handler call, closed *)
  Theorem c13b_server_cut : forall st e t p k cs tl,
    pdu_wf p -> (k < length (spec_mbap t p))%nat -> concat cs = firstn k (spec_mbap t p) ->
    server_run_t h st e (mktconn cs tl) = [EvClosed].
  Proof.
    intros st e t p k cs tl Hp Hk Hc. rewrite (server_run_tail_of h st e cs tl _ Hc).
    apply CutP.server_cut; assumption.
  Qed.

  (* T1b: the request fully received - also when its last bytes arrive in the
     very Read that reports the end: the handler runs exactly once *)
  Theorem c13b_server_full_once : forall st e t p r cs tl,
    t < 65536 -> pdu_wf p -> handler_wf h -> spec_decode p = Some r -> in_range r = true ->
    concat cs = spec_mbap t p ->
    server_run_t h st e (mktconn cs tl) =
      [EvCall r; EvResp (spec_mbap t (spec_response p r (snd (h st r)))); EvClosed].
  Proof.
    intros st e t p r cs tl Ht Hp Hh Hd Hr Hc. rewrite (server_run_tail_of h st e cs tl _ Hc).
    apply CutP.server_full_once; assumption.
  Qed.

  (* T1c: pipelined requests of which only the last Read carries the end:
     every complete request is processed once, in order; a last request cut
     inside (k = 0: nothing of it) adds nothing *)
  Theorem c13b_server_pipelined_cut : forall frames t p k st e cs tl,
    Forall (fun f => fst f < 65536 /\ pdu_wf (snd f)) frames ->
    pdu_wf p -> (k < length (spec_mbap t p))%nat ->
    concat cs = concat (map (fun f => spec_mbap (fst f) (snd f)) frames) ++ firstn k (spec_mbap t p) ->
    server_run_t h st e (mktconn cs tl) = spec_session h st frames (fun _ => [EvClosed]).
  Proof.
    intros frames t p k st e cs tl HF Hp Hk Hc.
    rewrite (server_pipelined_tail h frames (firstn k (spec_mbap t p)) st e cs tl HF Hc).
    apply (ServerP.spec_session_ext h). intros st'. apply CutP.server_cut; assumption.
  Qed.
End C13b.

(* T2: the client side *)
Theorem c13b_client_delivery_irrelevant : forall fr cfg txn o e cs tl,
  client_call fr cfg txn o e (concat cs) =
  let r := client_call_t fr cfg txn o e (mktconn cs tl) in
  mkcall (gcr_res r) (gcr_writes r) (tc_flat (gcr_rest r)) (gcr_txn r).
Proof. intros fr cfg txn o e cs tl. exact (client_call_tail fr cfg txn o e (mktconn cs tl)). Qed.

Theorem c13b_client_cut_never_ok : forall fr cfg txn o e res vs frames k cs tl,
  op_wf o -> cfg_wf cfg -> valid_op o = true ->
  bytesb (p_payload res) = true -> answers cfg o res vs ->
  match fr with
  | FMbap => txn < 65536 /\ Forall (skippable (u16 (txn + 1))) frames
  | FRtu => frames = []
  end ->
  (k < length (concat frames ++ spec_frame fr (u16 (txn + 1)) res))%nat ->
  concat cs = firstn k (concat frames ++ spec_frame fr (u16 (txn + 1)) res) ->
  let r := gcr_res (client_call_t fr cfg txn o e (mktconn cs tl)) in
  cut_failed r /\ forall vs', r <> Ok vs'.
Proof.
  intros fr cfg txn o e res vs frames k cs tl Hwf Hcfg V Hb Hans Hfr Hk Hc. cbv zeta.
  rewrite (client_res_tail_of _ _ _ _ _ cs tl _ Hc).
  exact (CutP.client_cut_never_ok fr cfg txn o e res vs frames k Hwf Hcfg V Hb Hans Hfr Hk).
Qed.

(* the complete valid reply whose last bytes come with the end: a success *)
Theorem c13b_client_full : forall cfg txn o e res vs cs tl,
  op_wf o -> cfg_wf cfg -> valid_op o = true ->
  bytesb (p_payload res) = true -> answers cfg o res vs ->
  (forall frames, txn < 65536 -> Forall (skippable (u16 (txn + 1))) frames ->
     concat cs = concat frames ++ spec_frame FMbap (u16 (txn + 1)) res ->
     gcr_res (client_call_t FMbap cfg txn o e (mktconn cs tl)) = Ok vs) /\
  (concat cs = spec_frame FRtu 0 res ->
     gcr_res (client_call_t FRtu cfg txn o e (mktconn cs tl)) = Ok vs).
Proof.
  intros cfg txn o e res vs cs tl Hwf Hcfg V Hb Hans. split.
  - intros frames Ht HF Hc. exact (client_full_tail_mbap cfg txn o e res vs frames cs tl Hwf Hcfg Ht V Hb Hans HF Hc).
  - intros Hc. exact (client_full_tail_rtu cfg txn o e res vs cs tl Hwf Hcfg V Hb Hans Hc).
Qed.

(* non-vacuity: concrete instances of the statements above *)
Definition c13b_example_handler : handler N :=
  fun st r => (st + 1, mkhres (repeat true (N.to_nat (h_qty r))) (repeat 7 (N.to_nat (h_qty r))) HNone).

(* the Reads of a 12-byte request delivered as one record whose last bytes
   come with the end: the 7-byte header Read is (7, nil), the 5-byte body Read
   is (5, err), every later Read (0, err) *)
Example c13b_reads_example :
  let f := spec_mbap 7 (mkpdu 1 3 [0; 16; 0; 2]) in
  let c0 := mktconn [f] true in
  match tail_read 7 c0 with
  | RdE got1 fin1 c1 =>
      match tail_read 5 c1 with
      | RdE got2 fin2 c2 =>
          match tail_read 7 c2 with
          | RdE got3 fin3 _ =>
              (got1, fin1) = (firstn 7 f, false) /\ (got2, fin2) = (skipn 7 f, true) /\
              (got3, fin3) = ([], true)
          end
      end
  end.
Proof. vm_compute. repeat split; reflexivity. Qed.

(* every cut offset, both ways of reporting the end, three chunkings: inside
   the request closed without a call, at its end one call and one response *)
Example c13b_server_example :
  let f := spec_mbap 7 (mkpdu 1 3 [0; 16; 0; 2]) in
  let chunkings (s : list N) := [[s]; [firstn 7 s; skipn 7 s]; map (fun b => [b]) s] in
  forallb (fun tl =>
    forallb (fun e =>
      forallb (fun k =>
        forallb (fun cs =>
          match server_run_t c13b_example_handler 0 e (mktconn cs tl) with
          | [EvClosed] => true | _ => false end) (chunkings (firstn k f)))
        (seq 0 12) &&
      forallb (fun cs =>
        match server_run_t c13b_example_handler 0 e (mktconn cs tl) with
        | [EvCall r; EvResp _; EvClosed] => h_addr r =? 16 | _ => false end) (chunkings f))
      [Closed; Reset]) [true; false] = true.
Proof. vm_compute. reflexivity. Qed.

(* the delivery is not a vacuous addition: a reader that tests the error of a
   Read before counting its bytes (the discipline the io.Reader documentation
   warns against) loses the completely received request under it, and only
   under it *)
Example c13b_delivery_discriminates :
  let f := spec_mbap 7 (mkpdu 1 3 [0; 16; 0; 2]) in
  server_run_err_first c13b_example_handler 0 Closed (mktconn [f] true) = [EvClosed] /\
  server_run_err_first c13b_example_handler 0 Closed (mktconn [f] false) =
    server_run_t c13b_example_handler 0 Closed (mktconn [f] false) /\
  cut_calls (server_run_t c13b_example_handler 0 Closed (mktconn [f] true)) = 1%nat.
Proof. vm_compute. repeat split; reflexivity. Qed.

(* a complete valid reply delivered with the end in its last Read *)
Example c13b_client_example :
  let cfg := mkcfg 17 BigE HighFirst in
  let o := OpReadRegs 2 0xfffc 1 Holding in
  let res := mkpdu 17 3 [4; 0x0a; 0x0b; 0x0c; 0x0d] in
  let v := spec_frame FMbap 1 res in
  gcr_res (client_call_t FMbap cfg 0 o Closed (mktconn [v] true)) = Ok (VNums [0x0a0b0c0d]) /\
  gcr_res (client_call_t FMbap cfg 0 o Closed (mktconn [firstn 12 v] true)) = Err EIO /\
  gcr_res (client_call_t FRtu cfg 0 o Reset (mktconn [spec_frame FRtu 0 res] true)) = Ok (VNums [0x0a0b0c0d]).
Proof. vm_compute. repeat split; reflexivity. Qed.

Print Assumptions c13b_read_full.
Print Assumptions c13b_server_delivery_irrelevant.
Print Assumptions c13b_server_cut.
Print Assumptions c13b_server_full_once.
Print Assumptions c13b_server_pipelined_cut.
Print Assumptions c13b_client_delivery_irrelevant.
Print Assumptions c13b_client_cut_never_ok.
Print Assumptions c13b_client_full.
