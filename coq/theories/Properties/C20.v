(* C20 - The CLI performs exactly the operation its arguments describe. Lemmas:
   Proofs/StrconvP.v, CliP.v, CliDevP.v. The model (Model/Cli.v, Model/Strconv.v)
   follows cmd/modbus-cli.go and strconv.ParseUint/ParseInt; the documented
   meaning (Spec/CliSpec.v, Spec/StrconvSpec.v) is written from the help text and
   the Go literal grammar. strconv.ParseFloat enters as an oracle (pf32 / pf64). *)
From Modbus Require Import Base.Bytes Model.Encoding Model.Wire Model.Client Model.Strconv Model.Cli
  Spec.ModbusSpec Spec.ClientSpec Spec.StrconvSpec Spec.CliSpec Proofs.StrconvP Proofs.CliP Proofs.CliDevP.
From Coq Require String.
Import String.StringSyntax.
Local Delimit Scope string_scope with string.

(* T1: parsing is total (cli_parse_cmd is a function) and all-or-nothing.
   A refused argument anywhere in the list ends the program with a non-zero
   status before any connection: no frame is written, nothing is read back. *)
Theorem c20_all_or_nothing : forall pf32 pf64 e w u args dev a,
  In a args -> cli_parse_cmd pf32 pf64 a = CliRefused ->
  let r := cli_main pf32 pf64 e w u args dev in
  (exists code, r = CliExit code /\ code <> 0) /\ cli_tx_log r = [] /\ cli_printed r = [].
Proof.
  intros pf32 pf64 e w u args dev a Hin Hr.
  destruct (main_all_or_nothing pf32 pf64 e w u args dev a Hin Hr) as (code & E & Hc).
  cbn zeta. rewrite E. repeat split. exists code. split; [reflexivity|exact Hc].
Qed.

Theorem c20_parse_all : forall pf32 pf64 args,
  (forall ops, cli_parse_all pf32 pf64 args = CliOk ops <->
               Forall2 (fun a o => cli_parse_cmd pf32 pf64 a = CliOk o) args ops) /\
  (cli_parse_all pf32 pf64 args = CliRefused <->
   exists a, In a args /\ cli_parse_cmd pf32 pf64 a = CliRefused).
Proof.
  intros. split; [intros ops; apply parse_all_ok|apply parse_all_refused].
Qed.

(* T2: for every accepted command line and every device: the frames
   written are exactly the documented requests, one per command within
   protocol limits: MBAP header, the selected unit id, then the Modbus request
   of the documented operation (Spec/ClientSpec.v: spec_pdu) with count =
   additional quantity + 1 values of the type. (All strings of the command
   line are bytes; for the unit-id option u the proof does not need it.) *)
Theorem c20_requests_exact : forall pf32 pf64,
  (forall s v, pf32 s = Some v -> v < 2 ^ 32) -> (forall s v, pf64 s = Some v -> v < 2 ^ 64) ->
  forall e w u args dev st,
  Forall (fun a => bytesb a = true) args -> bytesb u = true ->
  cli_main pf32 pf64 e w u args dev = CliDone st ->
  exists unit en wo ops,
    sc_parse_uint 64 u = ScOk unit /\ unit < 256 /\
    cli_endian_of e = Some en /\ cli_word_of w = Some wo /\
    Forall2 (fun a o => cli_parse_cmd pf32 pf64 a = CliOk o) args ops /\
    cs_tx st = cli_doc_frames (mkcfg unit en wo) 0 ops.
Proof.
  intros pf32 pf64 B32 B64 e w u args dev st Hb Hu H.
  destruct (main_done pf32 pf64 e w u args dev st H) as (unit & en & wo & ops & H1 & H2 & H3 & H4 & H5 & H6).
  exists unit, en, wo, ops. repeat split; try assumption.
  - apply parse_all_ok. exact H5.
  - subst st. rewrite run_frames; [reflexivity| |exact H2|cbn; lia].
    exact (parse_all_wf pf32 pf64 B32 B64 args ops Hb H5).
Qed.

(* the same for any state of a run: independent of the device's contents *)
Theorem c20_run_frames : forall cs st,
  Forall cli_op_wf cs -> cfg_wf (cs_cfg st) -> cs_txn st < 65536 ->
  cs_tx (cli_run st cs) = cs_tx st ++ cli_doc_frames (cs_cfg st) (cs_txn st) cs.
Proof. exact run_frames. Qed.

(* one command within limits: ONE frame, the documented request *)
Theorem c20_one_request : forall st c o,
  cli_op_wf c -> cfg_wf (cs_cfg st) -> cs_txn st < 65536 ->
  cli_doc_op c = Some o -> valid_op o = true ->
  cs_tx (cli_exec st c) =
    cs_tx st ++ [spec_frame FMbap (u16 (cs_txn st + 1)) (spec_pdu (cs_cfg st) o)].
Proof. intros. apply (exec_valid st c o); assumption. Qed.

(* the code's 16-bit "quantity + 1" and the documented count agree wherever a
   request is issued *)
Theorem c20_op_agree : forall c o, cli_op_wf c -> cli_doc_op c = Some o ->
  exists o', cli_to_op c = Some o' /\ op_wf o' /\ valid_op o' = valid_op o /\
             (valid_op o = true -> o' = o).
Proof. exact op_agree. Qed.

(* sid:n switches the unit id of the subsequent requests, nothing else *)
Theorem c20_set_unit : forall st u,
  cli_exec st (CoSetUnit u) =
    mkclist (mkcfg u (c_endian (cs_cfg st)) (c_word (cs_cfg st))) (cs_txn st) (cs_dev st) (cs_tx st) (cs_out st).
Proof. exact exec_set_unit. Qed.

(* printed addresses: a + i * w(T) modulo 65536, values in order *)
Theorem c20_printed_nums : forall h t a q l i, t <> CtBytes -> (i < length l)%nat ->
  length (cli_print (CoReadRegs h t a q) (Ok (VNums l))) = length l /\
  nth i (cli_print (CoReadRegs h t a q) (Ok (VNums l))) ClFail =
    ClNum (cli_width t) ((a + N.of_nat i * cli_width t) mod 65536) (nth i l 0).
Proof.
  intros h t a q l i Ht Hi. cbn [cli_print].
  destruct t; try congruence; cbn [cli_width N.eqb Pos.eqb]; (split; [apply mapi_length|]);
    rewrite (mapi_nth _ l 0 i 0 ClFail Hi); f_equal;
    first [rewrite N.mul_1_r; apply print_addr1|apply print_addr; auto].
Qed.

Theorem c20_printed_bools : forall coil a q l i, (i < length l)%nat ->
  length (cli_print (CoReadBools coil a q) (Ok (VBools l))) = length l /\
  nth i (cli_print (CoReadBools coil a q) (Ok (VBools l))) ClFail =
    ClBool ((a + N.of_nat i) mod 65536) (nth i l false).
Proof.
  intros coil a q l i Hi. cbn [cli_print]. split; [apply mapi_length|].
  rewrite (mapi_nth _ l 0 i false ClFail Hi). f_equal. apply print_addr1.
Qed.

(* every command of the documented grammar (Spec/CliSpec.v: cli_doc_cmd - Go
   integer literals for addresses, counts and values, signed values as their
   two's-complement image, hex strings, all aliases) parses to its documented
   operation *)
Theorem c20_grammar_accepted : forall pf32 pf64 s c,
  cli_doc_cmd pf32 pf64 s c -> cli_parse_cmd pf32 pf64 s = CliOk c.
Proof. exact doc_cmd_accepted. Qed.

(* ... and nothing else does: accepted arguments are exactly the commands of
   the documented grammar; an argument outside it is refused (and then, by
   c20_all_or_nothing, nothing is sent) *)
Theorem c20_grammar_exact : forall pf32 pf64 s c, bytesb s = true ->
  (cli_parse_cmd pf32 pf64 s = CliOk c <-> cli_doc_cmd pf32 pf64 s c).
Proof.
  intros pf32 pf64 s c Hb. split; [apply parse_cmd_documented; exact Hb|apply doc_cmd_accepted].
Qed.

Theorem c20_undocumented_refused : forall pf32 pf64 s, bytesb s = true ->
  (forall c, ~ cli_doc_cmd pf32 pf64 s c) -> cli_parse_cmd pf32 pf64 s = CliRefused.
Proof.
  intros pf32 pf64 s Hb H. destruct (cli_parse_cmd pf32 pf64 s) as [c|] eqn:E; [|reflexivity].
  exfalso. exact (H c (parse_cmd_documented pf32 pf64 s c Hb E)).
Qed.

(* T2, against the reference device: what a read prints is the device's
   contents at the addressed locations in the requested type and encoding;
   what a write sends lands in the addressed cells in the requested layout. *)
Theorem c20_read_regs_values : forall st h t a q,
  t <> CtBytes -> a < 65536 -> q < 65536 -> cfg_wf (cs_cfg st) -> cs_txn st < 65536 ->
  (q + 1) * cli_width t <= 125 -> a + (q + 1) * cli_width t <= 65536 ->
  let c := CoReadRegs h t a q in
  let w := cli_width t in
  exists o xs,
    cli_doc_op c = Some o /\
    cli_exec st c =
      mkclist (cs_cfg st) (u16 (cs_txn st + 1)) (cs_dev st)
        (cs_tx st ++ [spec_frame FMbap (u16 (cs_txn st + 1)) (spec_pdu (cs_cfg st) o)])
        (cs_out st ++ cli_print c (Ok (VNums xs))) /\
    lenN xs = q + 1 /\ Forall (fun v => v < 2 ^ (16 * w)) xs /\
    flat_map (spec_bytes (N.to_nat w) (c_endian (cs_cfg st)) (c_word (cs_cfg st))) xs =
      flat_map be16 (cli_range (cli_regs_of (cs_dev st) h) a ((q + 1) * w)).
Proof. exact exec_read_regs. Qed.

Theorem c20_read_bools_values : forall st coil a q,
  a < 65536 -> q < 65536 -> cfg_wf (cs_cfg st) -> cs_txn st < 65536 ->
  q + 1 <= 2000 -> a + q + 1 <= 65536 ->
  let c := CoReadBools coil a q in
  let bits := cli_range (if coil then dv_coil (cs_dev st) else dv_disc (cs_dev st)) a (q + 1) in
  exists o,
    cli_doc_op c = Some o /\
    cli_exec st c =
      mkclist (cs_cfg st) (u16 (cs_txn st + 1)) (cs_dev st)
        (cs_tx st ++ [spec_frame FMbap (u16 (cs_txn st + 1)) (spec_pdu (cs_cfg st) o)])
        (cs_out st ++ cli_print c (Ok (VBools bits))).
Proof. exact exec_read_bools. Qed.

Theorem c20_read_bytes_values : forall st h a q,
  a < 65536 -> q < 65536 -> cfg_wf (cs_cfg st) -> cs_txn st < 65536 ->
  (q + 2) / 2 <= 125 -> a + (q + 2) / 2 <= 65536 ->
  let c := CoReadRegs h CtBytes a q in
  let data := flat_map be16 (cli_range (cli_regs_of (cs_dev st) h) a ((q + 2) / 2)) in
  let bytes := firstn (N.to_nat (q + 1))
                 (match c_endian (cs_cfg st) with LittleE => pair_swap data | BigE => data end) in
  exists o,
    cli_doc_op c = Some o /\
    cli_exec st c =
      mkclist (cs_cfg st) (u16 (cs_txn st + 1)) (cs_dev st)
        (cs_tx st ++ [spec_frame FMbap (u16 (cs_txn st + 1)) (spec_pdu (cs_cfg st) o)])
        (cs_out st ++ cli_print c (Ok (VBytes bytes))).
Proof. exact exec_read_bytes. Qed.

Theorem c20_write_num_lands : forall st t a v,
  t <> CtBytes -> a < 65536 -> v < 2 ^ (16 * cli_width t) -> a + cli_width t <= 65536 ->
  cfg_wf (cs_cfg st) -> cs_txn st < 65536 ->
  let c := CoWriteNum t a v in
  exists o d',
    cli_doc_op c = Some o /\
    cli_exec st c =
      mkclist (cs_cfg st) (u16 (cs_txn st + 1)) d'
        (cs_tx st ++ [spec_frame FMbap (u16 (cs_txn st + 1)) (spec_pdu (cs_cfg st) o)])
        (cs_out st ++ [ClWrote]) /\
    cli_landed (cs_dev st) d' a
      (spec_bytes (N.to_nat (cli_width t)) (c_endian (cs_cfg st)) (c_word (cs_cfg st)) v).
Proof. exact exec_write_num. Qed.

Theorem c20_write_bytes_lands : forall st a bs,
  a < 65536 -> bytesb bs = true -> 1 <= (lenN bs + 1) / 2 <= 123 -> a + (lenN bs + 1) / 2 <= 65536 ->
  cfg_wf (cs_cfg st) -> cs_txn st < 65536 ->
  let c := CoWriteBytes a bs in
  exists o d',
    cli_doc_op c = Some o /\
    cli_exec st c =
      mkclist (cs_cfg st) (u16 (cs_txn st + 1)) d'
        (cs_tx st ++ [spec_frame FMbap (u16 (cs_txn st + 1)) (spec_pdu (cs_cfg st) o)])
        (cs_out st ++ [ClWrote]) /\
    cli_landed (cs_dev st) d' a (spec_byte_image (cs_cfg st) false bs).
Proof. exact exec_write_bytes. Qed.

Theorem c20_write_coil_lands : forall st a v,
  a < 65536 -> cfg_wf (cs_cfg st) -> cs_txn st < 65536 ->
  let c := CoWriteCoil a v in
  exists o d',
    cli_doc_op c = Some o /\
    cli_exec st c =
      mkclist (cs_cfg st) (u16 (cs_txn st + 1)) d'
        (cs_tx st ++ [spec_frame FMbap (u16 (cs_txn st + 1)) (spec_pdu (cs_cfg st) o)])
        (cs_out st ++ [ClWrote]) /\
    dv_coil d' a = v /\ (forall x, x <> a -> dv_coil d' x = dv_coil (cs_dev st) x) /\
    dv_disc d' = dv_disc (cs_dev st) /\ dv_hold d' = dv_hold (cs_dev st) /\ dv_inp d' = dv_inp (cs_dev st).
Proof. exact exec_write_coil. Qed.

(* T3: a command whose operation exceeds the protocol limits (or runs
   past address 0xFFFF) puts nothing on the wire, prints a failure, leaves
   the device alone, and the run goes on. *)
Theorem c20_over_limit : forall st c o,
  cli_op_wf c -> cli_doc_op c = Some o -> valid_op o = false ->
  cli_exec st c = mkclist (cs_cfg st) (cs_txn st) (cs_dev st) (cs_tx st) (cs_out st ++ [ClFail]).
Proof. exact exec_invalid. Qed.

Theorem c20_limits : forall h t a q o coil,
  (t <> CtBytes -> cli_doc_op (CoReadRegs h t a q) = Some o ->
   valid_op o = ((q + 1) * cli_width t <=? 125) && (a + (q + 1) * cli_width t <=? 65536)) /\
  (cli_doc_op (CoReadRegs h CtBytes a q) = Some o ->
   valid_op o = ((q + 2) / 2 <=? 125) && (a + (q + 2) / 2 <=? 65536)) /\
  (cli_doc_op (CoReadBools coil a q) = Some o ->
   valid_op o = (q + 1 <=? 2000) && (a + q + 1 <=? 65536)).
Proof.
  intros. split; [|split]; [apply read_regs_valid|apply read_bytes_valid|apply read_bools_valid].
Qed.

(* T4: the integer parsers accept exactly Go's integer literals and
   return the denoted value; range refusal exactly beyond the bounds. *)
Theorem c20_parse_uint_exact : forall bits s v,
  1 <= bits <= 64 -> bytesb s = true ->
  (sc_parse_uint bits s = ScOk v <-> sl_int_lit s = true /\ sl_value s = v /\ v < 2 ^ bits).
Proof. exact parse_uint_exact. Qed.

Theorem c20_parse_uint_literal : forall bits s,
  1 <= bits <= 64 -> bytesb s = true -> sl_int_lit s = true ->
  sc_parse_uint bits s = if sl_value s <? 2 ^ bits then ScOk (sl_value s) else ScRange.
Proof. exact parse_uint_literal. Qed.

Theorem c20_parse_uint_sign : forall bits t,
  sc_parse_uint bits (43 :: t) = ScSyntax /\ sc_parse_uint bits (45 :: t) = ScSyntax /\
  sc_parse_uint bits [] = ScSyntax.
Proof. intros bits t. repeat split. Qed.

Theorem c20_parse_int_exact : forall bits s z,
  2 <= bits <= 64 -> bytesb s = true ->
  (sc_parse_int bits s = ScIOk z <->
   sl_signed_lit s = true /\ sl_signed_value s = z /\
   (- Z.of_N (2 ^ (bits - 1)) <= z < Z.of_N (2 ^ (bits - 1)))%Z).
Proof. exact parse_int_exact. Qed.

Theorem c20_parse_int_literal : forall bits s,
  2 <= bits <= 64 -> bytesb s = true -> sl_signed_lit s = true ->
  sc_parse_int bits s =
    if ((- Z.of_N (2 ^ (bits - 1)) <=? sl_signed_value s) && (sl_signed_value s <? Z.of_N (2 ^ (bits - 1))))%Z
    then ScIOk (sl_signed_value s) else ScIRange.
Proof. exact parse_int_literal. Qed.

(* canonical decimal, 0x, 0o and 0b renderings of any n come back as n when it
   fits the bit size, as a range error otherwise *)
Theorem c20_roundtrip : forall bits n, 1 <= bits <= 64 ->
  let r := if n <? 2 ^ bits then ScOk n else ScRange in
  sc_parse_uint bits (sl_decimal n) = r /\ sc_parse_uint bits (sl_hex n) = r /\
  sc_parse_uint bits (sl_octal n) = r /\ sc_parse_uint bits (sl_binary n) = r.
Proof. exact roundtrip. Qed.

Theorem c20_hex_bytes : forall s bs,
  (sc_hex_decode s = Some bs -> length s = (2 * length bs)%nat /\ bytesb bs = true) /\
  (bytesb bs = true -> sc_hex_decode (sc_hex_render bs) = Some bs).
Proof. intros. split; [apply hex_decode_ok|apply hex_decode_roundtrip]. Qed.

(* non-vacuity: the help text's own examples *)
Definition c20_nof : list N -> option N := fun _ => None.

Example c20_ex_parse :
  cli_parse_cmd c20_nof c20_nof (sc_str "rh:uint32:0x100+5"%string) = CliOk (CoReadRegs true CtU32 256 5) /\
  cli_parse_cmd c20_nof c20_nof (sc_str "wr:int16:0xf100:-10"%string) = CliOk (CoWriteNum CtI16 0xf100 0xfff6) /\
  cli_parse_cmd c20_nof c20_nof (sc_str "rc:0x100+199"%string) = CliOk (CoReadBools true 256 199) /\
  cli_parse_cmd c20_nof c20_nof (sc_str "wr:bytes:5:fafbfcfd"%string) = CliOk (CoWriteBytes 5 [0xfa; 0xfb; 0xfc; 0xfd]) /\
  cli_parse_cmd c20_nof c20_nof (sc_str "sid:10"%string) = CliOk (CoSetUnit 10) /\
  cli_parse_cmd c20_nof c20_nof (sc_str "rh:uint32:0x100+5+1"%string) = CliRefused /\
  cli_parse_cmd c20_nof c20_nof (sc_str "rh:uint8:1"%string) = CliRefused /\
  cli_parse_cmd c20_nof c20_nof (sc_str "wr:int16:1:32768"%string) = CliRefused /\
  cli_parse_cmd c20_nof c20_nof (sc_str "rc:1_"%string) = CliRefused.
Proof. vm_compute. repeat split; reflexivity. Qed.

(* "rh:uint32:0x100+5 rc:0+10 wc:3:true" from the help text, unit id 1 *)
Example c20_ex_run :
  cli_tx_log (cli_main c20_nof c20_nof (sc_str "big"%string) (sc_str "highfirst"%string) (sc_str "1"%string)
    [sc_str "rh:uint32:0x100+5"%string; sc_str "rc:0+10"%string; sc_str "wc:3:true"%string] cli_dev_init) =
  [[0; 1; 0; 0; 0; 6; 1; 3; 1; 0; 0; 12];
   [0; 2; 0; 0; 0; 6; 1; 1; 0; 0; 0; 11];
   [0; 3; 0; 0; 0; 6; 1; 5; 0; 3; 255; 0]].
Proof. vm_compute. reflexivity. Qed.

(* the aliases of the help text are among the accepted names *)
Example c20_ex_aliases :
  forallb (fun n => cli_in (sc_str n) cli_n_rc) ["rc"; "readCoils"]%string = true /\
  forallb (fun n => cli_in (sc_str n) cli_n_rdi) ["rdi"; "readDiscreteInputs"]%string = true /\
  forallb (fun n => cli_in (sc_str n) cli_n_rh) ["rh"; "readHoldingRegisters"]%string = true /\
  forallb (fun n => cli_in (sc_str n) cli_n_ri) ["ri"; "readInputRegisters"]%string = true /\
  forallb (fun n => cli_in (sc_str n) cli_n_wc) ["wc"; "writeCoil"]%string = true /\
  forallb (fun n => cli_in (sc_str n) cli_n_wr) ["wr"; "writeRegister"]%string = true /\
  forallb (fun n => cli_in (sc_str n) cli_n_sid) ["setUnitId"; "suid"; "sid"]%string = true.
Proof. vm_compute. repeat split; reflexivity. Qed.

(* the documented grammar is inhabited: "rh:uint32:0x100+5" and "wr:int16:0xf100:-10" *)
Example c20_ex_grammar :
  cli_doc_cmd c20_nof c20_nof (sc_str "rh:uint32:0x100+5"%string) (CoReadRegs true CtU32 256 5) /\
  cli_doc_cmd c20_nof c20_nof (sc_str "wr:int16:0xf100:-10"%string) (CoWriteNum CtI16 0xf100 0xfff6).
Proof.
  split.
  - apply (DocReadHolding c20_nof c20_nof (sc_str "rh"%string) (sc_str "uint32"%string) CtU32
             (sc_str "0x100+5"%string) 256 5).
    + left. reflexivity.
    + right; right; left. reflexivity.
    + right. exists (sc_str "0x100"%string), (sc_str "5"%string). unfold cli_lit. vm_compute. repeat split; reflexivity.
  - apply (DocWriteNum c20_nof c20_nof (sc_str "wr"%string) (sc_str "int16"%string) CtI16
             (sc_str "0xf100"%string) 0xf100 (sc_str "-10"%string) 0xfff6).
    + left. reflexivity.
    + right; left. reflexivity.
    + unfold cli_lit. vm_compute. repeat split; reflexivity.
    + cbn [cli_doc_value]. unfold cli_slit. vm_compute. repeat split; try reflexivity; discriminate.
Qed.

(* over the limit: no frame, a failure line, the next command still runs *)
Example c20_ex_limit :
  let r := cli_main c20_nof c20_nof (sc_str "big"%string) (sc_str "hf"%string) (sc_str "1"%string)
    [sc_str "rh:uint32:0+62"%string; sc_str "rc:0+65535"%string; sc_str "wc:3:false"%string] cli_dev_init in
  cli_tx_log r = [[0; 1; 0; 0; 0; 6; 1; 5; 0; 3; 0; 0]] /\ cli_printed r = [ClFail; ClFail; ClWrote].
Proof. vm_compute. split; reflexivity. Qed.

Example c20_ex_literals :
  sc_parse_uint 16 (sc_str "0x_1_0"%string) = ScOk 16 /\ sc_parse_uint 16 (sc_str "0b1010"%string) = ScOk 10 /\
  sc_parse_uint 16 (sc_str "017"%string) = ScOk 15 /\ sc_parse_uint 16 (sc_str "0o17"%string) = ScOk 15 /\
  sc_parse_uint 16 (sc_str "65535"%string) = ScOk 65535 /\ sc_parse_uint 16 (sc_str "65536"%string) = ScRange /\
  sc_parse_uint 16 (sc_str "0x"%string) = ScSyntax /\ sc_parse_uint 16 (sc_str "1__0"%string) = ScSyntax /\
  sc_parse_int 16 (sc_str "-32768"%string) = ScIOk (-32768) /\ sc_parse_int 16 (sc_str "-32769"%string) = ScIRange /\
  sc_parse_int 16 (sc_str "+0x7fff"%string) = ScIOk 32767 /\ sc_parse_int 16 (sc_str "0x8000"%string) = ScIRange /\
  sl_decimal 65535 = sc_str "65535"%string /\ sl_hex 65535 = sc_str "0xffff"%string.
Proof. vm_compute. repeat split; reflexivity. Qed.

Print Assumptions c20_all_or_nothing.
Print Assumptions c20_parse_all.
Print Assumptions c20_requests_exact.
Print Assumptions c20_run_frames.
Print Assumptions c20_one_request.
Print Assumptions c20_op_agree.
Print Assumptions c20_set_unit.
Print Assumptions c20_printed_nums.
Print Assumptions c20_printed_bools.
Print Assumptions c20_grammar_accepted.
Print Assumptions c20_grammar_exact.
Print Assumptions c20_undocumented_refused.
Print Assumptions c20_read_regs_values.
Print Assumptions c20_read_bools_values.
Print Assumptions c20_read_bytes_values.
Print Assumptions c20_write_num_lands.
Print Assumptions c20_write_bytes_lands.
Print Assumptions c20_write_coil_lands.
Print Assumptions c20_over_limit.
Print Assumptions c20_limits.
Print Assumptions c20_parse_uint_exact.
Print Assumptions c20_parse_uint_literal.
Print Assumptions c20_parse_uint_sign.
Print Assumptions c20_parse_int_exact.
Print Assumptions c20_parse_int_literal.
Print Assumptions c20_roundtrip.
Print Assumptions c20_hex_bytes.
