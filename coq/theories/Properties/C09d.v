(* C09, a client dropped for a protocol error that keeps its own end open. Being
   dropped is something the SERVER does: the request loop refuses a frame, closes
   the link and returns; what the peer does with its socket afterwards is not a
   step of the release. The labels of the connection (Model/SlotsDrop.v) are Req
   steps, then End c ProtocolError and Remove c. Lemmas in Proofs/SlotsDropP.v. *)
From Coq Require Import List Arith Bool NArith Permutation.
Import ListNotations.
From Modbus Require Import Base.Bytes Model.Wire Model.Server Model.Slots Proofs.SlotsP
  Model.SlotsVisit Model.SlotsDrop Proofs.SlotsDropP.
Local Open Scope nat_scope.

(* the run of Model/SlotsDrop.v is the request loop of Model/Server.v on a
   peer that stays connected and silent after its bytes: same handler calls,
   same frames, same closing; only the final idle expiry is left out *)
Theorem c09d_run_is_server_run : forall St (h : handler St) st s,
  server_run h st Stall s =
  flat_map drop_event_events (drop_run h st s) ++
  (if drop_dropped (drop_run h st s) then [] else [EvClosed]).
Proof. intros St h st s. unfold server_run, drop_run. apply drop_session_events. Qed.

(* a well-framed request refused by the request validation closes the link at
   once; nothing behind it in the stream is processed *)
Theorem c09d_refused_request_drops : forall St (h : handler St) st s req txn rest st' calls,
  read_mbap Stall s = (FOk req txn, rest) ->
  server_process h st req = (st', calls, CloseLink) ->
  drop_run h st s = [DRefused calls].
Proof.
  intros St h st s req txn rest st' calls Hr Hp. unfold drop_run. cbn [drop_session]. rewrite Hr, Hp. reflexivity.
Qed.

(* the dropped connection gives back exactly its slot, by its own labels *)
Theorem c09d_dropped_frees : forall s c evs, Inv s -> stat s c = Serving -> drop_dropped evs = true ->
  let s1 := run s (drop_labels c evs) in
  Permutation (clients s) (c :: clients s1) /\ stat s1 c = Removed /\ closed s1 c = true /\
  started s1 = started s /\ listening s1 = listening s /\ acceptors s1 = acceptors s /\ maxc s1 = maxc s /\
  (forall x, x <> c -> stat s1 x = stat s x).
Proof. exact dropped_frees. Qed.

(* ... and the connection that arrives next is served, the server full or not *)
Theorem c09d_dropped_then_served : forall s c d evs, Inv s -> started s = true -> (0 < acceptors s)%nat ->
  stat s c = Serving -> drop_dropped evs = true -> stat s d = Fresh ->
  let s1 := run s (drop_labels c evs ++ arrival d) in
  stat s1 d = Serving /\ In d (clients s1) /\ ~ In c (clients s1) /\
  length (clients s1) = length (clients s).
Proof. exact dropped_then_served. Qed.

(* while nothing has been refused the connection keeps its slot *)
Theorem c09d_not_dropped_keeps : forall s c evs, drop_dropped evs = false ->
  run s (drop_labels c evs) = s.
Proof.
  intros s c evs. induction evs as [|e t IH]; intros Hd; [reflexivity|].
  unfold drop_dropped in *. cbn [existsb] in Hd. apply orb_false_iff in Hd as [He Ht].
  rewrite drop_labels_cons, He. apply IH, Ht.
Qed.

(* non-vacuity: MaxClients = 1; the served client sends a valid read, then a
   read of 0 coils (well framed, refused), then another valid read; one handler
   call, one response, the link is closed, the third request is never looked
   at; the slot is free and the next connection is served *)
Definition c09d_handler : handler nat := fun st r =>
  (S st, mkhres (repeat false (N.to_nat (h_qty r))) (repeat 0%N (N.to_nat (h_qty r))) HNone).

Definition c09d_stream : list N :=
  ([0;1;0;0;0;6;1;3;0;0;0;1] ++ [0;2;0;0;0;6;1;1;0;0;0;0] ++ [0;3;0;0;0;6;1;3;0;0;0;1])%N.

Example c09d_ex :
  let evs := drop_run c09d_handler 0 c09d_stream in
  drop_dropped evs = true /\ drop_calls evs = 1 /\
  drop_written evs = [0;1;0;0;0;5;1;3;2;0;0]%N /\
  let s0 := run (init 1) (Start :: arrival 1 ++ arrival 2) in
  Inv s0 /\ stat s0 1 = Serving /\ stat s0 2 = Rejected /\
  let s := run s0 (drop_labels 1 evs ++ arrival 3) in
  stat s 1 = Removed /\ stat s 3 = Serving /\ clients s = [3].
Proof.
  cbn zeta. split; [vm_compute; reflexivity|]. split; [vm_compute; reflexivity|].
  split; [vm_compute; reflexivity|]. split; [apply reachable_inv|].
  vm_compute. repeat split.
Qed.

Print Assumptions c09d_run_is_server_run.
Print Assumptions c09d_refused_request_drops.
Print Assumptions c09d_dropped_frees.
Print Assumptions c09d_dropped_then_served.
Print Assumptions c09d_not_dropped_keeps.
