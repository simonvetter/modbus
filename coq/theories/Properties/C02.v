(* C02 - Client never accepts a reply that does not answer its request.
   Statements, each with the last step of its proof; the lemmas are in
   Proofs/ClientRespP.v (on top of Proofs/FramingP.v). txn < 65536 is not a
   limit of these claims: no proof needs it (the model narrows txn + 1 to 16
   bits itself); c02_sound does not need cfg_wf cfg either. *)
From Modbus Require Import Base.Bytes Model.Crc Model.Encoding Model.Wire Model.Client
  Spec.ModbusSpec Spec.ClientSpec Proofs.ClientRespP.

(* T1 soundness: success only on a well-formed reply to this very request,
   found at a frame boundary (MBAP: after frames that had to be skipped; RTU:
   at the start of the stream), and the returned values are exactly the
   requested number of values decoded from that reply. *)
Theorem c02_sound : forall fr cfg txn o e s vs,
  op_wf o -> cfg_wf cfg -> txn < 65536 -> bytesb s = true ->
  cr_res (client_call fr cfg txn o e s) = Ok vs ->
  valid_op o = true /\
  exists res pre post,
    answers cfg o res vs /\
    s = pre ++ spec_frame fr (u16 (txn + 1)) res ++ post /\
    cr_rest (client_call fr cfg txn o e s) = post /\
    match fr with
    | FMbap => exists frames, pre = concat frames /\ Forall (skippable (u16 (txn + 1))) frames
    | FRtu => pre = []
    end.
Proof. exact client_sound. Qed.

(* T2 completeness: every valid reply is accepted, whatever follows it *)
Theorem c02_complete_rtu : forall cfg txn o e res vs post,
  op_wf o -> cfg_wf cfg -> valid_op o = true ->
  bytesb (p_payload res) = true -> answers cfg o res vs ->
  let r := client_call FRtu cfg txn o e (spec_frame FRtu 0 res ++ post) in
  cr_res r = Ok vs /\ cr_rest r = post.
Proof. exact client_complete_rtu. Qed.

Theorem c02_complete_mbap : forall cfg txn o e res vs frames post,
  op_wf o -> cfg_wf cfg -> txn < 65536 -> valid_op o = true ->
  bytesb (p_payload res) = true -> answers cfg o res vs ->
  Forall (skippable (u16 (txn + 1))) frames ->
  let r := client_call FMbap cfg txn o e
             (concat frames ++ spec_frame FMbap (u16 (txn + 1)) res ++ post) in
  cr_res r = Ok vs /\ cr_rest r = post.
Proof. exact client_complete_mbap. Qed.

(* T3: exception replies (addressed unit or gateway unit 255) give the error
   of their code; all 256 codes *)
Theorem c02_exception_rtu : forall cfg txn o e res code post,
  op_wf o -> cfg_wf cfg -> valid_op o = true -> code < 256 ->
  exception_reply cfg o res code ->
  cr_res (client_call FRtu cfg txn o e (spec_frame FRtu 0 res ++ post)) =
    Err (if documented_exception code then EExc code else EExcUnknown code).
Proof. exact client_exception_rtu. Qed.

Theorem c02_exception_mbap : forall cfg txn o e res code frames post,
  op_wf o -> cfg_wf cfg -> txn < 65536 -> valid_op o = true -> code < 256 ->
  exception_reply cfg o res code ->
  Forall (skippable (u16 (txn + 1))) frames ->
  cr_res (client_call FMbap cfg txn o e
            (concat frames ++ spec_frame FMbap (u16 (txn + 1)) res ++ post)) =
    Err (if documented_exception code then EExc code else EExcUnknown code).
Proof. exact client_exception_mbap. Qed.

(* a normal (non-exception) reply from another unit, 255 included, is refused *)
Theorem c02_foreign_unit_refused : forall fr cfg txn o e res vs post,
  op_wf o -> cfg_wf cfg -> txn < 65536 -> valid_op o = true ->
  bytesb (p_payload res) = true -> answers cfg o res vs ->
  forall u, u < 256 -> u <> c_unit cfg ->
  cr_res (client_call fr cfg txn o e
            (spec_frame fr (u16 (txn + 1)) (mkpdu u (p_fc res) (p_payload res)) ++ post)) = Err EBadUnit.
Proof.
  intros fr cfg txn o e res vs post Hwf Hcfg Ht V Hb Hans u Hu Hne.
  destruct (client_reply_from fr cfg txn o e res vs [] post u Hwf V Hu Hb Hans) as [H _].
  { destruct fr; [split; [exact Ht|constructor]|reflexivity]. }
  cbn [concat app] in H. rewrite H. apply N.eqb_neq in Hne. rewrite Hne. reflexivity.
Qed.

(* T4: no byte stream makes the client panic (no out-of-range slice or index,
   decoders never see ragged input) and the receive loop terminates *)
Theorem c02_no_panic : forall fr cfg txn o e s, op_wf o ->
  cr_res (client_call fr cfg txn o e s) <> Panic /\
  cr_res (client_call fr cfg txn o e s) <> OutOfFuel.
Proof. exact client_no_panic. Qed.

(* non-vacuity: a concrete request, reply and outcome *)
Example c02_ex :
  cr_res (client_call FMbap (mkcfg 17 BigE HighFirst) 0 (OpReadRegs 2 0xfffc 1 Holding) Stall
            [0;1;0;0;0;7;17;3;4;0x0a;0x0b;0x0c;0x0d]) = Ok (VNums [0x0a0b0c0d]).
Proof. vm_compute. reflexivity. Qed.

Print Assumptions c02_sound.
Print Assumptions c02_complete_rtu.
Print Assumptions c02_complete_mbap.
Print Assumptions c02_exception_rtu.
Print Assumptions c02_exception_mbap.
Print Assumptions c02_foreign_unit_refused.
Print Assumptions c02_no_panic.
