(* C06 / C02 / C13, source level: the frame reader and the exchange of rtu_transport.go AS TRANSLATED FROM THE GO
   SOURCE ON THIS RUN. (1) For EVERY world they compute the transport model of Model/Transport.v: a frame is accepted
   only when the CRC-16 of everything before the trailer equals the trailer; the link is flushed exactly after a bad
   CRC, a protocol error or a short frame. (2) On byte-stream worlds they return what read_rtu / rtu_read_response of
   Model/Wire.v return (what C02.v and C06.v are about), consume the same bytes and fail in the same error class. *)
From Coq Require Import List NArith String.
Import ListNotations.
From Modbus Require Import Base.Bytes.
From Modbus Require Import Model.GoLite.
From Modbus Require Import Gen.SrcPure.
From Modbus Require Import Model.Wire.
From Modbus Require Import Model.Transport.
From Modbus Require Import Proofs.GoLiteLinkP.
From Modbus Require Import Proofs.SrcCrcP.
From Modbus Require Import Proofs.SrcMiscP.
From Modbus Require Import Proofs.SrcClientP.
From Modbus Require Import Proofs.SrcTransportP.
From Modbus Require Import Proofs.TransportStreamP.
From Modbus Require Import Proofs.TransportClockP.
From Modbus Require Import Proofs.SrcTransportLinkP.
From Modbus Require Import Proofs.SrcTransportWorldsP.
Open Scope string_scope.
Open Scope N_scope.

Theorem c06t_readRTUFrame :
  forall (base : fenv) (fuel : nat) (T : tworld) (tmo la t35 t1 : N) (w : val),
       tworld_hyp base T "link" ->
       tworld_wf T src_codes ->
       call_with src_pure base fuel "rtuTransport.readRTUFrame" [VN tmo; VN la; VN t35; VN t1; w] =
       out_read_rtu T tmo la t35 t1 w.
Proof. exact src_readRTUFrame_ok. Qed.
Print Assumptions c06t_readRTUFrame.

Theorem c06t_discard :
  forall (base : fenv) (fuel : nat) (T : tworld) (w : val),
       tworld_hyp base T "rtuLink" ->
       tworld_wf T src_codes -> call_with src_pure base fuel "discard" [w] = out_discard T w.
Proof. exact src_discard_ok. Qed.
Print Assumptions c06t_discard.

Theorem c06t_ExecuteRequest :
  forall (base : fenv) (fuel : nat) (T : tworld) (tmo la t35 t1 : N) (req : pdu) (w : val),
       tworld_hyp base T "link" ->
       tworld_hyp base T "rtuLink" ->
       tworld_wf T src_codes ->
       pdu_ok req ->
       call_with src_pure base fuel "rtuTransport.ExecuteRequest"
         ([VN tmo; VN la; VN t35; VN t1] ++ pdu_args req ++ [w]) = out_rtu_execute T tmo la t35 t1 req w.
Proof. exact src_rtu_ExecuteRequest_ok. Qed.
Print Assumptions c06t_ExecuteRequest.

Theorem c06t_readRTUFrame_stream :
  forall (fuel : nat) (e : send) (tmo la t35 t1 : N) (s : list N),
       bytesb s = true ->
       exists (w' : val) (p : option pdu) (c : N),
         call_with src_pure (world_base (sw e)) fuel "rtuTransport.readRTUFrame"
           [VN tmo; VN la; VN t35; VN t1; vbytes s] =
         GOk ([VN tmo; VN la; VN t35; VN t1; w'] ++ enc_opdu p ++ [VN c])%list /\
         w' = vbytes (snd (read_rtu e s)) /\
         match fst (read_rtu e s) with
         | MOk q => p = Some q /\ c = 0
         | Err x => p = None /\ c <> 0 /\ EC c = x
         | _ => False
         end.
Proof.
  intros fuel e tmo la t35 t1 s Hs.
  rewrite (src_readRTUFrame_ok (world_base (sw e)) fuel (sw e) tmo la t35 t1 (vbytes s));
    [|apply world_base_hyp; tauto|apply sw_wf].
  unfold out_read_rtu.
  pose proof (t_read_rtu_stream src_codes e 2 src_eof src_distinct s Hs) as H.
  change (SW src_codes e 2 src_eof) with (sw e) in H.
  destruct (t_read_rtu (sw e) src_codes (vbytes s)) as [[w' p] c], H as [Hw H].
  exists w', p, c. split; [reflexivity|]. split; [exact Hw|].
  destruct (fst (read_rtu e s)); try exact H.
  destruct H as [Hp Hc]. split; [exact Hp|exact (CK_EC c _ Hc)].
Qed.
Print Assumptions c06t_readRTUFrame_stream.

Theorem c06t_ExecuteRequest_stream :
  forall (fuel : nat) (e : send) (tmo la t35 t1 : N) (req : pdu) (s : list N),
       bytesb s = true ->
       pdu_ok req ->
       exists (la' : N) (p : option pdu) (c : N),
         call_with src_pure (world_base (sw e)) fuel "rtuTransport.ExecuteRequest"
           ([VN tmo; VN la; VN t35; VN t1] ++ pdu_args req ++ [vbytes s]) =
         GOk
           ([VN tmo; VN la'; VN t35; VN t1; vbytes (snd (rtu_read_response e s))] ++ enc_opdu p ++ [VN c])%list /\
         match fst (rtu_read_response e s) with
         | MOk q => p = Some q /\ c = 0
         | Err x => p = None /\ c <> 0 /\ EC c = x
         | _ => False
         end.
Proof.
  intros fuel e tmo la t35 t1 req s Hs Hok.
  destruct (src_rtu_ExecuteRequest_stream fuel e tmo la t35 t1 req s Hs Hok) as (la' & p & c & Hrun & H).
  exists la', p, c. split; [exact Hrun|].
  destruct (fst (rtu_read_response e s)); try exact H.
  destruct H as [Hp Hc]. split; [exact Hp|exact (CK_EC c _ Hc)].
Qed.
Print Assumptions c06t_ExecuteRequest_stream.

