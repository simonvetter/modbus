(* C15 (continued) - "plain TCP sessions always have an empty role", and TLS
   sessions the role of their own leaf, in histories of ONE process that runs a
   tcp+tls server and a plain tcp server side by side (lemmas in Proofs/RoleMixP.v).
   mix_serve_sessions hs srvs conns (Model/RoleMix.v): srvs are the server objects
   of the process, conns the accepted connections in order, each one (index of the
   server object that accepted it, its peer); entry i: None = never reaches a
   handler, Some role = the ClientRole of every invocation of session i. hs is
   Go's crypto/tls, an oracle as in C14 (tls_srv_documented). *)
From Modbus Require Import Base.Bytes Model.Utf8 Model.Der Model.Role Model.Config Model.TlsPolicy
  Model.RoleSeq Model.RoleMix Spec.RoleSpec Spec.ConfigSpec Proofs.RoleMixP.
From Coq Require String.
Import String.StringSyntax.

(* every session is decided on its own: what a connection gets does not
   depend on the connections accepted before or after it, on the same server
   object or on another one of the process *)
Theorem c15_mix_independent : forall hs srvs earlier x later,
  nth_error (mix_serve_sessions hs srvs (earlier ++ x :: later)) (length earlier) =
  nth_error (mix_serve_sessions hs srvs [x]) 0.
Proof. intros hs srvs earlier [k p] later. rewrite mix_serve_at. reflexivity. Qed.

(* a session accepted by a plain tcp server has the empty role, whatever TLS
   sessions (with whatever roles) the process served before, serves at the
   same time, or serves later *)
Theorem c15_mix_plain_empty : forall hs srvs k c eff earlier peer later,
  nth_error srvs k = Some c ->
  tls_new_server c = CfgOk eff -> se_transport eff = TTcp ->
  nth_error (mix_serve_sessions hs srvs (earlier ++ (k, peer) :: later)) (length earlier) = Some (Some []).
Proof.
  intros hs srvs k c eff earlier peer later Hk En Ht. rewrite mix_serve_at. unfold mix_one.
  cbn [fst snd]. rewrite Hk, (mix_conn_role_plain hs c eff peer En Ht). reflexivity.
Qed.

(* a session accepted by a tcp+tls server gets what it would get as the only
   session of a process running that server alone *)
Theorem c15_mix_tls_alone : forall hs srvs k c eff earlier peer later,
  nth_error srvs k = Some c ->
  tls_new_server c = CfgOk eff -> se_transport eff = TTcpOverTls ->
  nth_error (mix_serve_sessions hs srvs (earlier ++ (k, peer) :: later)) (length earlier) =
  nth_error (tls_serve_sessions hs c [peer]) 0.
Proof.
  intros hs srvs k c eff earlier peer later Hk En Ht. rewrite mix_serve_at. unfold mix_one.
  cbn [fst snd]. rewrite Hk, (mix_conn_role_tls hs c eff peer En Ht). reflexivity.
Qed.

(* per server object: the sessions of a tcp+tls server, taken out of the mixed
   history, are served as by tls_serve_sessions (Properties/C15b.v); those of
   a plain tcp server all have the empty role *)
Theorem c15_mix_tls_part : forall hs srvs k c eff conns,
  nth_error srvs k = Some c ->
  tls_new_server c = CfgOk eff -> se_transport eff = TTcpOverTls ->
  mix_part_of k conns (mix_serve_sessions hs srvs conns) = tls_serve_sessions hs c (mix_conns_of k conns).
Proof.
  intros hs srvs k c eff conns Hk En Ht. rewrite (mix_part hs srvs k c conns Hk), RoleSeqP.serve_sessions_map.
  apply map_ext. intros p. apply (mix_conn_role_tls hs c eff p En Ht).
Qed.

Theorem c15_mix_plain_part : forall hs srvs k c eff conns,
  nth_error srvs k = Some c ->
  tls_new_server c = CfgOk eff -> se_transport eff = TTcp ->
  mix_part_of k conns (mix_serve_sessions hs srvs conns) = map (fun _ => Some []) (mix_conns_of k conns).
Proof.
  intros hs srvs k c eff conns Hk En Ht. rewrite (mix_part hs srvs k c conns Hk).
  apply map_ext. intros p. apply (mix_conn_role_plain hs c eff p En Ht).
Qed.

(* where a role comes from: the empty role of a plain tcp session, or
   extract_role of the leaf presented on THAT connection (to which
   c15_role_sound .. c15_total of C15.v apply) *)
Theorem c15_mix_role_origin : forall hs verifies now srvs conns i role,
  tls_srv_documented hs verifies now ->
  nth_error (mix_serve_sessions hs srvs conns) i = Some (Some role) ->
  exists k peer c eff,
    nth_error conns i = Some (k, peer) /\ nth_error srvs k = Some c /\ tls_new_server c = CfgOk eff /\
    ((se_transport eff = TTcp /\ role = []) \/
     (se_transport eff = TTcpOverTls /\
      exists leaf more, tpe_chain peer = leaf :: more /\ role = extract_role (tlc_exts leaf))).
Proof. exact mix_role_origin. Qed.

(* a non-empty role is seen by TLS sessions only, and is stated by the leaf of
   that very session *)
Theorem c15_mix_role_sound : forall hs verifies now srvs conns i role,
  tls_srv_documented hs verifies now ->
  nth_error (mix_serve_sessions hs srvs conns) i = Some (Some role) -> role <> [] ->
  exists k peer c eff leaf more,
    nth_error conns i = Some (k, peer) /\ nth_error srvs k = Some c /\ tls_new_server c = CfgOk eff /\
    se_transport eff = TTcpOverTls /\ tpe_chain peer = leaf :: more /\
    (all_bytes (tlc_exts leaf) = true -> states_role (tlc_exts leaf) role).
Proof.
  intros hs verifies now srvs conns i role Hdoc Hn Hne.
  destruct (mix_role_origin hs verifies now srvs conns i role Hdoc Hn)
    as (k & peer & c & eff & Hc & Hk & En & [[_ Hr]|(Ht & leaf & more & Hch & Hr)]); [contradiction|].
  exists k, peer, c, eff, leaf, more. repeat (split; [assumption|]).
  intros Hb. apply RoleP.role_sound_spec; auto.
Qed.

(* a served TLS session whose leaf states r has role r, whatever the other
   sessions of the process were *)
Theorem c15_mix_role_complete : forall hs verifies now srvs k c eff earlier peer later leaf more r role,
  tls_srv_documented hs verifies now ->
  nth_error srvs k = Some c ->
  tls_new_server c = CfgOk eff -> se_transport eff = TTcpOverTls ->
  tpe_chain peer = leaf :: more -> states_role (tlc_exts leaf) r -> lenN r < 2 ^ 31 ->
  nth_error (mix_serve_sessions hs srvs (earlier ++ (k, peer) :: later)) (length earlier) = Some (Some role) ->
  role = r.
Proof.
  intros hs verifies now srvs k c eff earlier peer later leaf more r role Hdoc Hk En Ht Hc Hst Hlen.
  rewrite (c15_mix_tls_alone hs srvs k c eff earlier peer later Hk En Ht).
  cbn [tls_serve_sessions nth_error]. intros [= Hs].
  destruct (RoleSeqP.start_tls_leaf hs verifies now c peer role Hdoc Hs) as (leaf' & more' & Hc' & ->).
  rewrite Hc in Hc'. injection Hc' as <- _. apply RoleP.role_complete_spec; assumption.
Qed.

(* non-vacuity: the oracle of C15b (completes the handshake of every TLS peer
   that presents a chain, at TLS 1.3; c15b_ex_documented), a process with a
   tcp+tls server (object 0) and a plain tcp server (object 1) *)
Definition c15d_hs (pol : tls_policy) (peer : tls_peer) : option tls_session :=
  if tpe_speaks_tls peer then
    match tpe_chain peer, tpe_versions peer with
    | _ :: _, [TLS13] => Some (mk_tls_session TLS13 (tpe_chain peer))
    | _, _ => None
    end
  else None.

Example c15d_ex_documented : tls_srv_documented c15d_hs (fun _ _ _ _ _ => True) 0.
Proof.
  intros pol peer sess. unfold c15d_hs.
  destruct (tpe_speaks_tls peer) eqn:Et; [|discriminate].
  destruct (tpe_chain peer) as [|leaf more] eqn:Ec; [discriminate|].
  destruct (tpe_versions peer) as [|[] [|]] eqn:Ev; try discriminate.
  intros [= <-]. cbn. repeat split; auto; try discriminate.
  destruct (tpo_min_version pol); reflexivity.
Qed.

Definition c15d_srvs : list tls_srv_conf :=
  [ mk_tls_srv_conf (str "tcp+tls://0.0.0.0:802") 0 0 (Some (mk_tls_cert 2 [])) (Some [mk_tls_cert 1 []]);
    mk_tls_srv_conf (str "tcp://0.0.0.0:502") 0 0 None None ].

Example c15d_ex_servers :
  map (fun c => match tls_new_server c with CfgOk eff => Some (se_transport eff) | CfgErr _ => None end) c15d_srvs
  = [Some TTcpOverTls; Some TTcp].
Proof. vm_compute. reflexivity. Qed.

Definition c15d_tls (exts : list cert_ext) : nat * tls_peer := (0%nat, mk_tls_peer true [mk_tls_cert 7 exts] [TLS13]).
Definition c15d_plain : nat * tls_peer := (1%nat, mk_tls_peer false [] []).

(* plain, operator, plain, viewer, plain, no role, a TLS peer without
   certificate (refused), plain, operator again, plain *)
Example c15d_ex_history :
  mix_serve_sessions c15d_hs c15d_srvs
    [ c15d_plain;
      c15d_tls [(true, [0x0c; 2; 0x6f; 0x70])];
      c15d_plain;
      c15d_tls [(true, [0x0c; 2; 0x76; 0x69])];
      c15d_plain;
      c15d_tls [(false, [1; 2])];
      (0%nat, mk_tls_peer true [] [TLS13]);
      c15d_plain;
      c15d_tls [(true, [0x0c; 2; 0x6f; 0x70])];
      c15d_plain ]
  = [Some []; Some [0x6f; 0x70]; Some []; Some [0x76; 0x69]; Some []; Some []; None; Some [];
     Some [0x6f; 0x70]; Some []].
Proof. vm_compute. reflexivity. Qed.

Print Assumptions c15_mix_independent.
Print Assumptions c15_mix_plain_empty.
Print Assumptions c15_mix_tls_alone.
Print Assumptions c15_mix_tls_part.
Print Assumptions c15_mix_plain_part.
Print Assumptions c15_mix_role_origin.
Print Assumptions c15_mix_role_sound.
Print Assumptions c15_mix_role_complete.
