(* C05 over histories in which the application changes the unit id between
   requests on ONE connection (SetUnitId; e.g. the devices behind a gateway).
   Lemmas: Proofs/TxnUnitsP.v. Model/TxnUnits.v: a step is a call of
   Model/TxnHistory.v under the unit id currently set, or a unit change; the
   counter and the unread bytes belong to the CONNECTION, not to the unit. *)
From Modbus Require Import Base.Bytes Model.Crc Model.Encoding Model.Wire Model.Client
  Model.TxnHistory Model.TxnUnits Spec.ModbusSpec Spec.ClientSpec Spec.TxnSpec
  Spec.TxnUnitsSpec Proofs.TxnP Proofs.TxnUnitsP.

(* U1: what a call leaves behind on the connection - the counter, the unread
   bytes, the end-of-stream condition - does not depend on the client's
   configuration, in particular not on the unit id the request is addressed
   to. Every byte stream. *)
Theorem c05u_state_unit_independent : forall cfg cfg' st x, op_wf (ths_op x) ->
  fst (hist_step FMbap cfg st x) = fst (hist_step FMbap cfg' st x).
Proof. exact hist_step_state_cfg. Qed.

(* U2: after any steps the unit id is that of the last unit change and the
   connection state is that of the calls alone (made under any configuration
   cfg0): a unit change touches neither the counter nor the unread bytes *)
Theorem c05u_final : forall cfg0 xs cfg st, Forall thu_step_wf xs ->
  histu_final FMbap (cfg, st) xs =
  (thu_set_unit cfg (thu_unit_run (c_unit cfg) xs), hist_final FMbap cfg0 st (thu_erase xs)).
Proof. exact histu_final_split. Qed.

(* U3: every call of every history with unit changes (any byte streams)
   returns exactly what it returns in the history made of the same calls
   without unit changes, all requests going out under the unit id in force at
   that call; a unit change returns nothing. With this every history theorem
   of Properties/C05.v carries over. *)
Theorem c05u_call_single_unit : forall cfg st pre x post d d',
  Forall thu_step_wf pre ->
  let cfg' := thu_set_unit cfg (thu_unit_run (c_unit cfg) pre) in
  nth (length pre) (histu_run FMbap (cfg, st) (pre ++ UCall x :: post)) d =
  Some (nth (length (thu_erase pre))
          (hist_run FMbap cfg' st (thu_erase pre ++ x :: thu_erase post)) d').
Proof. exact histu_call_single_unit. Qed.

Theorem c05u_setunit_returns_nothing : forall fr cs pre u post d,
  nth (length pre) (histu_run fr cs (pre ++ USetUnit u :: post)) d = None.
Proof. intros. rewrite histu_run_nth. reflexivity. Qed.

(* U4: the counter advances by exactly one per transmitted request of the
   connection, modulo 2^16, to whatever units the requests are addressed *)
Theorem c05u_counter : forall cfg xs st,
  Forall thu_step_wf xs -> th_txn st < 65536 ->
  th_txn (snd (histu_final FMbap (cfg, st) xs)) = (th_txn st + th_sent (thu_erase xs)) mod 65536.
Proof.
  intros cfg xs st HF Ht. rewrite (histu_final_split cfg xs cfg st HF). cbn [snd].
  apply hist_counter; [apply thu_erase_wf; exact HF|exact Ht].
Qed.

(* U5: the request at any position is sent with transaction id (counter +
   number of requests transmitted on the connection before it - to ANY unit -
   + 1) mod 2^16 and is addressed to the unit of the last unit change. By
   c05_ids_distinct two requests of a connection less than 65536 requests apart
   therefore carry different ids whether or not they go to the same unit. *)
Theorem c05u_request_id : forall cfg st pre x post d,
  cfg_wf cfg -> th_txn st < 65536 -> Forall thu_step_wf (pre ++ UCall x :: post) ->
  let u := thu_unit_run (c_unit cfg) pre in
  exists r,
    nth (length pre) (histu_run FMbap (cfg, st) (pre ++ UCall x :: post)) d = Some r /\
    (valid_op (ths_op x) = true ->
     cr_writes r = [spec_frame FMbap (th_id (th_txn st) (th_sent (thu_erase pre)))
                      (spec_pdu (thu_set_unit cfg u) (ths_op x))] /\
     p_unit (spec_pdu (thu_set_unit cfg u) (ths_op x)) = u) /\
    (valid_op (ths_op x) = false -> cr_writes r = [] /\ cr_res r = Err EParams).
Proof. exact histu_request_id. Qed.

(* U6: every finite history with unit changes in which the peer delivers whole
   frames, each built as the reply to some request i of the connection (on
   time, late, early, duplicated, carrying whatever unit id - the one request i
   was addressed to or any other) or carrying a foreign protocol id: request
   number j (counting all requests of the connection) returns what a lone,
   on-time delivery of the FIRST pending reply built for a request i = j
   (mod 2^16) would return under the unit id in force, else the error of the
   stream end after passing over everything pending. In particular the late
   reply to a timed-out request to unit A that arrives during a request to
   unit B is passed over. *)
Theorem c05u_history : forall cfg txn0 pend0 e0 pre x post d,
  txn0 < 65536 -> Forall th_frame_wf pend0 -> Forall thu_sstep_ok (pre ++ SCall x :: post) ->
  let calls := thu_calls pre in
  let j := lenN calls in
  let cfg' := thu_set_unit cfg (thu_unit_after (c_unit cfg) pre) in
  let t := (txn0 + j) mod 65536 in
  let e := th_end_after (th_end_run e0 calls) (ss_end x) in
  let all := th_pending 0 pend0 calls ++ ss_frames x in
  exists r,
    nth (length pre)
      (histu_run FMbap (cfg, mkth txn0 (th_stream txn0 pend0) e0)
         (map (thu_concrete txn0) (pre ++ SCall x :: post))) d = Some r /\
    match th_take j all with
    | Some (res, rest) =>
        cr_res r = cr_res (client_call FMbap cfg' t (ss_op x) e (spec_frame FMbap (th_id txn0 j) res)) /\
        cr_rest r = th_stream txn0 rest
    | None => cr_res r = Err (short_err e) /\ cr_rest r = []
    end.
Proof. exact histu_frames. Qed.

(* U7: a request that succeeds consumed a frame built for a request of the
   connection with its own number modulo 2^16, i.e. with its own id *)
Theorem c05u_no_misattribution : forall cfg txn0 pend0 e0 pre x post d,
  txn0 < 65536 -> Forall th_frame_wf pend0 -> Forall thu_sstep_ok (pre ++ SCall x :: post) ->
  let calls := thu_calls pre in
  let j := lenN calls in
  exists r,
    nth (length pre)
      (histu_run FMbap (cfg, mkth txn0 (th_stream txn0 pend0) e0)
         (map (thu_concrete txn0) (pre ++ SCall x :: post))) d = Some r /\
    forall vs, cr_res r = Ok vs ->
    exists skipped i res rest,
      th_pending 0 pend0 calls ++ ss_frames x = skipped ++ ThReply i res :: rest /\
      i mod 65536 = j mod 65536 /\
      th_id txn0 i = th_id txn0 j /\
      Forall (fun f => th_accepts j f = false) skipped /\
      cr_rest r = th_stream txn0 rest.
Proof.
  intros cfg txn0 pend0 e0 pre x post d Ht0 Hpend HF calls j.
  destruct (histu_frames cfg txn0 pend0 e0 pre x post d Ht0 Hpend HF) as (r & Hr & HH).
  cbv zeta in HH. fold calls in HH. fold j in HH.
  exists r. split; [exact Hr|]. intros vs Hvs.
  destruct (th_take_ok txn0 j _ _ _ vs _ HH Hvs) as (sk & i & res & rest & H1 & H2 & H3 & H4 & _ & H6).
  exists sk, i, res, rest. repeat split; assumption.
Qed.

(* non-vacuity: concrete instances of the statements above *)
Definition c05u_cfg : ccfg := mkcfg 1 BigE HighFirst.
Definition c05u_read : op := OpReadRegs 1 0 1 Holding.
Definition c05u_reply (unit v : N) : pdu := mkpdu unit 3 [2; v / 256; v mod 256].

(* a fresh client set to unit 1: request 0 (unit 1) gets nothing; the
   application switches to unit 2; during request 1 (unit 2) arrive the late
   reply of unit 1 to request 0 and then unit 2's reply to request 1; back to
   unit 1: request 2 finds a late duplicate of unit 2's reply and then its own *)
Definition c05u_script : list thu_sstep :=
  [ SCall (mksstep c05u_read [] Stall);
    SSetUnit 2;
    SCall (mksstep c05u_read [ThReply 0 (c05u_reply 1 100); ThReply 1 (c05u_reply 2 101)] Stall);
    SSetUnit 1;
    SCall (mksstep c05u_read [ThReply 1 (c05u_reply 2 101); ThReply 2 (c05u_reply 1 102)] Stall) ].

Example c05u_script_ok : Forall thu_sstep_ok c05u_script.
Proof.
  assert (Hop : op_wf c05u_read /\ valid_op c05u_read = true).
  { split; [|reflexivity]. cbn. repeat split; try reflexivity. left. reflexivity. }
  destruct Hop as [Hwf V].
  assert (Hl : forall u v, lenN (p_payload (c05u_reply u v)) <= 252) by (intros u v; cbn; lia).
  repeat constructor; try exact Hwf; try exact V; try apply Hl; try lia; try reflexivity.
Qed.

Example c05u_script_run :
  map (option_map (fun r => (cr_res r, cr_rest r)))
      (histu_run FMbap (c05u_cfg, th_init) (map (thu_concrete 0) c05u_script)) =
  [ Some (Err ETimeout, []); None;
    Some (Ok (VNums [101]), []); None;
    Some (Ok (VNums [102]), []) ].
Proof. vm_compute. reflexivity. Qed.

(* ids 1, 2, 3 on the connection; unit bytes 1, 2, 1 *)
Example c05u_script_ids :
  map (option_map cr_writes)
      (histu_run FMbap (c05u_cfg, th_init) (map (thu_concrete 0) c05u_script)) =
  [ Some [[0;1; 0;0; 0;6; 1; 3; 0;0; 0;1]]; None;
    Some [[0;2; 0;0; 0;6; 2; 3; 0;0; 0;1]]; None;
    Some [[0;3; 0;0; 0;6; 1; 3; 0;0; 0;1]] ].
Proof. vm_compute. reflexivity. Qed.

Print Assumptions c05u_state_unit_independent.
Print Assumptions c05u_final.
Print Assumptions c05u_call_single_unit.
Print Assumptions c05u_setunit_returns_nothing.
Print Assumptions c05u_counter.
Print Assumptions c05u_request_id.
Print Assumptions c05u_history.
Print Assumptions c05u_no_misattribution.
