(* C09, slots held by connections that never become a session. On a tcp+tls
   server a connection holds its slot from the admission critical section on,
   before its TLS handshake has started: a peer that fails the handshake occupies
   a slot without a request ever being dispatched. In the Slots system: an arrival
   and a departure with no Req step (Model/SlotsVisit.v, Proofs/SlotsVisitP.v). *)
From Coq Require Import List Arith Bool Permutation.
Import ListNotations.
From Modbus Require Import Model.Slots Proofs.SlotsP Model.SlotsVisit Proofs.SlotsVisitP.

(* the departure of a connection that is on the list - whether or not it ever
   had a request dispatched - gives back exactly its slot and closes the socket,
   in every reachable state *)
Theorem c09b_departure_frees : forall s c w, Inv s -> stat s c = Serving -> w <> ClosedByStop ->
  let s1 := run s (departure c w) in
  Permutation (clients s) (c :: clients s1) /\ stat s1 c = Removed /\ closed s1 c = true /\
  started s1 = started s /\ listening s1 = listening s /\ acceptors s1 = acceptors s /\ maxc s1 = maxc s /\
  (forall x, x <> c -> stat s1 x = stat s x).
Proof. exact departure_frees. Qed.

(* a peer that comes and goes without becoming a session leaves the active
   list as it was (enrolled or refused at the limit alike), and is closed *)
Theorem c09b_visit_neutral : forall s c w, Inv s -> started s = true -> 0 < acceptors s ->
  stat s c = Fresh -> w <> ClosedByStop ->
  let s1 := run s (visit c w) in
  Permutation (clients s) (clients s1) /\ closed s1 c = true /\
  (stat s1 c = Removed \/ stat s1 c = Rejected) /\
  started s1 = true /\ acceptors s1 = acceptors s /\ maxc s1 = maxc s /\
  (forall x, x <> c -> stat s1 x = stat s x).
Proof. exact visit_neutral. Qed.

(* after any number of such peers, for whatever reasons they were dropped, a
   connection that would have been served before them is served after them *)
Theorem c09b_visits_then_served : forall l s d, Inv s -> started s = true -> 0 < acceptors s ->
  NoDup (map fst l) ->
  (forall c w, In (c, w) l -> stat s c = Fresh /\ w <> ClosedByStop) ->
  stat s d = Fresh -> ~ In d (map fst l) -> length (clients s) < maxc s ->
  let s1 := run s (visits l ++ arrival d) in
  stat s1 d = Serving /\ In d (clients s1) /\ length (clients s1) = S (length (clients s)).
Proof. exact visits_then_served. Qed.

(* non-vacuity: MaxClients = 1, two peers fail their handshake one after the
   other while a third is refused at the limit; the next connection is served *)
Example c09b_ex :
  let s0 := run (init 1) [Start] in
  Inv s0 /\ started s0 = true /\ 0 < acceptors s0 /\ length (clients s0) < maxc s0 /\
  let s := run s0 (arrival 1 ++ arrival 2 ++ departure 1 ProtocolError ++ visit 3 Disconnect ++ arrival 4) in
  stat s 1 = Removed /\ stat s 2 = Rejected /\ stat s 3 = Removed /\ stat s 4 = Serving /\ clients s = [4].
Proof.
  cbn zeta. split; [apply reachable_inv|]. vm_compute. repeat split; repeat constructor.
Qed.

Print Assumptions c09b_departure_frees.
Print Assumptions c09b_visit_neutral.
Print Assumptions c09b_visits_then_served.
