(* C13 - A cut-off exchange never counts as success and never reaches a handler.
   Lemmas: Proofs/CutP.v, CutSlotsP.v, MbapServerP.v, SlotsP.v. Stream ends are
   send = Stall | Closed | Reset (Model/Wire.v): once the peer's bytes are used
   up it stalls until the deadline, closes, or resets. Vocabulary: Spec/CutSpec.v
   (cut_calls, cut_failed, cut_err_class); client handle: Model/Handle.v. *)
From Modbus Require Import Base.Bytes Model.Crc Model.Encoding Model.Wire Model.Client
  Model.Server Model.Handle
  Spec.ModbusSpec Spec.ClientSpec Spec.ServerSpec Spec.ServerSessionSpec Spec.CutSpec
  Proofs.CutP.
From Modbus Require Model.Slots Proofs.SlotsP Proofs.CutSlotsP.

Section C13.
  Context {St : Type} (h : handler St).

  (* T1a: for every well-formed request frame (every function code, every
     content), every cut offset inside it and every stream end: no handler
     call, the session is closed *)
  Theorem c13_server_cut : forall st e t p k,
    pdu_wf p -> (k < length (spec_mbap t p))%nat ->
    server_run h st e (firstn k (spec_mbap t p)) = [EvClosed].
  Proof. exact (server_cut h). Qed.

  Theorem c13_server_cut_no_call : forall st e t p k,
    pdu_wf p -> (k < length (spec_mbap t p))%nat ->
    cut_calls (server_run h st e (firstn k (spec_mbap t p))) = 0%nat.
  Proof. intros st e t p k Hp Hk. rewrite server_cut by assumption. reflexivity. Qed.

  (* the prefix fact behind it *)
  Theorem c13_strict_prefix_not_frame : forall t p k t' p' rest,
    pdu_wf p -> (k < length (spec_mbap t p))%nat -> t' < 65536 -> pdu_wf p' ->
    firstn k (spec_mbap t p) <> spec_mbap t' p' ++ rest.
  Proof.
    intros t p k t' p' rest (_ & _ & _ & Hl) Hk Ht' Hp' Heq.
    pose proof (read_mbap_cut Closed t 0 (p_unit p) (p_fc p) (p_payload p) k Hl) as H1.
    rewrite <- spec_mbap_frame in H1. specialize (H1 Hk). rewrite Heq in H1.
    rewrite MbapServerP.read_spec_mbap in H1 by (try exact Ht'; apply Hp'). discriminate H1.
  Qed.

  (* T1b: the request was fully received and then the peer is gone: exactly
     the events of processing it once (the response write is attempted and its
     failure tolerated), then the close *)
  Theorem c13_server_full : forall st e t p, t < 65536 -> pdu_wf p ->
    server_run h st e (spec_mbap t p) =
    let '(st', calls, act) := server_process h st p in
    map EvCall calls ++
    match act with
    | Respond r => [EvResp (spec_mbap t r); EvClosed]
    | CloseLink => [EvClosed]
    end.
  Proof. exact (server_full h). Qed.

  (* ... for a dispatchable request: the handler runs exactly once *)
  Theorem c13_server_full_once : forall st e t p r, t < 65536 -> pdu_wf p -> handler_wf h ->
    spec_decode p = Some r -> in_range r = true ->
    server_run h st e (spec_mbap t p) =
      [EvCall r; EvResp (spec_mbap t (spec_response p r (snd (h st r)))); EvClosed].
  Proof. exact (server_full_once h). Qed.

  Theorem c13_server_full_calls : forall st e t p, t < 65536 -> pdu_wf p -> handler_wf h ->
    cut_calls (server_run h st e (spec_mbap t p)) =
    match spec_decode p with
    | Some r => if in_range r then 1%nat else 0%nat
    | None => 0%nat
    end.
  Proof. exact (server_full_calls h). Qed.
End C13.

(* T2: for every valid operation, every valid reply, every cut offset inside
   the reply stream (MBAP: also behind, or inside, frames that had to be
   skipped) and every stream end: an error of the stated class, never success *)
Theorem c13_client_cut_rtu : forall cfg txn o e res vs k,
  op_wf o -> cfg_wf cfg -> valid_op o = true ->
  bytesb (p_payload res) = true -> answers cfg o res vs ->
  (k < length (spec_frame FRtu 0 res))%nat ->
  let r := client_call FRtu cfg txn o e (firstn k (spec_frame FRtu 0 res)) in
  cr_res r = Err (cut_err_class FRtu e k) /\ cr_rest r = [].
Proof.
  intros cfg txn o e res vs k Hwf Hcfg V Hb Hans Hk.
  exact (client_cut_gen FRtu cfg txn o e res vs [] k Hwf Hcfg V Hb Hans eq_refl Hk).
Qed.

Theorem c13_client_cut_mbap : forall cfg txn o e res vs frames k,
  op_wf o -> cfg_wf cfg -> txn < 65536 -> valid_op o = true ->
  bytesb (p_payload res) = true -> answers cfg o res vs ->
  Forall (skippable (u16 (txn + 1))) frames ->
  (k < length (concat frames ++ spec_frame FMbap (u16 (txn + 1)) res))%nat ->
  let r := client_call FMbap cfg txn o e
             (firstn k (concat frames ++ spec_frame FMbap (u16 (txn + 1)) res)) in
  cr_res r = Err (short_err e) /\ cr_rest r = [].
Proof.
  intros cfg txn o e res vs frames k Hwf Hcfg Ht V Hb Hans HF Hk.
  exact (client_cut_gen FMbap cfg txn o e res vs frames k Hwf Hcfg V Hb Hans (conj Ht HF) Hk).
Qed.

(* (cut_failed r says r = Err x for some x; the second half follows from it
   and is stated for the reader) *)
Theorem c13_client_cut_never_ok : forall fr cfg txn o e res vs frames k,
  op_wf o -> cfg_wf cfg -> valid_op o = true ->
  bytesb (p_payload res) = true -> answers cfg o res vs ->
  match fr with
  | FMbap => txn < 65536 /\ Forall (skippable (u16 (txn + 1))) frames
  | FRtu => frames = []
  end ->
  (k < length (concat frames ++ spec_frame fr (u16 (txn + 1)) res))%nat ->
  let r := cr_res (client_call fr cfg txn o e
             (firstn k (concat frames ++ spec_frame fr (u16 (txn + 1)) res))) in
  cut_failed r /\ forall vs', r <> Ok vs'.
Proof. exact client_cut_never_ok. Qed.

(* a cut exception reply is the cut, not the exception *)
Theorem c13_client_cut_exception : forall fr cfg txn o e res code frames k,
  op_wf o -> cfg_wf cfg -> valid_op o = true -> code < 256 ->
  exception_reply cfg o res code ->
  match fr with
  | FMbap => txn < 65536 /\ Forall (skippable (u16 (txn + 1))) frames
  | FRtu => frames = []
  end ->
  (k < length (concat frames ++ spec_frame fr (u16 (txn + 1)) res))%nat ->
  cr_res (client_call fr cfg txn o e
            (firstn k (concat frames ++ spec_frame fr (u16 (txn + 1)) res))) =
    Err (cut_err_class fr e k).
Proof. exact client_cut_exception. Qed.

(* the error classes: timeout for a stalled peer, an i/o error or a short
   frame for a closed or reset one *)
Theorem c13_cut_err_class : forall fr e k,
  cut_err_class fr e k =
  match fr, e with
  | FMbap, Stall => ETimeout
  | FMbap, _ => EIO
  | FRtu, Stall => if Nat.eqb k 0 then ETimeout else if Nat.ltb k 3 then EShortFrame else ETimeout
  | FRtu, Reset => if Nat.eqb k 0 then EIO else if Nat.ltb k 3 then EShortFrame else EIO
  | FRtu, Closed => if Nat.eqb k 0 then EIO else if Nat.ltb k 3 then EShortFrame
                    else if Nat.eqb k 3 then EIO else EShortFrame
  end.
Proof. intros fr e k. destruct fr, e; cbn [cut_err_class short_err]; reflexivity. Qed.

(* T3: whatever happened on the handle (any earlier call, in particular a
   cut-off one), after Close; Open the next call on a valid reply completes
   normally: the transport state is fresh (transaction id 1 again, nothing
   left over from the old connection) *)
Theorem c13_close_open_recovers : forall fr cfg h o1 e1 s1 o e res vs post,
  op_wf o -> cfg_wf cfg -> valid_op o = true ->
  bytesb (p_payload res) = true -> answers cfg o res vs ->
  let h1 := snd (hd_call fr cfg h o1 e1 s1) in
  let h2 := hd_open (hd_close h1) in
  let r := fst (hd_call fr cfg h2 o e (spec_frame fr 1 res ++ post)) in
  cr_res r = Ok vs /\ cr_rest r = post /\
  cr_writes r = [spec_frame fr 1 (spec_pdu cfg o)].
Proof. exact handle_reopen_ok. Qed.

(* between Close and Open every call fails locally: nothing is written *)
Theorem c13_closed_handle_fails : forall fr cfg h o e s, op_wf o ->
  let r := fst (hd_call fr cfg (hd_close h) o e s) in
  cut_failed (cr_res r) /\ cr_writes r = [] /\
  snd (hd_call fr cfg (hd_close h) o e s) = hd_close h.
Proof. exact handle_closed_fails. Qed.

(* T4 (slot side, from the C09 development): in every reachable server state
   a session that ends - the peer disconnected, a protocol error, or the idle
   deadline expired inside a request - is removed from the active list and
   closed, the server stays up, and the freed slot serves a later connection *)
Theorem c13_slot_reclaimed : forall s c w d,
  SlotsP.Inv s -> Slots.started s = true -> Slots.enabled s (Slots.End c w) = true ->
  Slots.stat s d = Slots.Taken -> d <> c ->
  let s1 := Slots.step s (Slots.End c w) in
  let s2 := Slots.step s1 (Slots.Remove c) in
  let s3 := Slots.step s2 (Slots.Enrol d) in
  Slots.stat s2 c = Slots.Removed /\ Slots.closed s2 c = true /\ ~ In c (Slots.clients s2) /\
  S (length (Slots.clients s2)) = length (Slots.clients s) /\ Slots.started s2 = true /\
  Slots.stat s3 d = Slots.Serving /\ In d (Slots.clients s3).
Proof. exact CutSlotsP.session_end_reclaims. Qed.

Theorem c13_cut_end_enabled : forall s c w, Slots.stat s c = Slots.Serving ->
  w = Slots.Disconnect \/ w = Slots.ProtocolError \/ w = Slots.IdleExpiry ->
  Slots.enabled s (Slots.End c w) = true.
Proof. intros s c w Hs [ -> | [ -> | -> ] ]; cbn [Slots.enabled]; rewrite Hs; reflexivity. Qed.

(* non-vacuity: concrete instances of the statements above *)
Definition c13_example_handler : handler N :=
  fun st r => (st + 1, mkhres (repeat true (N.to_nat (h_qty r))) (repeat 7 (N.to_nat (h_qty r))) HNone).

Example c13_handler_wf_sat : handler_wf c13_example_handler.
Proof.
  intros st r. cbn [c13_example_handler snd r_regs r_err]. split.
  - apply Forall_forall. intros v Hv. apply repeat_spec in Hv. subst v. reflexivity.
  - intros c Hc. discriminate Hc.
Qed.

Example c13_pdu_wf_sat : pdu_wf (mkpdu 1 3 [0; 16; 0; 2]).
Proof. unfold pdu_wf. cbn. repeat split; try reflexivity; discriminate. Qed.

(* every cut offset 0..11 of a 12-byte request x 3 stream ends: closed, no
   call; the complete request: one call, one response, closed *)
Example c13_server_example :
  let f := spec_mbap 7 (mkpdu 1 3 [0; 16; 0; 2]) in
  length f = 12%nat /\
  forallb (fun k =>
    forallb (fun e =>
      match server_run c13_example_handler 0 e (firstn k f) with [EvClosed] => true | _ => false end)
      [Stall; Closed; Reset]) (seq 0 12) = true /\
  server_run c13_example_handler 0 Reset f =
    [EvCall (mkhreq HHolding 1 16 2 false [] []);
     EvResp (spec_mbap 7 (mkpdu 1 3 [4; 0; 7; 0; 7])); EvClosed].
Proof. vm_compute. repeat split; reflexivity. Qed.

(* a valid operation with a valid reply: cut after 9 of 13 bytes, then the
   handle is closed and reopened and the call repeated on the full reply *)
Example c13_client_example :
  let cfg := mkcfg 17 BigE HighFirst in
  let o := OpReadRegs 2 0xfffc 1 Holding in
  let res := mkpdu 17 3 [4; 0x0a; 0x0b; 0x0c; 0x0d] in
  op_wf o /\ cfg_wf cfg /\ valid_op o = true /\ answers cfg o res (VNums [0x0a0b0c0d]) /\
  let v := spec_frame FMbap 1 res in
  let '(r1, h1) := hd_call FMbap cfg (hd_open (mkhd 5 [9] true)) o Closed (firstn 9 v) in
  let '(r2, h2) := hd_call FMbap cfg (hd_close h1) o Stall v in
  let '(r3, h3) := hd_call FMbap cfg (hd_open h2) o Stall v in
  cr_res r1 = Err EIO /\ hd_txn h1 = 1 /\
  cr_res r2 = Err EIO /\ cr_writes r2 = [] /\
  cr_res r3 = Ok (VNums [0x0a0b0c0d]) /\ hd_txn h3 = 1 /\
  cr_res (client_call FRtu cfg 0 o Stall (firstn 8 (spec_frame FRtu 0 res))) = Err ETimeout /\
  cr_res (client_call FRtu cfg 0 o Closed (firstn 2 (spec_frame FRtu 0 res))) = Err EShortFrame.
Proof.
  cbv zeta. split; [|split; [|split; [|split]]].
  - cbn [op_wf]. split; [right; left; reflexivity|split; reflexivity].
  - reflexivity.
  - vm_compute. reflexivity.
  - unfold answers. cbn [p_unit c_unit p_fc spec_fc p_payload]. repeat split.
    exists [0x0a0b0c0d]. repeat split.
    constructor; [vm_compute; reflexivity|constructor].
  - vm_compute. repeat split; reflexivity.
Qed.

(* the slot example: the only slot is freed when its session ends (here by
   idle expiry) and serves the next connection *)
Example c13_slot_example :
  (let tr := [Slots.Start; Slots.Arrive 1; Slots.Take 1; Slots.Enrol 1;
             Slots.End 1 Slots.IdleExpiry; Slots.Remove 1;
             Slots.Arrive 2; Slots.Take 2; Slots.Enrol 2] in
  let s := Slots.run (Slots.init 1) tr in
  Slots.stat s 1 = Slots.Removed /\ Slots.stat s 2 = Slots.Serving /\ Slots.clients s = [2] /\
  Slots.started s = true)%nat.
Proof. vm_compute. repeat split; reflexivity. Qed.

Print Assumptions c13_server_cut.
Print Assumptions c13_server_cut_no_call.
Print Assumptions c13_strict_prefix_not_frame.
Print Assumptions c13_server_full.
Print Assumptions c13_server_full_once.
Print Assumptions c13_server_full_calls.
Print Assumptions c13_client_cut_rtu.
Print Assumptions c13_client_cut_mbap.
Print Assumptions c13_client_cut_never_ok.
Print Assumptions c13_client_cut_exception.
Print Assumptions c13_cut_err_class.
Print Assumptions c13_close_open_recovers.
Print Assumptions c13_closed_handle_fails.
Print Assumptions c13_slot_reclaimed.
Print Assumptions c13_cut_end_enabled.
