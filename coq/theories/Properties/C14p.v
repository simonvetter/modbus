(* C14 (continued) - correctly authenticated peers are served WHILE other peers
   of the same server are still in their handshake. Properties/C14h.v takes the
   peers one after the other; here some have opened their TCP connection and stay
   in their handshake while the later ones arrive, and complete it after all of
   those (PaceLate) or go away (PaceNever). Model/TlsPending.v: a pending
   handshake holds one of the MaxClients places and nothing else. Lemmas in
   Proofs/TlsPendingP.v, Proofs/TlsHistoryP.v and Proofs/TlsPolicyP.v. *)
From Modbus Require Import Base.Bytes Model.Encoding Model.Wire Model.Client Model.Server
  Model.Role Model.Config Model.TlsPolicy Model.TlsHistory Model.TlsPending
  Spec.ModbusSpec Spec.ServerSpec Spec.ServerSessionSpec Spec.ConfigSpec Spec.TlsSpec
  Proofs.TlsPolicyP Proofs.TlsHistoryP Proofs.TlsPendingP.
From Coq Require String.
Import String.StringSyntax.

Section C14p.
  Variable hs : tls_policy -> tls_peer -> option tls_session.
  Variable verifies : option (list tls_cert) -> tls_usage -> N -> list N -> list tls_cert -> Prop.
  Variable now : N.
  Context {St : Type} (h : list N -> handler St).

  (* the server object after a history is the object before it, whatever is pending *)
  Theorem c14p_pending_leaves_object : forall o held e l,
    fst (tls_pending_history hs h o held e l) = o.
  Proof. exact (tls_pending_history_object hs h). Qed.

  (* fewer pending handshakes than MaxClients: the peers might as well have
     come one after the other *)
  Theorem c14p_pending_as_history : forall c e l,
    tls_pending_count l < tls_places c ->
    tls_server_pending hs h c e l = tls_server_history hs h c e (map tls_pstep_seen l).
  Proof. exact (tls_server_pending_as_history hs h). Qed.

  (* and every one of them is decided as if it were alone on a fresh server *)
  Theorem c14p_pending_pointwise : forall c e l,
    tls_pending_count l < tls_places c ->
    tls_server_pending hs h c e l = map (fun s => tls_attempt_alone hs h c e (tls_pstep_seen s)) l.
  Proof.
    intros c e l H. unfold tls_server_pending. rewrite tls_pending_history_events by exact H. apply map_map.
  Qed.

  (* the step that arrives after `before`: what is pending among `before`
     changes nothing for it while a place is left, nor does what comes after *)
  Theorem c14p_pending_context_irrelevant : forall c e before s after,
    tls_pending_count before < tls_places c ->
    nth_error (tls_server_pending hs h c e (before ++ s :: after)) (length before) =
    Some (tls_attempt_alone hs h c e (tls_pstep_seen s)).
  Proof.
    intros c e before s after H. apply tls_server_pending_nth.
    - rewrite nth_error_app2 by apply Nat.le_refl. rewrite Nat.sub_diag. reflexivity.
    - rewrite firstn_app, firstn_all, Nat.sub_diag. cbn [firstn]. rewrite app_nil_r. exact H.
  Qed.

  (* nobody stalls: Properties/C14h.v *)
  Theorem c14p_nobody_pending : forall c e l,
    0 < tls_places c ->
    tls_server_pending hs h c e (map (mk_tls_pstep PaceAtOnce) l) = tls_server_history hs h c e l.
  Proof.
    intros c e l H. rewrite tls_server_pending_as_history.
    - rewrite map_map. cbn [tls_pstep_seen tps_pace tps_attempt]. rewrite map_id. reflexivity.
    - rewrite tls_pending_count_at_once; [exact H|].
      intros s Hs. apply in_map_iff in Hs. destruct Hs as (a & <- & _). reflexivity.
  Qed.

  (* the places are MaxClients, 10 when left at 0 *)
  Theorem c14p_places : forall c rest,
    url_scheme (tsv_url c) STcpTls rest -> rest <> [] ->
    tsv_cert c <> None -> tsv_cas c <> None ->
    tls_places c = if tsv_max_clients c =? 0 then 10 else tsv_max_clients c.
  Proof. exact tls_places_of_conf. Qed.

  (* T1 with pending handshakes *)
  Theorem c14p_pending_authenticates : forall c rest e l k evs r,
    tls_srv_documented hs verifies now ->
    url_scheme (tsv_url c) STcpTls rest ->
    nth_error (tls_server_pending hs h c e l) k = Some evs ->
    In (EvCall r) evs ->
    exists s cas sess,
      nth_error l k = Some s /\
      tps_pace s <> PaceNever /\
      tsv_cas c = Some cas /\
      hs (tls_policy_of_server c) (tat_peer (tps_attempt s)) = Some sess /\
      spec_client_authenticated verifies now cas (tat_peer (tps_attempt s)) sess.
  Proof. exact (tls_pending_call_authenticated hs verifies now h). Qed.

  Theorem c14p_pending_refuses_unverified : forall c rest e l k s evs,
    tls_srv_documented hs verifies now ->
    url_scheme (tsv_url c) STcpTls rest ->
    nth_error l k = Some s ->
    (forall cas, tsv_cas c = Some cas ->
                 ~ verifies (Some cas) TlsUsageClientAuth now [] (tpe_chain (tat_peer (tps_attempt s)))) ->
    nth_error (tls_server_pending hs h c e l) k = Some evs ->
    forall r, ~ In (EvCall r) evs.
  Proof.
    intros c rest e l k s evs Hdoc Hu Hs Hno Hk r Hin.
    destruct (tls_pending_call_authenticated hs verifies now h c rest e l k evs r Hdoc Hu Hk Hin)
      as (s' & cas & sess & Hs' & _ & Hc & _ & Hauth).
    rewrite Hs in Hs'. injection Hs' as <-.
    destruct Hauth as (_ & _ & _ & leaf & more & Hch & _ & Hv).
    apply (Hno cas Hc). rewrite Hch. exact Hv.
  Qed.

  (* a peer that goes away in the middle of its handshake *)
  Theorem c14p_abandoned_handshake_no_handler : forall c rest e l k s evs,
    tls_srv_documented hs verifies now ->
    url_scheme (tsv_url c) STcpTls rest ->
    nth_error l k = Some s -> tps_pace s = PaceNever ->
    nth_error (tls_server_pending hs h c e l) k = Some evs ->
    forall r, ~ In (EvCall r) evs.
  Proof.
    intros c rest e l k s evs Hdoc Hu Hs Hp Hk r Hin.
    destruct (tls_pending_call_authenticated hs verifies now h c rest e l k evs r Hdoc Hu Hk Hin)
      as (s' & _ & _ & Hs' & Hne & _).
    rewrite Hs in Hs'. injection Hs' as <-. exact (Hne Hp).
  Qed.

  (* T4 with pending handshakes: a peer the handshake accepts is served *)
  Theorem c14p_pending_serves : forall c rest e l k s sess t p r tail,
    tls_srv_documented hs verifies now ->
    (forall role, handler_wf (h role)) ->
    url_scheme (tsv_url c) STcpTls rest -> rest <> [] ->
    tsv_cert c <> None -> tsv_cas c <> None ->
    nth_error l k = Some s -> tps_pace s <> PaceNever ->
    tls_pending_count (firstn k l) < tls_places c ->
    hs (tls_policy_of_server c) (tat_peer (tps_attempt s)) = Some sess ->
    tat_stream (tps_attempt s) = spec_mbap t p ++ tail ->
    t < 65536 -> pdu_wf p -> spec_decode p = Some r -> in_range r = true ->
    exists leaf more,
      tpe_chain (tat_peer (tps_attempt s)) = leaf :: more /\
      let role := extract_role (tlc_exts leaf) in
      nth_error (tls_server_pending hs h c e l) k =
      Some (EvCall r :: EvResp (spec_mbap t (spec_response p r (snd (h role (tat_state (tps_attempt s)) r)))) ::
            server_run (h role) (fst (h role (tat_state (tps_attempt s)) r)) e tail).
  Proof.
    intros c rest e l k s sess t p r tail Hdoc Hwf Hu Hr Hcert Hcas Hs Hpace Hfree Hss Hst Ht Hp Hdec Hrange.
    set (a := tps_attempt s) in *.
    destruct (tls_server_serves hs verifies now h c rest (tat_peer a) sess (tat_state a) e t p r tail
                Hdoc Hwf Hu Hr Hcert Hcas Hss Ht Hp Hdec Hrange) as (leaf & more & Hch & Hev).
    exists leaf, more. split; [exact Hch|]. cbv zeta in *.
    rewrite (tls_server_pending_nth hs h c e l k s Hs Hfree). f_equal.
    assert (Hseen : tls_pstep_seen s = a).
    { unfold tls_pstep_seen. destruct (tps_pace s); try reflexivity. destruct (Hpace eq_refl). }
    rewrite Hseen. unfold tls_attempt_alone. rewrite Hst. exact Hev.
  Qed.
End C14p.

Print Assumptions c14p_pending_leaves_object.
Print Assumptions c14p_pending_as_history.
Print Assumptions c14p_pending_pointwise.
Print Assumptions c14p_pending_context_irrelevant.
Print Assumptions c14p_nobody_pending.
Print Assumptions c14p_places.
Print Assumptions c14p_pending_authenticates.
Print Assumptions c14p_pending_refuses_unverified.
Print Assumptions c14p_abandoned_handshake_no_handler.
Print Assumptions c14p_pending_serves.

(* Non-vacuity: a toy oracle (a chain verifies when its leaf is in the
   pool or names a pool member as its issuer: identity / 16) that satisfies
   the documented premise, and the model run on histories with pending
   handshakes. *)

Definition c14p_in (id : N) (l : list tls_cert) : bool := existsb (fun c => tlc_id c =? id) l.

Definition c14p_toy_verifiesb (pool : option (list tls_cert)) (chain : list tls_cert) : bool :=
  match pool, chain with
  | Some p, leaf :: _ => c14p_in (tlc_id leaf) p || c14p_in (tlc_id leaf / 16) p
  | _, _ => false
  end.

Definition c14p_toy_verifies (pool : option (list tls_cert)) (u : tls_usage) (t : N) (host : list N)
                             (chain : list tls_cert) : Prop :=
  c14p_toy_verifiesb pool chain = true.

Definition c14p_toy_handshake (pol : tls_policy) (peer : tls_peer) : option tls_session :=
  if negb (tpe_speaks_tls peer) then None
  else
    match find (fun v => tls_version_geb v (tpo_min_version pol)) (tpe_versions peer) with
    | None => None
    | Some v =>
        if c14p_toy_verifiesb (tpo_pool pol) (tpe_chain peer)
        then Some (mk_tls_session v (tpe_chain peer)) else None
    end.

Example c14p_toy_srv_documented : tls_srv_documented c14p_toy_handshake c14p_toy_verifies 0.
Proof.
  intros pol peer sess. unfold c14p_toy_handshake.
  destruct (tpe_speaks_tls peer); [|discriminate]. cbn [negb].
  destruct (find _ (tpe_versions peer)) as [v|] eqn:Ef; [|discriminate].
  apply find_some in Ef. destruct Ef as [Hin Hge].
  destruct (c14p_toy_verifiesb (tpo_pool pol) (tpe_chain peer)) eqn:Ev; [|discriminate].
  intros [= <-]. cbn [tss_version tss_peer_certs].
  split; [reflexivity|]. split; [exact Hin|]. split; [exact Hge|].
  intros _. split; [reflexivity|]. split; [|exact Ev].
  intros E. rewrite E in Ev. unfold c14p_toy_verifiesb in Ev. destruct (tpo_pool pol); discriminate Ev.
Qed.

Definition c14p_handler : list N -> handler N :=
  fun role st r =>
    (st + 1, mkhres (repeat true (N.to_nat (h_qty r))) (repeat (lenN role) (N.to_nat (h_qty r))) HNone).

(* identities: the CA 2, two client leaves it issued (33, 34), a stranger 49 *)
Definition c14p_ca : tls_cert := mk_tls_cert 2 [].
Definition c14p_own : tls_cert := mk_tls_cert 9 [].
Definition c14p_client : tls_cert := mk_tls_cert 33 [].
Definition c14p_client2 : tls_cert := mk_tls_cert 34 [].
Definition c14p_stranger : tls_cert := mk_tls_cert 49 [].

(* MaxClients = 3 *)
Definition c14p_conf : tls_srv_conf :=
  mk_tls_srv_conf (str "tcp+tls://0.0.0.0:802") 0 3 (Some c14p_own) (Some [c14p_ca]).

Definition c14p_request : list N := spec_mbap 7 (mkpdu 1 3 [0; 16; 0; 2]).

Definition c14p_step (pace : tls_pace) (chain : list tls_cert) : tls_pstep N :=
  mk_tls_pstep pace (mk_tls_attempt (mk_tls_peer true chain [TLS12; TLS13]) 0 c14p_request).

Definition c14p_served : list event :=
  [EvCall (mkhreq HHolding 1 16 2 false [] []); EvResp (spec_mbap 7 (mkpdu 1 3 [4; 0; 0; 0; 0])); EvClosed].

Example c14p_url_sat : url_scheme (tsv_url c14p_conf) STcpTls (str "0.0.0.0:802").
Proof. reflexivity. Qed.

Example c14p_places_sat : tls_places c14p_conf = 3.
Proof. reflexivity. Qed.

(* two peers stall (one of them for good, the other one holds a valid
   certificate and completes in the end), MaxClients - 1 handshakes are
   pending: the valid clients that arrive meanwhile are served, the stranger
   is not, the slow valid client is served, the one that went away is not *)
Example c14p_example_pending :
  tls_server_pending c14p_toy_handshake c14p_handler c14p_conf Closed
    [c14p_step PaceNever [c14p_client];
     c14p_step PaceAtOnce [c14p_client];
     c14p_step PaceLate [c14p_client2];
     c14p_step PaceAtOnce [c14p_client];
     c14p_step PaceAtOnce [c14p_stranger];
     c14p_step PaceAtOnce [c14p_client2]] =
  [[EvClosed]; c14p_served; c14p_served; c14p_served; [EvClosed]; c14p_served].
Proof. vm_compute. reflexivity. Qed.

(* the example discriminates: the premise about the places is needed. With
   MaxClients handshakes pending the next peer is turned away, valid or not
   (property C09 says that this is what MaxClients means) *)
Example c14p_example_no_place :
  tls_server_pending c14p_toy_handshake c14p_handler c14p_conf Closed
    [c14p_step PaceNever [c14p_client];
     c14p_step PaceLate [c14p_client2];
     c14p_step PaceNever [];
     c14p_step PaceAtOnce [c14p_client]] =
  [[EvClosed]; c14p_served; [EvClosed]; [EvClosed]].
Proof. vm_compute. reflexivity. Qed.
