(* C14 - Modbus/TLS enforces mutual authentication in both directions (lemmas in
   Proofs/TlsPolicyP.v, model Model/TlsPolicy.v, vocabulary Spec/TlsSpec.v).
   Go's crypto/tls and crypto/x509 are ORACLES: every theorem is quantified over
   the handshake functions hs (server side) / hc (client side), the predicate
   `verifies` and the clock `now`; what the Go documentation states about them is
   the explicit premise tls_srv_documented / tls_cli_documented - about Go's
   standard library, not this repository; the correspondence run exercises it on
   the whole credential x version matrix. *)
From Modbus Require Import Base.Bytes Model.Encoding Model.Wire Model.Client Model.Server
  Model.Role Model.Config Model.TlsPolicy
  Spec.ModbusSpec Spec.ServerSpec Spec.ServerSessionSpec Spec.ConfigSpec Spec.TlsSpec
  Proofs.TlsPolicyP.
From Coq Require String.
Import String.StringSyntax.

Section C14.
  Variable hs hc : tls_policy -> tls_peer -> option tls_session.
  Variable verifies : option (list tls_cert) -> tls_usage -> N -> list N -> list tls_cert -> Prop.
  Variable now : N.

  Section Server.
    Context {St : Type} (h : list N -> handler St).

    (* handleTCPClient, whatever crypto/tls does: a handler invocation implies
       that Handshake() returned nil under the repository's policy *)
    Theorem c14_server_call_needs_handshake : forall c rest peer st e s r,
      url_scheme (tsv_url c) STcpTls rest ->
      In (EvCall r) (tls_server_conn hs h c peer st e s) ->
      exists sess, hs (tls_policy_of_server c) peer = Some sess.
    Proof.
      intros c rest peer st e s r Hu Hin.
      destruct (tls_server_call_inv hs h c rest peer st e s r Hu Hin) as (_ & sess & _ & Hs). eauto.
    Qed.

    (* T1: hence, with what crypto/tls documents, the peer completed a TLS
       1.2-or-later handshake and presented a chain that verifies against the
       configured client CAs for client authentication at the current time *)
    Theorem c14_server_authenticates : forall c rest peer st e s r,
      tls_srv_documented hs verifies now ->
      url_scheme (tsv_url c) STcpTls rest ->
      In (EvCall r) (tls_server_conn hs h c peer st e s) ->
      exists cas sess,
        tsv_cas c = Some cas /\
        hs (tls_policy_of_server c) peer = Some sess /\
        spec_client_authenticated verifies now cas peer sess.
    Proof. exact (tls_server_call_authenticated hs verifies now h). Qed.

    (* the refusing direction, one rule per way of not being authenticated *)
    Theorem c14_server_refuses_unauthenticated : forall c rest peer st e s,
      tls_srv_documented hs verifies now ->
      url_scheme (tsv_url c) STcpTls rest ->
      (forall cas sess, tsv_cas c = Some cas -> ~ spec_client_authenticated verifies now cas peer sess) ->
      forall r, ~ In (EvCall r) (tls_server_conn hs h c peer st e s).
    Proof. exact (tls_server_unauthenticated hs verifies now h). Qed.

    Theorem c14_server_refuses_plain_text : forall c rest peer st e s,
      tls_srv_documented hs verifies now ->
      url_scheme (tsv_url c) STcpTls rest ->
      tpe_speaks_tls peer = false ->
      forall r, ~ In (EvCall r) (tls_server_conn hs h c peer st e s).
    Proof.
      intros c rest peer st e s Hdoc Hu Hp.
      apply (tls_server_unauthenticated hs verifies now h c rest); [exact Hdoc|exact Hu|].
      intros cas sess _ (Ht & _). congruence.
    Qed.

    Theorem c14_server_refuses_no_certificate : forall c rest peer st e s,
      tls_srv_documented hs verifies now ->
      url_scheme (tsv_url c) STcpTls rest ->
      tpe_chain peer = [] ->
      forall r, ~ In (EvCall r) (tls_server_conn hs h c peer st e s).
    Proof.
      intros c rest peer st e s Hdoc Hu Hp.
      apply (tls_server_unauthenticated hs verifies now h c rest); [exact Hdoc|exact Hu|].
      intros cas sess _ (_ & _ & _ & leaf & more & Hc & _). congruence.
    Qed.

    Theorem c14_server_refuses_unverified : forall c rest peer st e s,
      tls_srv_documented hs verifies now ->
      url_scheme (tsv_url c) STcpTls rest ->
      (forall cas, tsv_cas c = Some cas ->
                   ~ verifies (Some cas) TlsUsageClientAuth now [] (tpe_chain peer)) ->
      forall r, ~ In (EvCall r) (tls_server_conn hs h c peer st e s).
    Proof. exact (tls_server_unverified hs verifies now h). Qed.

    Theorem c14_server_refuses_old_version : forall c rest peer st e s,
      tls_srv_documented hs verifies now ->
      url_scheme (tsv_url c) STcpTls rest ->
      (forall v, In v (tpe_versions peer) -> v = TLS10 \/ v = TLS11) ->
      forall r, ~ In (EvCall r) (tls_server_conn hs h c peer st e s).
    Proof.
      intros c rest peer st e s Hdoc Hu Hp.
      apply (tls_server_unauthenticated hs verifies now h c rest); [exact Hdoc|exact Hu|].
      intros cas sess _ (_ & Hv & Hin & _).
      destruct (Hp _ Hin) as [E|E]; rewrite E in Hv; destruct Hv; discriminate.
    Qed.

    (* a failed handshake: nothing but the close *)
    Theorem c14_server_failed_handshake_closes : forall c eff peer st e s,
      tls_new_server c = CfgOk eff -> se_transport eff = TTcpOverTls ->
      hs (tls_policy_of_server c) peer = None ->
      tls_server_conn hs h c peer st e s = [EvClosed].
    Proof. exact (tls_server_handshake_failed hs h). Qed.

    (* T4: a peer the handshake accepts is served: its first valid request is
       dispatched (with the role of its leaf certificate) and answered *)
    Theorem c14_server_serves : forall c rest peer sess st e t p r tail,
      tls_srv_documented hs verifies now ->
      (forall role, handler_wf (h role)) ->
      url_scheme (tsv_url c) STcpTls rest -> rest <> [] ->
      tsv_cert c <> None -> tsv_cas c <> None ->
      hs (tls_policy_of_server c) peer = Some sess ->
      t < 65536 -> pdu_wf p -> spec_decode p = Some r -> in_range r = true ->
      exists leaf more,
        tpe_chain peer = leaf :: more /\
        let role := extract_role (tlc_exts leaf) in
        tls_server_conn hs h c peer st e (spec_mbap t p ++ tail) =
        EvCall r :: EvResp (spec_mbap t (spec_response p r (snd (h role st r)))) ::
        server_run (h role) (fst (h role st r)) e tail.
    Proof. exact (tls_server_serves hs verifies now h). Qed.
  End Server.

  (* Open, whatever crypto/tls does: nothing is written on the connection
     unless the handshake returned nil under the repository's policy *)
  Theorem c14_client_tx_needs_handshake : forall c rest server cfg txn o e s,
    url_scheme (tcl_url c) STcpTls rest ->
    tls_client_tx hc c server cfg txn o e s <> [] ->
    exists sess, hc (tls_policy_of_client c) server = Some sess.
  Proof.
    intros c rest server cfg txn o e s Hu Hne.
    destruct (tls_client_tx_inv hc c rest server cfg txn o e s Hu Hne) as (_ & sess & _ & Hs). eauto.
  Qed.

  Theorem c14_client_silent_on_failed_handshake : forall c rest server cfg txn o e s,
    url_scheme (tcl_url c) STcpTls rest ->
    hc (tls_policy_of_client c) server = None ->
    tls_client_tx hc c server cfg txn o e s = [].
  Proof.
    intros c rest server cfg txn o e s Hu Hn.
    destruct (tls_client_tx hc c server cfg txn o e s) as [|w ws] eqn:E; [reflexivity|].
    destruct (tls_client_tx_inv hc c rest server cfg txn o e s Hu) as (_ & sess & _ & Hs);
      [rewrite E; discriminate|congruence].
  Qed.

  (* T2: hence the server completed a TLS 1.2-or-later handshake with a chain
     that verifies against the configured roots for the dialled host *)
  Theorem c14_client_authenticates : forall c rest server cfg txn o e s,
    tls_cli_documented hc verifies now ->
    url_scheme (tcl_url c) STcpTls rest ->
    tls_client_tx hc c server cfg txn o e s <> [] ->
    exists roots sess,
      tcl_roots c = Some roots /\
      hc (tls_policy_of_client c) server = Some sess /\
      spec_server_authenticated verifies now roots (tls_dial_host rest) server sess.
  Proof. exact (tls_client_tx_authenticated hc verifies now). Qed.

  Theorem c14_client_refuses_unauthenticated : forall c rest server cfg txn o e s,
    tls_cli_documented hc verifies now ->
    url_scheme (tcl_url c) STcpTls rest ->
    (forall roots sess, tcl_roots c = Some roots ->
       ~ spec_server_authenticated verifies now roots (tls_dial_host rest) server sess) ->
    tls_client_tx hc c server cfg txn o e s = [].
  Proof. exact (tls_client_unauthenticated hc verifies now). Qed.

  (* T4, client side: towards a server the handshake accepts the request goes out *)
  Theorem c14_client_sends : forall c rest server sess cfg txn o e s req,
    url_scheme (tcl_url c) STcpTls rest ->
    tcl_cert c <> None -> tcl_roots c <> None ->
    hc (tls_policy_of_client c) server = Some sess ->
    client_request cfg o = Ok req ->
    tls_client_tx hc c server cfg txn o e s = [assemble_mbap (u16 (txn + 1)) req].
  Proof. exact (tls_client_sends hc). Qed.
End C14.

(* T3: constructors. A tcp+tls configuration is refused exactly when the
   certificate or the pool is missing *)
Theorem c14_server_ctor_iff : forall c rest,
  url_scheme (tsv_url c) STcpTls rest -> rest <> [] ->
  (tls_new_server c = CfgErr EConfig <-> tsv_cert c = None \/ tsv_cas c = None).
Proof. exact tls_new_server_refuses_iff. Qed.

Theorem c14_client_ctor_iff : forall c rest,
  url_scheme (tcl_url c) STcpTls rest ->
  (tls_new_client c = CfgErr EConfig <-> tcl_cert c = None \/ tcl_roots c = None).
Proof. exact tls_new_client_refuses_iff. Qed.

(* the policy records: the constants handed to crypto/tls *)
Theorem c14_server_policy_constants : forall c,
  tpo_client_auth (tls_policy_of_server c) = TlsRequireAndVerify /\
  tpo_min_version (tls_policy_of_server c) = TLS12 /\
  tpo_pool (tls_policy_of_server c) = tsv_cas c /\
  tpo_own_cert (tls_policy_of_server c) = tsv_cert c /\
  tpo_skip_verify (tls_policy_of_server c) = false.
Proof. repeat split; reflexivity. Qed.

Theorem c14_client_policy_constants : forall c,
  tpo_min_version (tls_policy_of_client c) = TLS12 /\
  tpo_skip_verify (tls_policy_of_client c) = false /\
  tpo_pool (tls_policy_of_client c) = tcl_roots c /\
  tpo_own_cert (tls_policy_of_client c) = tcl_cert c /\
  tpo_server_name (tls_policy_of_client c) = tls_dial_host (snd (url_parts (tcl_url c))).
Proof. repeat split; reflexivity. Qed.

(* the name the server certificate is checked for: host:port without :port *)
Theorem c14_dial_host : forall host port,
  ~ In 58 port -> tls_dial_host (host ++ 58 :: port) = host.
Proof. intros host port H. unfold tls_dial_host. rewrite tls_cut_last_colon_app by exact H. reflexivity. Qed.

Theorem c14_tls12_or_later_iff : forall v,
  tls_version_geb v TLS12 = true <-> tls12_or_later v.
Proof. intros v. split; [apply tls_geb_12|]. intros [-> | ->]; reflexivity. Qed.

Print Assumptions c14_server_call_needs_handshake.
Print Assumptions c14_server_authenticates.
Print Assumptions c14_server_refuses_unauthenticated.
Print Assumptions c14_server_refuses_plain_text.
Print Assumptions c14_server_refuses_no_certificate.
Print Assumptions c14_server_refuses_unverified.
Print Assumptions c14_server_refuses_old_version.
Print Assumptions c14_server_failed_handshake_closes.
Print Assumptions c14_server_serves.
Print Assumptions c14_client_tx_needs_handshake.
Print Assumptions c14_client_silent_on_failed_handshake.
Print Assumptions c14_client_authenticates.
Print Assumptions c14_client_refuses_unauthenticated.
Print Assumptions c14_client_sends.
Print Assumptions c14_server_ctor_iff.
Print Assumptions c14_client_ctor_iff.
Print Assumptions c14_server_policy_constants.
Print Assumptions c14_client_policy_constants.
Print Assumptions c14_dial_host.
Print Assumptions c14_tls12_or_later_iff.

(* Non-vacuity: an instance of the oracles that satisfies both documented
   premises and accepts some peers; the model run on it *)

Definition c14_toy_verifiesb (pool : option (list tls_cert)) (chain : list tls_cert) : bool :=
  match pool, chain with
  | Some p, leaf :: _ => existsb (fun c => tlc_id c =? tlc_id leaf) p    (* pinned leaf *)
  | _, _ => false
  end.

Definition c14_toy_verifies (pool : option (list tls_cert)) (u : tls_usage) (t : N) (host : list N)
                            (chain : list tls_cert) : Prop :=
  c14_toy_verifiesb pool chain = true.

Definition c14_toy_handshake (pol : tls_policy) (peer : tls_peer) : option tls_session :=
  if negb (tpe_speaks_tls peer) then None
  else
    match find (fun v => tls_version_geb v (tpo_min_version pol)) (tpe_versions peer) with
    | None => None
    | Some v =>
        if c14_toy_verifiesb (tpo_pool pol) (tpe_chain peer)
        then Some (mk_tls_session v (tpe_chain peer)) else None
    end.

Example c14_toy_srv_documented : tls_srv_documented c14_toy_handshake c14_toy_verifies 0.
Proof.
  intros pol peer sess. unfold c14_toy_handshake.
  destruct (tpe_speaks_tls peer); [|discriminate]. cbn [negb].
  destruct (find _ (tpe_versions peer)) as [v|] eqn:Ef; [|discriminate].
  apply find_some in Ef. destruct Ef as [Hin Hge].
  destruct (c14_toy_verifiesb (tpo_pool pol) (tpe_chain peer)) eqn:Ev; [|discriminate].
  intros [= <-]. cbn [tss_version tss_peer_certs].
  split; [reflexivity|]. split; [exact Hin|]. split; [exact Hge|].
  intros _. split; [reflexivity|]. split; [|exact Ev].
  intros E. rewrite E in Ev. unfold c14_toy_verifiesb in Ev. destruct (tpo_pool pol); discriminate Ev.
Qed.

Example c14_toy_cli_documented : tls_cli_documented c14_toy_handshake c14_toy_verifies 0.
Proof.
  intros pol peer sess. unfold c14_toy_handshake.
  destruct (tpe_speaks_tls peer); [|discriminate]. cbn [negb].
  destruct (find _ (tpe_versions peer)) as [v|] eqn:Ef; [|discriminate].
  apply find_some in Ef. destruct Ef as [Hin Hge].
  destruct (c14_toy_verifiesb (tpo_pool pol) (tpe_chain peer)) eqn:Ev; [|discriminate].
  intros [= <-]. cbn [tss_version tss_peer_certs].
  split; [reflexivity|]. split; [exact Hin|]. split; [exact Hge|].
  intros _. split; [reflexivity|]. split; [|exact Ev].
  intros E. rewrite E in Ev. unfold c14_toy_verifiesb in Ev. destruct (tpo_pool pol); discriminate Ev.
Qed.

Definition c14_example_handler : list N -> handler N :=
  fun role st r =>
    (st + 1, mkhres (repeat true (N.to_nat (h_qty r))) (repeat (lenN role) (N.to_nat (h_qty r))) HNone).

Example c14_example_handler_wf : forall role, lenN role < 65536 -> handler_wf (c14_example_handler role).
Proof.
  intros role Hr st r. cbn [c14_example_handler snd r_regs r_err]. split.
  - apply Forall_forall. intros v Hv. apply repeat_spec in Hv. subst v. exact Hr.
  - intros c Hc. discriminate Hc.
Qed.

Definition c14_ca : tls_cert := mk_tls_cert 1 [].
Definition c14_server_cert : tls_cert := mk_tls_cert 2 [].
(* a client certificate with the role "AB" (0c 02 41 42) in its Modbus role extension *)
Definition c14_client_cert : tls_cert := mk_tls_cert 3 [(false, [1; 2]); (true, [12; 2; 65; 66])].
Definition c14_stranger_cert : tls_cert := mk_tls_cert 4 [(true, [12; 2; 65; 66])].

Definition c14_srv_conf : tls_srv_conf :=
  mk_tls_srv_conf (str "tcp+tls://0.0.0.0:802") 0 0 (Some c14_server_cert) (Some [c14_ca; c14_client_cert]).

Definition c14_cli_conf : tls_cli_conf :=
  mk_tls_cli_conf (str "tcp+tls://10.1.2.3:802") 0 (Some c14_client_cert) (Some [c14_server_cert]).

Definition c14_request : list N := spec_mbap 7 (mkpdu 1 3 [0; 16; 0; 2]).

Example c14_url_sat : url_scheme (tsv_url c14_srv_conf) STcpTls (str "0.0.0.0:802").
Proof. reflexivity. Qed.

(* an authenticated peer is served, and the handler sees the role of its leaf (length 2) *)
Example c14_example_served :
  tls_server_conn c14_toy_handshake c14_example_handler c14_srv_conf
    (mk_tls_peer true [c14_client_cert] [TLS10; TLS12; TLS13]) 0 Closed c14_request =
  [EvCall (mkhreq HHolding 1 16 2 false [] []);
   EvResp (spec_mbap 7 (mkpdu 1 3 [4; 0; 2; 0; 2]));
   EvClosed].
Proof. vm_compute. reflexivity. Qed.

(* a stranger, a TLS 1.1 peer, a peer without certificate, a plain-text peer:
   nothing but the close *)
Example c14_example_refused :
  map (fun peer => tls_server_conn c14_toy_handshake c14_example_handler c14_srv_conf peer 0 Closed c14_request)
    [mk_tls_peer true [c14_stranger_cert] [TLS12; TLS13];
     mk_tls_peer true [c14_client_cert] [TLS10; TLS11];
     mk_tls_peer true [] [TLS12; TLS13];
     mk_tls_peer false [c14_client_cert] [TLS12]] =
  [[EvClosed]; [EvClosed]; [EvClosed]; [EvClosed]].
Proof. vm_compute. reflexivity. Qed.

(* a plain tcp server of the same model serves without any handshake, with the empty role *)
Example c14_example_plain_tcp :
  tls_server_conn c14_toy_handshake c14_example_handler
    (mk_tls_srv_conf (str "tcp://0.0.0.0:502") 0 0 None None)
    (mk_tls_peer false [] []) 0 Closed c14_request =
  [EvCall (mkhreq HHolding 1 16 2 false [] []);
   EvResp (spec_mbap 7 (mkpdu 1 3 [4; 0; 0; 0; 0]));
   EvClosed].
Proof. vm_compute. reflexivity. Qed.

(* the client: the request goes out to the pinned server only; the name checked is the host part *)
Example c14_example_client :
  map (fun server => tls_client_tx c14_toy_handshake c14_cli_conf server (mkcfg 1 BigE HighFirst) 0
                       (OpReadRegs 1 16 2 Holding) Closed [])
    [mk_tls_peer true [c14_server_cert] [TLS12];
     mk_tls_peer true [c14_stranger_cert] [TLS12];
     mk_tls_peer true [c14_server_cert] [TLS11];
     mk_tls_peer false [] []] =
  [[spec_mbap 1 (mkpdu 1 3 [0; 16; 0; 2])]; []; []; []].
Proof. vm_compute. reflexivity. Qed.

Example c14_example_server_name :
  tpo_server_name (tls_policy_of_client c14_cli_conf) = str "10.1.2.3".
Proof. vm_compute. reflexivity. Qed.

Example c14_example_ctor :
  (tls_new_server (mk_tls_srv_conf (str "tcp+tls://h:1") 0 0 None (Some [c14_ca])),
   tls_new_server (mk_tls_srv_conf (str "tcp+tls://h:1") 0 0 (Some c14_server_cert) None),
   tls_new_client (mk_tls_cli_conf (str "tcp+tls://h:1") 0 None (Some [c14_ca])),
   tls_new_client (mk_tls_cli_conf (str "tcp+tls://h:1") 0 (Some c14_client_cert) None)) =
  (CfgErr EConfig, CfgErr EConfig, CfgErr EConfig, CfgErr EConfig).
Proof. vm_compute. reflexivity. Qed.
