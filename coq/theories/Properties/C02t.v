(* C02 / C01 at source level: client.go as translated from the Go source on this run (Gen/SrcPure.v), the
   transport an oracle. For every [T] from requests to replies (a response PDU, or an error) each public method
   on top of it returns [call_out cfg op (xchg T)]: the unexpected-arguments error exactly when [client_request]
   rejects the arguments (the transport is then not called); otherwise the transport is called once, with the
   model's request, i/o timeouts become the request-timed-out error, the unit-id rule is applied and the reply
   goes through [client_validate] ([xchg T req = exec_spec req (T req)]). The last theorems take for [T] the
   model's transports (MBAP, RTU over a peer byte stream) and obtain [client_call], which C01.v / C02.v are about.
   [mc_fields cfg tt]: the receiver fields the translation keeps, first in every result list; error values are
   numbers (Proofs/SrcMiscP.v, Proofs/SrcClientP.v). *)
From Coq Require Import List NArith String.
Import ListNotations.
From Modbus Require Import Base.Bytes Model.GoLite Gen.SrcPure Model.Wire Model.Client Model.Encoding.
From Modbus Require Import Proofs.GoLiteLinkP Proofs.SrcMiscP Proofs.SrcClientP Proofs.SrcClientLinkP.
Open Scope string_scope.
Open Scope N_scope.

Theorem c02t_executeRequest :
  forall (base : fenv) (fuel : nat) (T : pdu -> treply) (cfg : ccfg) (tt : N) (req : pdu),
  transport_hyp base T ->
  call_with src_pure base fuel "ModbusClient.executeRequest"
    (mc_fields cfg tt ++ [VN (p_unit req); VN (p_fc req); vbytes (p_payload req)]) =
  GOk (mc_fields cfg tt ++ enc_reply (xchg T req))%list.
Proof. exact src_executeRequest_ok. Qed.
Print Assumptions c02t_executeRequest.

Theorem c02t_SetUnitId :
  forall (base : fenv) (fuel : nat) (cfg : ccfg) (tt id : N),
  call_with src_pure base fuel "ModbusClient.SetUnitId" (mc_fields cfg tt ++ [VN id]) =
  GOk [VN (endian_sel (c_endian cfg)); VN (word_sel (c_word cfg)); VN id; VN tt; VN 0].
Proof.
  intros. rewrite (call_env_with src_pure _ "ModbusClient.SetUnitId" src_fn_ModbusClient_SetUnitId eq_refl eq_refl).
  apply SrcClientWriteP.run_SetUnitId.
Qed.
Print Assumptions c02t_SetUnitId.

Theorem c02t_SetEncoding :
  forall (base : fenv) (fuel : nat) (cfg : ccfg) (tt e w : N),
  call_with src_pure base fuel "ModbusClient.SetEncoding" (mc_fields cfg tt ++ [VN e; VN w]) =
  (if ((e =? 1) || (e =? 2)) && ((w =? 1) || (w =? 2))
   then GOk [VN e; VN w; VN (c_unit cfg); VN tt; VN 0]
   else GOk (mc_fields cfg tt ++ [VN (err_code EParams)])%list).
Proof.
  intros. rewrite (call_env_with src_pure _ "ModbusClient.SetEncoding" src_fn_ModbusClient_SetEncoding eq_refl eq_refl).
  apply SrcClientWriteP.run_SetEncoding.
Qed.
Print Assumptions c02t_SetEncoding.

Theorem c02t_encoding :
  forall (base : fenv) (fuel : nat) (cfg : ccfg) (tt : N),
  call_with src_pure base fuel "ModbusClient.encoding" (mc_fields cfg tt) =
  GOk (mc_fields cfg tt ++ [VN (endian_sel (c_endian cfg)); VN (word_sel (c_word cfg))])%list.
Proof. exact src_encoding_ok. Qed.
Print Assumptions c02t_encoding.

Theorem c02t_readBools :
  forall (base : fenv) (fuel : nat) (T : pdu -> treply) (cfg : ccfg) (tt a q : N) (di : bool),
  transport_hyp base T ->
  a < 65536 ->
  q < 65536 ->
  (2000 < fuel)%nat ->
  call_with src_pure base fuel "ModbusClient.readBools" (mc_fields cfg tt ++ [VN a; VN q; VB di]) =
  out_vals (mc_fields cfg tt) (call_out cfg (OpReadBools di a q) (xchg T)).
Proof. exact src_readBools_ok. Qed.
Print Assumptions c02t_readBools.

Theorem c02t_readRegisters :
  forall (base : fenv) (fuel : nat) (T : pdu -> treply) (cfg : ccfg) (tt a q rtn : N) (rt : regtype),
  transport_hyp base T ->
  a < 65536 ->
  q < 65536 ->
  regtype_sel rt rtn ->
  call_with src_pure base fuel "ModbusClient.readRegisters" (mc_fields cfg tt ++ [VN a; VN q; VN rtn]) =
  out_vals (mc_fields cfg tt) (rr_out cfg a q rt (xchg T)).
Proof. exact src_readRegisters_ok. Qed.
Print Assumptions c02t_readRegisters.

Theorem c02t_writeRegisters :
  forall (base : fenv) (fuel : nat) (T : pdu -> treply) (cfg : ccfg) (tt a : N) (bytes : list N),
  transport_hyp base T ->
  a < 65536 ->
  bytesb bytes = true ->
  N.of_nat (Datatypes.length bytes) < 2 ^ 62 ->
  call_with src_pure base fuel "ModbusClient.writeRegisters" (mc_fields cfg tt ++ [VN a; vbytes bytes]) =
  out_err (mc_fields cfg tt) (wr_out cfg a bytes (xchg T)).
Proof. exact src_writeRegisters_ok. Qed.
Print Assumptions c02t_writeRegisters.

Theorem c02t_ReadCoils :
  forall (base : fenv) (fuel : nat) (T : pdu -> treply) (cfg : ccfg) (tt a q : N),
  transport_hyp base T ->
  a < 65536 ->
  q < 65536 ->
  (2000 < fuel)%nat ->
  call_with src_pure base fuel "ModbusClient.ReadCoils" (mc_fields cfg tt ++ [VN a; VN q]) =
  out_vals (mc_fields cfg tt) (call_out cfg (OpReadBools false a q) (xchg T)).
Proof. exact (src_bools_reader_ok "ModbusClient.ReadCoils" false eq_refl eq_refl (conj eq_refl eq_refl)). Qed.
Print Assumptions c02t_ReadCoils.

Theorem c02t_ReadCoil :
  forall (base : fenv) (fuel : nat) (T : pdu -> treply) (cfg : ccfg) (tt a : N),
  transport_hyp base T ->
  a < 65536 ->
  (2000 < fuel)%nat ->
  call_with src_pure base fuel "ModbusClient.ReadCoil" (mc_fields cfg tt ++ [VN a]) =
  out_one (mc_fields cfg tt) (VB false) (call_out cfg (OpReadBools false a 1) (xchg T)).
Proof. exact (src_bool_reader_ok "ModbusClient.ReadCoil" false eq_refl eq_refl (conj eq_refl eq_refl)). Qed.
Print Assumptions c02t_ReadCoil.

Theorem c02t_ReadDiscreteInputs :
  forall (base : fenv) (fuel : nat) (T : pdu -> treply) (cfg : ccfg) (tt a q : N),
  transport_hyp base T ->
  a < 65536 ->
  q < 65536 ->
  (2000 < fuel)%nat ->
  call_with src_pure base fuel "ModbusClient.ReadDiscreteInputs" (mc_fields cfg tt ++ [VN a; VN q]) =
  out_vals (mc_fields cfg tt) (call_out cfg (OpReadBools true a q) (xchg T)).
Proof. exact (src_bools_reader_ok "ModbusClient.ReadDiscreteInputs" true eq_refl eq_refl (conj eq_refl eq_refl)). Qed.
Print Assumptions c02t_ReadDiscreteInputs.

Theorem c02t_ReadDiscreteInput :
  forall (base : fenv) (fuel : nat) (T : pdu -> treply) (cfg : ccfg) (tt a : N),
  transport_hyp base T ->
  a < 65536 ->
  (2000 < fuel)%nat ->
  call_with src_pure base fuel "ModbusClient.ReadDiscreteInput" (mc_fields cfg tt ++ [VN a]) =
  out_one (mc_fields cfg tt) (VB false) (call_out cfg (OpReadBools true a 1) (xchg T)).
Proof. exact (src_bool_reader_ok "ModbusClient.ReadDiscreteInput" true eq_refl eq_refl (conj eq_refl eq_refl)). Qed.
Print Assumptions c02t_ReadDiscreteInput.

Theorem c02t_ReadRegisters :
  forall (base : fenv) (fuel : nat) (T : pdu -> treply) (cfg : ccfg) (tt a q rtn : N) (rt : regtype),
  transport_hyp base T ->
  a < 65536 ->
  q < 65536 ->
  regtype_sel rt rtn ->
  (300 < fuel)%nat ->
  call_with src_pure base fuel "ModbusClient.ReadRegisters" (mc_fields cfg tt ++ [VN a; VN q; VN rtn]) =
  out_vals (mc_fields cfg tt) (call_out cfg (OpReadRegs 1 a q rt) (xchg T)).
Proof. exact src_ReadRegisters_ok. Qed.
Print Assumptions c02t_ReadRegisters.

Theorem c02t_ReadRegister :
  forall (base : fenv) (fuel : nat) (T : pdu -> treply) (cfg : ccfg) (tt a rtn : N) (rt : regtype),
  transport_hyp base T ->
  a < 65536 ->
  regtype_sel rt rtn ->
  (300 < fuel)%nat ->
  call_with src_pure base fuel "ModbusClient.ReadRegister" (mc_fields cfg tt ++ [VN a; VN rtn]) =
  out_one (mc_fields cfg tt) (VN 0) (call_out cfg (OpReadRegs 1 a 1 rt) (xchg T)).
Proof.
  exact (src_single_reader_ok "ModbusClient.ReadRegister" "ModbusClient.ReadRegisters" src_fn_ModbusClient_ReadRegisters 1 eq_refl eq_refl (conj eq_refl eq_refl)
           (fun base fuel T HT Hf cfg tt a q rtn rt Ha Hq Hrt => src_ReadRegisters_ok base fuel T cfg tt a q rtn rt HT Ha Hq Hrt Hf)).
Qed.
Print Assumptions c02t_ReadRegister.

Theorem c02t_ReadUint32s :
  forall (base : fenv) (fuel : nat) (T : pdu -> treply) (cfg : ccfg) (tt a q rtn : N) (rt : regtype),
  transport_hyp base T ->
  a < 65536 ->
  q < 65536 ->
  regtype_sel rt rtn ->
  (300 < fuel)%nat ->
  call_with src_pure base fuel "ModbusClient.ReadUint32s" (mc_fields cfg tt ++ [VN a; VN q; VN rtn]) =
  out_vals (mc_fields cfg tt) (call_out cfg (OpReadRegs 2 a q rt) (xchg T)).
Proof.
  apply (src_typed_reader_ok _ 2 "bytesToUint32s" src_fn_bytesToUint32s bytes_to_u32s);
    first [reflexivity|split; reflexivity|exact SrcLinkP.src_bytesToUint32s_ok].
Qed.
Print Assumptions c02t_ReadUint32s.

Theorem c02t_ReadUint32 :
  forall (base : fenv) (fuel : nat) (T : pdu -> treply) (cfg : ccfg) (tt a rtn : N) (rt : regtype),
  transport_hyp base T ->
  a < 65536 ->
  regtype_sel rt rtn ->
  (300 < fuel)%nat ->
  call_with src_pure base fuel "ModbusClient.ReadUint32" (mc_fields cfg tt ++ [VN a; VN rtn]) =
  out_one (mc_fields cfg tt) (VN 0) (call_out cfg (OpReadRegs 2 a 1 rt) (xchg T)).
Proof.
  exact (src_single_reader_ok "ModbusClient.ReadUint32" "ModbusClient.ReadUint32s" src_fn_ModbusClient_ReadUint32s 2 eq_refl eq_refl (conj eq_refl eq_refl)
           (fun base fuel T HT Hf cfg tt a q rtn rt Ha Hq Hrt => c02t_ReadUint32s base fuel T cfg tt a q rtn rt HT Ha Hq Hrt Hf)).
Qed.
Print Assumptions c02t_ReadUint32.

Theorem c02t_ReadFloat32s :
  forall (base : fenv) (fuel : nat) (T : pdu -> treply) (cfg : ccfg) (tt a q rtn : N) (rt : regtype),
  transport_hyp base T ->
  a < 65536 ->
  q < 65536 ->
  regtype_sel rt rtn ->
  (300 < fuel)%nat ->
  call_with src_pure base fuel "ModbusClient.ReadFloat32s" (mc_fields cfg tt ++ [VN a; VN q; VN rtn]) =
  out_vals (mc_fields cfg tt) (call_out cfg (OpReadRegs 2 a q rt) (xchg T)).
Proof.
  apply (src_typed_reader_ok _ 2 "bytesToFloat32s" src_fn_bytesToFloat32s bytes_to_u32s);
    first [reflexivity|split; reflexivity|exact SrcLinkP.src_bytesToFloat32s_ok].
Qed.
Print Assumptions c02t_ReadFloat32s.

Theorem c02t_ReadFloat32 :
  forall (base : fenv) (fuel : nat) (T : pdu -> treply) (cfg : ccfg) (tt a rtn : N) (rt : regtype),
  transport_hyp base T ->
  a < 65536 ->
  regtype_sel rt rtn ->
  (300 < fuel)%nat ->
  call_with src_pure base fuel "ModbusClient.ReadFloat32" (mc_fields cfg tt ++ [VN a; VN rtn]) =
  out_one (mc_fields cfg tt) (VN 0) (call_out cfg (OpReadRegs 2 a 1 rt) (xchg T)).
Proof.
  exact (src_single_reader_ok "ModbusClient.ReadFloat32" "ModbusClient.ReadFloat32s" src_fn_ModbusClient_ReadFloat32s 2 eq_refl eq_refl (conj eq_refl eq_refl)
           (fun base fuel T HT Hf cfg tt a q rtn rt Ha Hq Hrt => c02t_ReadFloat32s base fuel T cfg tt a q rtn rt HT Ha Hq Hrt Hf)).
Qed.
Print Assumptions c02t_ReadFloat32.

Theorem c02t_ReadUint64s :
  forall (base : fenv) (fuel : nat) (T : pdu -> treply) (cfg : ccfg) (tt a q rtn : N) (rt : regtype),
  transport_hyp base T ->
  a < 65536 ->
  q < 65536 ->
  regtype_sel rt rtn ->
  (300 < fuel)%nat ->
  call_with src_pure base fuel "ModbusClient.ReadUint64s" (mc_fields cfg tt ++ [VN a; VN q; VN rtn]) =
  out_vals (mc_fields cfg tt) (call_out cfg (OpReadRegs 4 a q rt) (xchg T)).
Proof.
  apply (src_typed_reader_ok _ 4 "bytesToUint64s" src_fn_bytesToUint64s bytes_to_u64s);
    first [reflexivity|split; reflexivity|exact SrcLinkP.src_bytesToUint64s_ok].
Qed.
Print Assumptions c02t_ReadUint64s.

Theorem c02t_ReadUint64 :
  forall (base : fenv) (fuel : nat) (T : pdu -> treply) (cfg : ccfg) (tt a rtn : N) (rt : regtype),
  transport_hyp base T ->
  a < 65536 ->
  regtype_sel rt rtn ->
  (300 < fuel)%nat ->
  call_with src_pure base fuel "ModbusClient.ReadUint64" (mc_fields cfg tt ++ [VN a; VN rtn]) =
  out_one (mc_fields cfg tt) (VN 0) (call_out cfg (OpReadRegs 4 a 1 rt) (xchg T)).
Proof.
  exact (src_single_reader_ok "ModbusClient.ReadUint64" "ModbusClient.ReadUint64s" src_fn_ModbusClient_ReadUint64s 4 eq_refl eq_refl (conj eq_refl eq_refl)
           (fun base fuel T HT Hf cfg tt a q rtn rt Ha Hq Hrt => c02t_ReadUint64s base fuel T cfg tt a q rtn rt HT Ha Hq Hrt Hf)).
Qed.
Print Assumptions c02t_ReadUint64.

Theorem c02t_ReadFloat64s :
  forall (base : fenv) (fuel : nat) (T : pdu -> treply) (cfg : ccfg) (tt a q rtn : N) (rt : regtype),
  transport_hyp base T ->
  a < 65536 ->
  q < 65536 ->
  regtype_sel rt rtn ->
  (300 < fuel)%nat ->
  call_with src_pure base fuel "ModbusClient.ReadFloat64s" (mc_fields cfg tt ++ [VN a; VN q; VN rtn]) =
  out_vals (mc_fields cfg tt) (call_out cfg (OpReadRegs 4 a q rt) (xchg T)).
Proof.
  apply (src_typed_reader_ok _ 4 "bytesToFloat64s" src_fn_bytesToFloat64s bytes_to_u64s);
    first [reflexivity|split; reflexivity|exact SrcLinkP.src_bytesToFloat64s_ok].
Qed.
Print Assumptions c02t_ReadFloat64s.

Theorem c02t_ReadFloat64 :
  forall (base : fenv) (fuel : nat) (T : pdu -> treply) (cfg : ccfg) (tt a rtn : N) (rt : regtype),
  transport_hyp base T ->
  a < 65536 ->
  regtype_sel rt rtn ->
  (300 < fuel)%nat ->
  call_with src_pure base fuel "ModbusClient.ReadFloat64" (mc_fields cfg tt ++ [VN a; VN rtn]) =
  out_one (mc_fields cfg tt) (VN 0) (call_out cfg (OpReadRegs 4 a 1 rt) (xchg T)).
Proof.
  exact (src_single_reader_ok "ModbusClient.ReadFloat64" "ModbusClient.ReadFloat64s" src_fn_ModbusClient_ReadFloat64s 4 eq_refl eq_refl (conj eq_refl eq_refl)
           (fun base fuel T HT Hf cfg tt a q rtn rt Ha Hq Hrt => c02t_ReadFloat64s base fuel T cfg tt a q rtn rt HT Ha Hq Hrt Hf)).
Qed.
Print Assumptions c02t_ReadFloat64.

Theorem c02t_WriteCoil :
  forall (base : fenv) (fuel : nat) (T : pdu -> treply) (cfg : ccfg) (tt a : N) (v : bool),
  transport_hyp base T ->
  a < 65536 ->
  call_with src_pure base fuel "ModbusClient.WriteCoil" (mc_fields cfg tt ++ [VN a; VB v]) =
  out_err (mc_fields cfg tt) (call_out cfg (OpWriteCoil a v) (xchg T)).
Proof. exact src_WriteCoil_ok. Qed.
Print Assumptions c02t_WriteCoil.

Theorem c02t_WriteCoils :
  forall (base : fenv) (fuel : nat) (T : pdu -> treply) (cfg : ccfg) (tt a : N) (vs : list bool),
  transport_hyp base T ->
  a < 65536 ->
  (2000 < fuel)%nat ->
  call_with src_pure base fuel "ModbusClient.WriteCoils" (mc_fields cfg tt ++ [VN a; vbools vs]) =
  out_err (mc_fields cfg tt) (call_out cfg (OpWriteCoils a vs) (xchg T)).
Proof. exact src_WriteCoils_ok. Qed.
Print Assumptions c02t_WriteCoils.

Theorem c02t_WriteRegister :
  forall (base : fenv) (fuel : nat) (T : pdu -> treply) (cfg : ccfg) (tt a v : N),
  transport_hyp base T ->
  a < 65536 ->
  v < 65536 ->
  call_with src_pure base fuel "ModbusClient.WriteRegister" (mc_fields cfg tt ++ [VN a; VN v]) =
  out_err (mc_fields cfg tt) (call_out cfg (OpWriteReg a v) (xchg T)).
Proof. exact src_WriteRegister_ok. Qed.
Print Assumptions c02t_WriteRegister.

Theorem c02t_WriteRegisters :
  forall (base : fenv) (fuel : nat) (T : pdu -> treply) (cfg : ccfg) (tt a : N) (vs : list N),
  transport_hyp base T ->
  a < 65536 ->
  N.of_nat (Datatypes.length vs) < 2 ^ 59 ->
  call_with src_pure base fuel "ModbusClient.WriteRegisters" (mc_fields cfg tt ++ [VN a; vbytes vs]) =
  out_err (mc_fields cfg tt) (call_out cfg (OpWriteRegs 1 a vs) (xchg T)).
Proof. exact src_WriteRegisters_ok. Qed.
Print Assumptions c02t_WriteRegisters.

Theorem c02t_WriteUint32s :
  forall (base : fenv) (fuel : nat) (T : pdu -> treply) (cfg : ccfg) (tt a : N) (vs : list N),
  transport_hyp base T ->
  a < 65536 ->
  N.of_nat (Datatypes.length vs) < 2 ^ 59 ->
  call_with src_pure base fuel "ModbusClient.WriteUint32s" (mc_fields cfg tt ++ [VN a; vbytes vs]) =
  out_err (mc_fields cfg tt) (call_out cfg (OpWriteRegs 2 a vs) (xchg T)).
Proof.
  exact (src_wr3s_ok "ModbusClient.WriteUint32s" "uint32ToBytes" src_fn_uint32ToBytes 2 eq_refl eq_refl (conj eq_refl eq_refl) (conj eq_refl eq_refl) (conj eq_refl eq_refl)
           (fun base fuel cfg v => SrcLinkP.src_uint32ToBytes_ok base fuel (c_endian cfg) (c_word cfg) v)).
Qed.
Print Assumptions c02t_WriteUint32s.

Theorem c02t_WriteUint32 :
  forall (base : fenv) (fuel : nat) (T : pdu -> treply) (cfg : ccfg) (tt a v : N),
  transport_hyp base T ->
  a < 65536 ->
  call_with src_pure base fuel "ModbusClient.WriteUint32" (mc_fields cfg tt ++ [VN a; VN v]) =
  out_err (mc_fields cfg tt) (call_out cfg (OpWriteRegs 2 a [v]) (xchg T)).
Proof.
  exact (src_wr3_ok "ModbusClient.WriteUint32" "uint32ToBytes" src_fn_uint32ToBytes 2 eq_refl eq_refl (conj eq_refl eq_refl) (conj eq_refl eq_refl) (conj eq_refl eq_refl)
           (fun base fuel cfg v => SrcLinkP.src_uint32ToBytes_ok base fuel (c_endian cfg) (c_word cfg) v)).
Qed.
Print Assumptions c02t_WriteUint32.

Theorem c02t_WriteFloat32s :
  forall (base : fenv) (fuel : nat) (T : pdu -> treply) (cfg : ccfg) (tt a : N) (vs : list N),
  transport_hyp base T ->
  a < 65536 ->
  N.of_nat (Datatypes.length vs) < 2 ^ 59 ->
  call_with src_pure base fuel "ModbusClient.WriteFloat32s" (mc_fields cfg tt ++ [VN a; vbytes vs]) =
  out_err (mc_fields cfg tt) (call_out cfg (OpWriteRegs 2 a vs) (xchg T)).
Proof.
  exact (src_wr3s_ok "ModbusClient.WriteFloat32s" "float32ToBytes" src_fn_float32ToBytes 2 eq_refl eq_refl (conj eq_refl eq_refl) (conj eq_refl eq_refl) (conj eq_refl eq_refl)
           (fun base fuel cfg v => SrcLinkP.src_float32ToBytes_ok base fuel (c_endian cfg) (c_word cfg) v)).
Qed.
Print Assumptions c02t_WriteFloat32s.

Theorem c02t_WriteFloat32 :
  forall (base : fenv) (fuel : nat) (T : pdu -> treply) (cfg : ccfg) (tt a v : N),
  transport_hyp base T ->
  a < 65536 ->
  call_with src_pure base fuel "ModbusClient.WriteFloat32" (mc_fields cfg tt ++ [VN a; VN v]) =
  out_err (mc_fields cfg tt) (call_out cfg (OpWriteRegs 2 a [v]) (xchg T)).
Proof.
  exact (src_wr3_ok "ModbusClient.WriteFloat32" "float32ToBytes" src_fn_float32ToBytes 2 eq_refl eq_refl (conj eq_refl eq_refl) (conj eq_refl eq_refl) (conj eq_refl eq_refl)
           (fun base fuel cfg v => SrcLinkP.src_float32ToBytes_ok base fuel (c_endian cfg) (c_word cfg) v)).
Qed.
Print Assumptions c02t_WriteFloat32.

Theorem c02t_WriteUint64s :
  forall (base : fenv) (fuel : nat) (T : pdu -> treply) (cfg : ccfg) (tt a : N) (vs : list N),
  transport_hyp base T ->
  a < 65536 ->
  N.of_nat (Datatypes.length vs) < 2 ^ 59 ->
  call_with src_pure base fuel "ModbusClient.WriteUint64s" (mc_fields cfg tt ++ [VN a; vbytes vs]) =
  out_err (mc_fields cfg tt) (call_out cfg (OpWriteRegs 4 a vs) (xchg T)).
Proof.
  exact (src_wr3s_ok "ModbusClient.WriteUint64s" "uint64ToBytes" src_fn_uint64ToBytes 4 eq_refl eq_refl (conj eq_refl eq_refl) (conj eq_refl eq_refl) (conj eq_refl eq_refl)
           (fun base fuel cfg v => SrcLinkP.src_uint64ToBytes_ok base fuel (c_endian cfg) (c_word cfg) v)).
Qed.
Print Assumptions c02t_WriteUint64s.

Theorem c02t_WriteUint64 :
  forall (base : fenv) (fuel : nat) (T : pdu -> treply) (cfg : ccfg) (tt a v : N),
  transport_hyp base T ->
  a < 65536 ->
  call_with src_pure base fuel "ModbusClient.WriteUint64" (mc_fields cfg tt ++ [VN a; VN v]) =
  out_err (mc_fields cfg tt) (call_out cfg (OpWriteRegs 4 a [v]) (xchg T)).
Proof.
  exact (src_wr3_ok "ModbusClient.WriteUint64" "uint64ToBytes" src_fn_uint64ToBytes 4 eq_refl eq_refl (conj eq_refl eq_refl) (conj eq_refl eq_refl) (conj eq_refl eq_refl)
           (fun base fuel cfg v => SrcLinkP.src_uint64ToBytes_ok base fuel (c_endian cfg) (c_word cfg) v)).
Qed.
Print Assumptions c02t_WriteUint64.

Theorem c02t_WriteFloat64s :
  forall (base : fenv) (fuel : nat) (T : pdu -> treply) (cfg : ccfg) (tt a : N) (vs : list N),
  transport_hyp base T ->
  a < 65536 ->
  N.of_nat (Datatypes.length vs) < 2 ^ 59 ->
  call_with src_pure base fuel "ModbusClient.WriteFloat64s" (mc_fields cfg tt ++ [VN a; vbytes vs]) =
  out_err (mc_fields cfg tt) (call_out cfg (OpWriteRegs 4 a vs) (xchg T)).
Proof.
  exact (src_wr3s_ok "ModbusClient.WriteFloat64s" "float64ToBytes" src_fn_float64ToBytes 4 eq_refl eq_refl (conj eq_refl eq_refl) (conj eq_refl eq_refl) (conj eq_refl eq_refl)
           (fun base fuel cfg v => SrcLinkP.src_float64ToBytes_ok base fuel (c_endian cfg) (c_word cfg) v)).
Qed.
Print Assumptions c02t_WriteFloat64s.

Theorem c02t_WriteFloat64 :
  forall (base : fenv) (fuel : nat) (T : pdu -> treply) (cfg : ccfg) (tt a v : N),
  transport_hyp base T ->
  a < 65536 ->
  call_with src_pure base fuel "ModbusClient.WriteFloat64" (mc_fields cfg tt ++ [VN a; VN v]) =
  out_err (mc_fields cfg tt) (call_out cfg (OpWriteRegs 4 a [v]) (xchg T)).
Proof.
  exact (src_wr3_ok "ModbusClient.WriteFloat64" "float64ToBytes" src_fn_float64ToBytes 4 eq_refl eq_refl (conj eq_refl eq_refl) (conj eq_refl eq_refl) (conj eq_refl eq_refl)
           (fun base fuel cfg v => SrcLinkP.src_float64ToBytes_ok base fuel (c_endian cfg) (c_word cfg) v)).
Qed.
Print Assumptions c02t_WriteFloat64.

Theorem c02t_call_out_client_call :
  forall (fr : framing) (cfg : ccfg) (txn : N) (o : op) (e : send) (s : list N),
  call_out cfg o (xchg (model_transport fr txn e s)) = sout_of (cr_res (client_call fr cfg txn o e s)).
Proof. exact call_out_client_call. Qed.
Print Assumptions c02t_call_out_client_call.

Theorem c02t_model_transport_hyp :
  forall (fr : framing) (txn : N) (e : send) (s : list N),
  bytesb s = true -> transport_hyp (oracle_of (model_transport fr txn e s)) (model_transport fr txn e s).
Proof. exact model_transport_hyp. Qed.
Print Assumptions c02t_model_transport_hyp.

Theorem c02t_WriteCoil_model :
  forall (fr : framing) (cfg : ccfg) (tt txn : N) (e : send) (s : list N) (fuel : nat) 
    (a : N) (v : bool),
  bytesb s = true ->
  a < 65536 ->
  call_with src_pure (oracle_of (model_transport fr txn e s)) fuel "ModbusClient.WriteCoil"
    (mc_fields cfg tt ++ [VN a; VB v]) =
  out_err (mc_fields cfg tt) (sout_of (cr_res (client_call fr cfg txn (OpWriteCoil a v) e s))).
Proof.
  intros fr cfg tt txn e s fuel a v Hb Ha. rewrite <- call_out_client_call.
  apply src_WriteCoil_ok; [apply model_transport_hyp; exact Hb|exact Ha].
Qed.
Print Assumptions c02t_WriteCoil_model.

Theorem c02t_ReadRegisters_model :
  forall (fr : framing) (cfg : ccfg) (tt txn : N) (e : send) (s : list N) (fuel : nat) 
    (a q rtn : N) (rt : regtype),
  bytesb s = true ->
  a < 65536 ->
  q < 65536 ->
  regtype_sel rt rtn ->
  (300 < fuel)%nat ->
  call_with src_pure (oracle_of (model_transport fr txn e s)) fuel "ModbusClient.ReadRegisters"
    (mc_fields cfg tt ++ [VN a; VN q; VN rtn]) =
  out_vals (mc_fields cfg tt) (sout_of (cr_res (client_call fr cfg txn (OpReadRegs 1 a q rt) e s))).
Proof.
  intros fr cfg tt txn e s fuel a q rtn rt Hb Ha Hq Hrt Hfuel. rewrite <- call_out_client_call.
  apply src_ReadRegisters_ok; [apply model_transport_hyp; exact Hb|assumption..].
Qed.
Print Assumptions c02t_ReadRegisters_model.

Theorem c02t_model_transport_wf :
  forall (fr : framing) (txn : N) (e : send) (s : list N) (req : pdu),
  bytesb s = true -> treply_wf (model_transport fr txn e s req).
Proof. exact model_transport_wf. Qed.
Print Assumptions c02t_model_transport_wf.
