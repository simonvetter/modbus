(* C01, "exactly one request frame" seen from the network when the peer hangs up
   (lemmas in Proofs/PeerViewP.v). client_call_hangup (Model/PeerView.v) is what a
   listener sees over ALL connections it accepts during one call; the peer read
   the whole request and closed / reset, possibly after part of a reply
   (HangAfter), or dropped the connection before / inside the request (HangEarly k). *)
From Modbus Require Import Base.Bytes Model.Crc Model.Encoding Model.Wire Model.Client
  Model.PeerView
  Spec.ModbusSpec Spec.ClientSpec Spec.CutSpec Proofs.PeerViewP.

(* what the listener receives: the one connection of the handle carries the
   specified frame (what the peer read of it); a rejected call carries nothing *)
Theorem c01_hangup_view : forall fr cfg txn o h,
  op_wf o -> cfg_wf cfg -> txn < 65536 ->
  let v := client_call_hangup fr cfg txn o h in
  let f := spec_frame fr (u16 (txn + 1)) (spec_pdu cfg o) in
  (valid_op o = true ->
     pv_conns v = match h with
                  | HangAfter _ _ => [f]
                  | HangEarly _ k => [firstn k f]
                  end) /\
  (valid_op o = false -> pv_conns v = [[]] /\ pv_res v = Err EParams).
Proof. exact hangup_view. Qed.

(* never a second connection, never a second frame *)
Theorem c01_hangup_never_two : forall fr cfg txn o h,
  op_wf o -> cfg_wf cfg -> txn < 65536 ->
  let v := client_call_hangup fr cfg txn o h in
  length (pv_conns v) = 1%nat /\
  exists k, concat (pv_conns v) = firstn k (spec_frame fr (u16 (txn + 1)) (spec_pdu cfg o)).
Proof.
  intros fr cfg txn o h Hwf Hcfg Ht v.
  destruct (hangup_view fr cfg txn o h Hwf Hcfg Ht) as [Hv Hi]. fold v in Hv, Hi.
  destruct (valid_op o) eqn:V.
  - rewrite (Hv eq_refl). destruct h as [e sent|e k]; (split; [reflexivity|]).
    + exists (length (spec_frame fr (u16 (txn + 1)) (spec_pdu cfg o))).
      cbn [concat]. rewrite app_nil_r, firstn_all. reflexivity.
    + exists k. cbn [concat]. rewrite app_nil_r. reflexivity.
  - destruct (Hi eq_refl) as [Hc _]. rewrite Hc. split; [reflexivity|].
    exists 0%nat. reflexivity.
Qed.

(* and the caller is told: the call is an error *)
Theorem c01_hangup_fails : forall fr cfg txn o res vs h,
  op_wf o -> cfg_wf cfg -> txn < 65536 -> valid_op o = true ->
  bytesb (p_payload res) = true -> answers cfg o res vs ->
  match h with
  | HangAfter _ sent =>
      exists k, (k < length (spec_frame fr (u16 (txn + 1)) res))%nat /\
                sent = firstn k (spec_frame fr (u16 (txn + 1)) res)
  | HangEarly _ _ => True
  end ->
  cut_failed (pv_res (client_call_hangup fr cfg txn o h)).
Proof. exact hangup_fails. Qed.

(* non-vacuity: WriteRegister(0x0102, 0xbeef) as unit 0x11 over MBAP; the peer
   reads the request and closes / resets / answers 5 of 12 bytes / reads 7
   bytes only *)
Example c01_hangup_example :
  let cfg := mkcfg 0x11 BigE HighFirst in
  let o := OpWriteReg 0x0102 0xbeef in
  let f := [0; 1; 0; 0; 0; 6; 0x11; 6; 1; 2; 0xbe; 0xef] in
  op_wf o /\ cfg_wf cfg /\ valid_op o = true /\
  client_call_hangup FMbap cfg 0 o (HangAfter Closed []) = mkpv [f] (Err EIO) /\
  client_call_hangup FMbap cfg 0 o (HangAfter Reset []) = mkpv [f] (Err EIO) /\
  client_call_hangup FMbap cfg 0 o (HangAfter Closed (firstn 5 f)) = mkpv [f] (Err EIO) /\
  client_call_hangup FMbap cfg 0 o (HangEarly Reset 7) = mkpv [firstn 7 f] (Err EIO) /\
  client_call_hangup FMbap cfg 0 (OpWriteRegs 1 0 []) (HangAfter Closed []) = mkpv [[]] (Err EParams).
Proof. vm_compute. repeat split; reflexivity. Qed.

Print Assumptions c01_hangup_view.
Print Assumptions c01_hangup_never_two.
Print Assumptions c01_hangup_fails.
