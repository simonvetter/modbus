(* C18 - Calls never modify caller data, and returned data stays stable (lemmas in
   Proofs/HeapP.v; vocabulary of the statements: Spec/AliasSpec.v). Model/Heap.v:
   heap of arrays, Go slice headers, append in place iff it fits; the client calls
   statement by statement as far as memory is concerned. hp_call gr fr cfg txn o e s h
   runs one public call o on heap h (framing fr, capacity growth policy gr, peer
   behaviour e / s) and returns what was transmitted, the result, and the heap
   afterwards (also when the call panicked half-way). *)
From Coq Require Import List.
From Modbus Require Import Base.Bytes Model.Crc Model.Encoding Model.Wire Model.Client Model.Heap
  Spec.AliasSpec Proofs.HeapP.

(* T1 (arguments). For every call, slice geometry (offset, length, capacity,
   odd/even, with or without spare capacity), encoding, framing, growth
   policy, peer behaviour and heap: every array that existed before the call
   is bit for bit the same after it - the whole array, i.e. also the cells
   beyond the length of any slice into it. *)
Theorem c18_memory_untouched : forall gr fr cfg txn o e s h,
  memory_untouched h (snd (hp_call gr fr cfg txn o e s h)).
Proof. intros. apply keeps_memory, call_frame. Qed.

(* in particular every slice the caller holds - the argument first of all -
   has the same contents and the same spare capacity cells *)
Theorem c18_argument_untouched : forall gr fr cfg txn o e s h t,
  caller_slice h t -> slice_untouched h (snd (hp_call gr fr cfg txn o e s h)) t.
Proof.
  intros gr fr cfg txn o e s h t Ht.
  apply keeps_slice_untouched; [apply call_frame|apply wf_in, caller_slice_wf, Ht].
Qed.

(* what goes on the wire is the frame of the value-level client model (whose
   bytes are the specified ones: C01), computed from the content the argument
   slice has when the call is made *)
Theorem c18_wire_bytes : forall gr fr cfg txn o e s h,
  args_are_caller_slices o h ->
  hr_writes (fst (hp_call gr fr cfg txn o e s h)) =
  cr_writes (client_call fr cfg txn (hp_value_op o h) e s).
Proof.
  intros gr fr cfg txn o e s h Ho. apply call_writes; [apply args_caller_wf, Ho|apply keeps_refl].
Qed.

(* corollary: the same call with the same slice sends the same bytes again
   (the MBAP transaction id, which numbers the calls, set aside) - directly
   after the first call ... *)
Theorem c18_repeat_same_bytes : forall gr fr cfg txn1 txn2 o e1 s1 e2 s2 h,
  args_are_caller_slices o h ->
  map (frame_body fr)
      (hr_writes (fst (hp_call gr fr cfg txn2 o e2 s2 (snd (hp_call gr fr cfg txn1 o e1 s1 h))))) =
  map (frame_body fr) (hr_writes (fst (hp_call gr fr cfg txn1 o e1 s1 h))).
Proof.
  intros gr fr cfg txn1 txn2 o e1 s1 e2 s2 h Ho.
  apply repeat_same_body; [apply args_caller_wf, Ho|apply call_frame].
Qed.

(* ... and after any history of further calls and caller allocations *)
Theorem c18_repeat_after_history : forall gr fr c evs cfg txn1 txn2 o e1 s1 e2 s2,
  args_are_caller_slices o (hc_heap c) ->
  map (frame_body fr)
      (hr_writes (fst (hp_call gr fr cfg txn2 o e2 s2 (hc_heap (hp_run gr fr c evs))))) =
  map (frame_body fr) (hr_writes (fst (hp_call gr fr cfg txn1 o e1 s1 (hc_heap c)))).
Proof.
  intros gr fr c evs cfg txn1 txn2 o e1 s1 e2 s2 Ho.
  apply repeat_same_body; [apply args_caller_wf, Ho|apply run_frame].
Qed.

(* T2 (results). A call stores only into arrays it allocates itself
   (c18_memory_untouched), and whatever it returns lives in such an array:
   allocated during this call, never earlier *)
Theorem c18_results_allocated_by_the_call : forall gr fr cfg txn o e s h,
  Forall (allocated_between h (snd (hp_call gr fr cfg txn o e s h)))
         (hv_slices (hr_res (fst (hp_call gr fr cfg txn o e s h)))).
Proof.
  intros gr fr cfg txn o e s h. eapply Forall_impl; [|apply call_frame]. intros t [_ Ht]. exact Ht.
Qed.

(* hence, for every history of calls (any operations, settings, replies) and
   caller allocations on one client: every slice returned so far reads the
   same - contents and spare capacity - after any number of later events *)
Theorem c18_results_stable : forall gr fr h0 txn0 left0 evs1 evs2 r,
  let c1 := hp_run gr fr (mkhc h0 txn0 left0 []) evs1 in
  let c2 := hp_run gr fr c1 evs2 in
  In r (hc_results c1) ->
  slice_untouched (hc_heap c1) (hc_heap c2) r.
Proof.
  intros gr fr h0 txn0 left0 evs1 evs2 r c1 c2 Hr. apply keeps_slice_untouched; [apply run_frame|].
  exact (proj1 (Forall_forall _ _) (hp_run_inv gr fr evs1 (mkhc h0 txn0 left0 []) (Forall_nil _)) r Hr).
Qed.

(* Finding F4. The pinned upstream writeBytes (no copy) violates T1:
   WriteBytes under little endian swaps the caller's bytes in place
   ([1;2;3;4] becomes [2;1;4;3]); WriteRawBytes of an odd number of bytes
   with spare capacity leaves the contents alone but writes the pad byte
   into the caller's array beyond the slice ([9;1;2;3;7;8] -> [9;1;2;3;0;8]) *)
Theorem c18_pinned_refuted :
  (exists h t cfg, caller_slice h t /\
     ~ slice_untouched h (snd (hp_call_pinned (fun _ => 0%nat) FMbap cfg 0 (HpWriteBytes false 5 t) Stall [] h)) t) /\
  (exists h t cfg, caller_slice h t /\
     spec_contents (snd (hp_call_pinned (fun _ => 0%nat) FRtu cfg 0 (HpWriteBytes true 5 t) Stall [] h)) t =
       spec_contents h t /\
     spec_room (snd (hp_call_pinned (fun _ => 0%nat) FRtu cfg 0 (HpWriteBytes true 5 t) Stall [] h)) t <>
       spec_room h t).
Proof.
  split.
  - exists [[1; 2; 3; 4]], (mkhs 0 0 4 4), (mkcfg 1 LittleE HighFirst). split.
    + split; [cbn; lia|right]. exists [1; 2; 3; 4]. split; [reflexivity|cbn; lia].
    + intros [H _]. vm_compute in H. discriminate H.
  - exists [[9; 1; 2; 3; 7; 8]], (mkhs 0 1 3 4), (mkcfg 1 BigE HighFirst). split; [|split].
    + split; [cbn; lia|right]. exists [9; 1; 2; 3; 7; 8]. split; [reflexivity|cbn; lia].
    + vm_compute. reflexivity.
    + vm_compute. intros H. discriminate H.
Qed.

(* the two witnesses, evaluated *)
Example c18_pinned_swap_witness :
  nth_error (snd (hp_call_pinned (fun _ => 0%nat) FMbap (mkcfg 1 LittleE HighFirst) 0
                    (HpWriteBytes false 5 (mkhs 0 0 4 4)) Stall [] [[1; 2; 3; 4]])) 0 = Some [2; 1; 4; 3].
Proof. vm_compute. reflexivity. Qed.

Example c18_pinned_pad_witness :
  nth_error (snd (hp_call_pinned (fun _ => 0%nat) FRtu (mkcfg 1 BigE HighFirst) 0
                    (HpWriteBytes true 5 (mkhs 0 1 3 4)) Stall [] [[9; 1; 2; 3; 7; 8]])) 0
  = Some [9; 1; 2; 3; 0; 8].
Proof. vm_compute. reflexivity. Qed.

(* non-vacuity. The fixed call on the first witness: the array is left alone
   and the swapped bytes are on the wire *)
Example c18_ex_fixed :
  let '(r, h') := hp_call hp_gr_double FMbap (mkcfg 1 LittleE HighFirst) 0
                    (HpWriteBytes false 5 (mkhs 0 0 4 4)) Stall [] [[1; 2; 3; 4]] in
  nth_error h' 0 = Some [1; 2; 3; 4] /\
  hr_writes r = [[0; 1; 0; 0; 0; 11; 1; 16; 0; 5; 0; 2; 4; 2; 1; 4; 3]].
Proof. vm_compute. split; reflexivity. Qed.

(* a history: ReadBytes (little endian, odd quantity: swapped in place in the
   receive buffer and cut) returns a slice; the caller passes it to
   WriteBytes; a second read follows; the first result still reads the same *)
Example c18_ex_history :
  let cfg := mkcfg 1 LittleE HighFirst in
  let reply1 := [0; 1; 0; 0; 0; 7; 1; 3; 4; 0x0a; 0x0b; 0x0c; 0x0d] in
  let reply2 := [0; 3; 0; 0; 0; 5; 1; 3; 2; 0xee; 0xff] in
  let c1 := hp_run hp_gr_double FMbap (mkhc [] 0 [] [])
              [HeCall cfg (HpOther (OpReadBytes false 0 3 Holding)) Stall reply1] in
  match hc_results c1 with
  | [r] =>
      h_read r (hc_heap c1) = [0x0b; 0x0a; 0x0d] /\
      let c2 := hp_run hp_gr_double FMbap c1
                  [HeCall cfg (HpWriteBytes false 7 r) Stall [];
                   HeCall cfg (HpOther (OpReadBytes false 0 2 Holding)) Stall reply2] in
      length (hc_results c2) = 2%nat /\ h_read r (hc_heap c2) = [0x0b; 0x0a; 0x0d] /\
      hc_txn c2 = 3
  | _ => False
  end.
Proof. vm_compute. repeat split; reflexivity. Qed.

Print Assumptions c18_memory_untouched.
Print Assumptions c18_argument_untouched.
Print Assumptions c18_wire_bytes.
Print Assumptions c18_repeat_same_bytes.
Print Assumptions c18_repeat_after_history.
Print Assumptions c18_results_allocated_by_the_call.
Print Assumptions c18_results_stable.
Print Assumptions c18_pinned_refuted.
