(* C11, clause "a stalled connection does not delay the others", lock side: the
   server never waits for a peer while it holds ms.lock. The operations that can
   wait for a peer, the user's handler or another goroutine (Accept, ReadRequest,
   WriteResponse, the TLS handshake, handler calls, sleeps, channel operations)
   are AWait actions of the lock skeleton GENERATED from server.go
   (Gen/ServerLocks.v); the discipline check rejects a wait made while the mutex
   is held. Same generic theorems as C08 / C10b (Proofs/ConcP.v). *)
From Coq Require Import List Bool String Arith.
Import ListNotations.
From Modbus Require Import Model.Conc Proofs.ConcP Proofs.GenLocksP Gen.ServerLocks.
Local Open Scope string_scope.
Local Open Scope list_scope.

Theorem c11b_table_wb : cc_table_wb server_programs cc_fuel server_entries = true.
Proof. exact server_programs_wb. Qed.

(* any number of goroutines running Start / Stop / accept loops / sessions, any
   interleaving: a goroutine that performs a wait does not hold ms.lock *)
Theorem c11b_wait_without_lock : forall prog ps e1 i w e2 c,
  cc_runs_table server_programs server_entries prog ps ->
  cc_exec (cc_init ps) (e1 ++ (i, AWait w) :: e2) c ->
  exists c1, cc_exec (cc_init ps) e1 c1 /\ cc_holds c1 i = false.
Proof.
  intros prog ps e1 i w e2 c Hr.
  apply cc_wait_not_holder, (tb_good _ _ server_programs_wb _ _ Hr).
Qed.

(* in every reachable configuration the next action of the goroutine that
   holds ms.lock is not a wait: it can go on to its Unlock without any peer *)
Theorem c11b_holder_not_waiting : forall prog ps evs c i th w r,
  cc_runs_table server_programs server_entries prog ps ->
  cc_exec (cc_init ps) evs c -> nth_error c i = Some th -> ct_holds th = true ->
  ct_rem th <> AWait w :: r.
Proof.
  intros prog ps evs c i th w r Hr.
  apply cc_holder_not_waiting, (tb_good _ _ server_programs_wb _ _ Hr).
Qed.

Theorem c11b_generic_wait : forall ps e1 i w e2 c, cc_good ps ->
  cc_exec (cc_init ps) (e1 ++ (i, AWait w) :: e2) c ->
  exists c1, cc_exec (cc_init ps) e1 c1 /\ cc_holds c1 i = false.
Proof. exact cc_wait_not_holder. Qed.

(* the check is not vacuous: a wait under the mutex is rejected, flat and structured *)
Example c11b_ex_rejected :
  cc_swb false [ALock; AWait "WriteResponse"; AUnlock] = None /\
  cc_swb false [ALock; ARd "tcpClients"; AUnlock; AWait "WriteResponse"] = Some false /\
  cc_table_wb [mk_cmethod "m" false (SSeq [SAct ALock; SAct (AWait "WriteResponse"); SAct AUnlock])]
              cc_fuel ["m"] = false.
Proof. vm_compute. repeat split; reflexivity. Qed.

(* the generated skeleton does contain the waits of the accept loop and of a session *)
Example c11b_ex_waits :
  cc_method_mentions server_programs "acceptTCPClients" (AWait "Accept") = true /\
  cc_method_mentions server_programs "handleTransport" (AWait "ReadRequest") = true /\
  cc_method_mentions server_programs "handleTransport" (AWait "WriteResponse") = true /\
  cc_method_mentions server_programs "handleTransport" (AWait "handler.HandleCoils") = true /\
  cc_method_mentions server_programs "handleTransport" (AWait "handler.HandleHoldingRegisters") = true.
Proof. vm_compute. repeat split; reflexivity. Qed.

(* a miniature session: wait for a request, touch the shared list under the
   mutex, answer. Its path is well bracketed and contains both waits; two such
   goroutines interleave freely - one waits for its peer while the other holds
   the mutex - but the holder itself is never the one waiting *)
Definition c11b_mini : ctable :=
  [mk_cmethod "serve" false
     (SSeq [SAct (AWait "ReadRequest"); SAct ALock; SAct (ARd "tcpClients"); SAct AUnlock;
            SAct (AWait "WriteResponse")])].
Example c11b_ex_mini :
  cc_table_wb c11b_mini cc_fuel ["serve"] = true /\
  cc_fp_thread c11b_mini cc_fuel ["serve"] =
    Some [AWait "ReadRequest"; ALock; ARd "tcpClients"; AUnlock; AWait "WriteResponse"] /\
  let p := [AWait "ReadRequest"; ALock; ARd "tcpClients"; AUnlock; AWait "WriteResponse"] in
  cc_flat_wb p /\
  (exists c, cc_exec (cc_init [p; p])
     [(0, AWait "ReadRequest"); (0, ALock); (1, AWait "ReadRequest"); (0, ARd "tcpClients");
      (0, AUnlock); (1, ALock); (0, AWait "WriteResponse")] c /\ cc_holds c 1 = true) /\
  cc_run (cc_init [[ALock; AWait "WriteResponse"; AUnlock]]) [(0, ALock); (0, AWait "WriteResponse")] <> None /\
  ~ cc_flat_wb [ALock; AWait "WriteResponse"; AUnlock].
Proof.
  split; [vm_compute; reflexivity|]. split; [vm_compute; reflexivity|]. cbv zeta.
  split; [vm_compute; reflexivity|]. split; [eexists; split; vm_compute; reflexivity|].
  split; [vm_compute; discriminate|].
  unfold cc_flat_wb. vm_compute. discriminate.
Qed.

Print Assumptions c11b_table_wb.
Print Assumptions c11b_wait_without_lock.
Print Assumptions c11b_holder_not_waiting.
Print Assumptions c11b_generic_wait.
