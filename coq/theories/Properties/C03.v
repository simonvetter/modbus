(* C03 - Server validates, dispatches and answers every request per spec.
   The lemmas are in Proofs/ServerP.v, Proofs/EncodingP.v and
   Proofs/MbapServerP.v. The vocabulary (pdu_wf, handler_wf, spec_session) is in
   Spec/ServerSessionSpec.v, the per-request specification (spec_decode,
   spec_response, err_fc, spec_mbap) in Spec/ServerSpec.v. *)
From Modbus Require Import Base.Bytes Model.Encoding Model.Wire Model.Server
  Spec.ModbusSpec Spec.ServerSpec Spec.ServerSessionSpec Proofs.ServerP.

Section C03.
  Context {St : Type} (h : handler St).

  (* T2-T5, per frame, for every handler: a valid supported request causes
     exactly one invocation with the decoded fields and exactly the specified
     response (data, mapped exception, or exception 4 on a wrong-sized result);
     a range past 0xFFFF gets exception 2 without a call; an unsupported
     function code gets exception 1 without a call; malformed requests of a
     supported code never reach the handler and are rejected by closing the
     link or by an exception 2. (The statement also allows exception 3 there;
     Model/Server.v never builds it, the disjunct is slack.)
     The function code of an exception response is err_fc fc, the request's
     code with the error bit 0x80 set (= fc + 128 for every fc < 128, see
     c03_err_fc below). *)
  Theorem c03_process_spec : forall st p, pdu_wf p -> handler_wf h ->
    let '(st', calls, act) := server_process h st p in
    match spec_decode p with
    | Some r =>
        if in_range r
        then calls = [r] /\ hreq_ok r /\ st' = fst (h st r) /\
             act = Respond (spec_response p r (snd (h st r)))
        else calls = [] /\ st' = st /\ act = Respond (mkpdu (p_unit p) (err_fc (p_fc p)) [2])
    | None =>
        calls = [] /\ st' = st /\
        if supported_fc (p_fc p)
        then act = CloseLink \/ act = Respond (mkpdu (p_unit p) (err_fc (p_fc p)) [2])
             \/ act = Respond (mkpdu (p_unit p) (err_fc (p_fc p)) [3])
        else act = Respond (mkpdu (p_unit p) (err_fc (p_fc p)) [1])
    end.
  Proof. exact (server_process_spec h). Qed.

  (* T1 / pipelining: complete frames are handled strictly in order, each
     answered exactly once with its own transaction id, protocol id 0 and
     unit id; nothing follows a close *)
  Theorem c03_pipelined : forall frames tail st e,
    Forall (fun f => fst f < 65536 /\ pdu_wf (snd f)) frames ->
    server_run h st e (concat (map (fun f => spec_mbap (fst f) (snd f)) frames) ++ tail) =
    spec_session h st frames (fun st' => server_run h st' e tail).
  Proof. exact (server_pipelined h). Qed.

  (* T5: a header that is cut short, announces a length outside 2..254 or a
     non-zero protocol id, or a body that is cut short: no call, session closed *)
  Theorem c03_bad_header : forall st e s, bytesb s = true ->
    (forall t p rest, t < 65536 -> pdu_wf p -> s <> spec_mbap t p ++ rest) ->
    server_run h st e s = [EvClosed].
  Proof.
    intros st e s Hb Hno. unfold server_run. cbn [server_session].
    destruct (read_mbap e s) as [[p t|x] rest] eqn:Er; [|reflexivity].
    apply MbapServerP.read_mbap_ok_inv in Er; [|exact Hb]. destruct Er as (Hs & Ht & Hp & _).
    exfalso. exact (Hno t p rest Ht Hp Hs).
  Qed.

  (* T3: whatever the byte stream, a handler only ever sees in-range,
     within-limit requests whose Args match the quantity *)
  Theorem c03_calls_valid : forall st e s r, bytesb s = true -> handler_wf h ->
    In (EvCall r) (server_run h st e s) -> hreq_ok r.
  Proof.
    intros st e s r Hb Hwf Hin.
    destruct (session_events h (fun ev => match ev with EvCall r => hreq_ok r | _ => True end)
                (fun s => bytesb s = true)) with (f := S (length s)) (st := st) (e := e) (s := s)
      as (evs & E & Hevs); [|exact Hb|].
    - intros st0 e0 s0 p t rest Hs0 Er. apply MbapServerP.read_mbap_ok_inv in Er; [|exact Hs0].
      destruct Er as (_ & _ & Hp & Hrest). split; [exact Hrest|]. split; [|intros; exact I].
      pose proof (server_process_spec h st0 p Hp Hwf) as HS. unfold process_ok in HS.
      destruct (server_process h st0 p) as [[st' calls] act]. cbn [fst snd].
      destruct (spec_decode p) as [r0|]; [destruct (in_range r0)|]; destruct HS as (-> & HS); [|constructor..].
      constructor; [apply HS|constructor].
    - unfold server_run in Hin. rewrite E in Hin. apply in_app_or in Hin.
      destruct Hin as [Hin|[Hin|[]]]; [|discriminate Hin].
      rewrite Forall_forall in Hevs. exact (Hevs _ Hin).
  Qed.

  (* T6: responses fit the maximum frame size (the two hypotheses are not
     needed: the proof discards them) *)
  Theorem c03_responses_bounded : forall st e s f, bytesb s = true -> handler_wf h ->
    In (EvResp f) (server_run h st e s) -> lenN f <= 260.
  Proof.
    intros st e s f _ _ Hin.
    destruct (session_events h (fun ev => match ev with EvResp f => lenN f <= 260 | _ => True end)
                (fun _ => True)) with (f := S (length s)) (st := st) (e := e) (s := s)
      as (evs & E & Hevs); [|exact I|].
    - intros st0 e0 s0 p t rest _ _. split; [exact I|]. split.
      + apply Forall_forall. intros ev Hev. apply in_map_iff in Hev. destruct Hev as (r & <- & _). exact I.
      + intros res Hres. pose proof (server_process_resp_len h st0 p) as HL. rewrite Hres in HL.
        rewrite assemble_len. lia.
    - unfold server_run in Hin. rewrite E in Hin. apply in_app_or in Hin.
      destruct Hin as [Hin|[Hin|[]]]; [|discriminate Hin].
      rewrite Forall_forall in Hevs. exact (Hevs _ Hin).
  Qed.

  Theorem c03_closed_last : forall st e s,
    exists evs, server_run h st e s = evs ++ [EvClosed] /\ ~ In EvClosed evs.
  Proof.
    intros st e s.
    destruct (session_events h (fun ev => ev <> EvClosed) (fun _ => True)) with
      (f := S (length s)) (st := st) (e := e) (s := s) as (evs & E & Hevs); [|exact I|].
    - intros st0 e0 s0 p t rest _ _. split; [exact I|]. split; [|discriminate].
      apply Forall_forall. intros ev Hev. apply in_map_iff in Hev. destruct Hev as (r & <- & _). discriminate.
    - exists evs. split; [exact E|]. rewrite Forall_forall in Hevs. intros Hin. exact (Hevs _ Hin eq_refl).
  Qed.
End C03.

Theorem c03_err_fc : forall fc, fc < 128 -> err_fc fc = fc + 128.
Proof. exact err_fc_small. Qed.

(* no panic: the two branches of server_process that stand for an
   out-of-range index in decodeBools / bytesToUint16s (write multiple coils /
   registers) are unreachable behind the length and byte-count checks. The two
   guards are copied from the function code 15 and 16 branches of
   server_process (Model/Server.v), to be compared by eye; the third test of
   these branches, on the byte count field nth 4 pl 0, is not needed. *)
Theorem c03_decode_never_fails : forall pl,
  (length pl <? 6)%nat = false ->
  let qty := be_word (skipn 2 pl) in
  (negb (lenN pl - 5 =? qty / 8 + (if qty mod 8 =? 0 then 0 else 1)) = false ->
   decode_bools (N.to_nat qty) (skipn 5 pl) <> None) /\
  (negb (lenN pl - 5 =? qty * 2) = false ->
   bytes_to_u16s BigE (skipn 5 pl) <> None).
Proof.
  intros pl Hlen qty. remember qty as q eqn:Hq. clear Hq qty. rewrite ceil8.
  assert (Hsk : length (skipn 5 pl) = (length pl - 5)%nat) by apply skipn_length.
  unfold lenN. split; intros Hc.
  - destruct (decode_bools_total (N.to_nat q) (skipn 5 pl)) as [l Hl]; [lia|congruence].
  - destruct (EncodingP.bytes_to_u16s_total BigE (skipn 5 pl)) as [vs [Hvs _]]; [|congruence].
    rewrite Hsk. replace (length pl - 5)%nat with (2 * N.to_nat q)%nat by lia.
    rewrite Nat.even_mul. reflexivity.
Qed.

(* the hypotheses are satisfiable *)
Definition c03_example_handler : handler N :=
  fun st r => (st + 1, mkhres (repeat true (N.to_nat (h_qty r))) (repeat 7 (N.to_nat (h_qty r))) HNone).

Example c03_handler_wf_sat : handler_wf c03_example_handler.
Proof.
  intros st r. cbn [c03_example_handler snd r_regs r_err]. split.
  - apply Forall_forall. intros v Hv. apply repeat_spec in Hv. subst v. reflexivity.
  - intros c Hc. discriminate Hc.
Qed.

Example c03_pdu_wf_sat : pdu_wf (mkpdu 1 3 [0; 16; 0; 2]).
Proof. unfold pdu_wf. cbn. repeat split; try reflexivity; discriminate. Qed.

Example c03_session_example :
  server_run c03_example_handler 0 Closed
    (spec_mbap 7 (mkpdu 1 3 [0; 16; 0; 2]) ++ spec_mbap 8 (mkpdu 1 0x2B [14]) ++ [0; 9]) =
  [EvCall (mkhreq HHolding 1 16 2 false [] []);
   EvResp (spec_mbap 7 (mkpdu 1 3 [4; 0; 7; 0; 7]));
   EvResp (spec_mbap 8 (mkpdu 1 0xAB [1]));
   EvClosed].
Proof. vm_compute. reflexivity. Qed.

Example c03_bad_header_sat : forall t p rest, t < 65536 -> pdu_wf p -> @nil N <> spec_mbap t p ++ rest.
Proof. intros t p rest _ _. unfold spec_mbap, be16. cbn [app]. discriminate. Qed.

Print Assumptions c03_process_spec.
Print Assumptions c03_pipelined.
Print Assumptions c03_bad_header.
Print Assumptions c03_calls_valid.
Print Assumptions c03_responses_bounded.
Print Assumptions c03_closed_last.
Print Assumptions c03_err_fc.
Print Assumptions c03_decode_never_fails.
