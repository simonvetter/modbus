(* C19 - RTU timing follows the serial-line specification.
   Statements, each with the last step of its proof; the lemmas are in
   Proofs/TimingP.v. Times are integer nanoseconds (Go's time.Duration), rates
   are bits per second. *)
From Modbus Require Import Base.Bytes Model.Timing Spec.TimingSpec Proofs.TimingP.
Local Open Scope Z_scope.

(* T1: for every rate the character time is eleven bit times, to the
   nanosecond: char_time r = floor (11 * 10^9 / r). (The statements below
   are over the rates of the property, 1 .. 10^7; the upper bound is needed
   only where both delays must be positive or fit int64: c19_no_overflow,
   c19_silence_rate.) *)
Theorem c19_char_time : forall r, 1 <= r -> r <= 10000000 ->
  char_time r = (11 * 1000000000) / r /\
  11 * 1000000000 - r < char_time r * r /\ char_time r * r <= 11 * 1000000000.
Proof.
  intros r H1 _. split; [apply char_time_div; lia | apply char_time_floor; exact H1].
Qed.

(* the same, against the declarative rule of Spec/TimingSpec.v *)
Theorem c19_char_time_spec : forall r, 1 <= r -> r <= 10000000 -> char_time_ok r (char_time r).
Proof. intros r H1 _. exact (char_time_spec r H1). Qed.

(* T2: below 19200 bps the inter-frame delay is 3.5 character times rounded
   down to the nanosecond ... *)
Theorem c19_t35_low : forall r, 1 <= r -> r < 19200 ->
  t35 r = (char_time r * 35) / 10 /\
  10 * t35 r <= 35 * char_time r /\ 35 * char_time r < 10 * t35 r + 10.
Proof.
  intros r H1 H2. split; [apply t35_low_div; lia|].
  destruct (t35_spec r H1) as [Hlow _]. specialize (Hlow H2). lia.
Qed.

(* ... which is never above and less than 4.5 ns below the exact value
   38.5 * 10^9 / r (inequalities multiplied by 2 r):
   77 * 10^9 - 9 r < 2 * t35 r * r <= 77 * 10^9 *)
Theorem c19_t35_low_exact : forall r, 1 <= r -> r < 19200 ->
  2 * t35 r * r <= 77 * 1000000000 /\ 77 * 1000000000 - 9 * r < 2 * t35 r * r.
Proof.
  intros r Hr Hlt.
  destruct (char_time_floor r Hr) as [Hc1 Hc2].
  destruct (t35_spec r Hr) as [Hlow _]. destruct (Hlow Hlt) as [Hd1 Hd2].
  set (c := char_time r) in *. set (d := t35 r) in *.
  (* 10 d r <= 35 c r <= 35 A   and   10 d r > 35 c r - 10 r > 35 (A - r) - 10 r *)
  assert (H1 : 10 * d * r <= 35 * c * r) by nia.
  assert (H2 : 35 * c * r < 10 * (d + 1) * r) by nia.
  split; nia.
Qed.

(* from 19200 bps upward it is 1750 microseconds *)
Theorem c19_t35_high : forall r, 19200 <= r -> r <= 10000000 -> t35 r = 1750 * 1000.
Proof. intros r H1 _. exact (t35_high r H1). Qed.

(* both rules as the declarative predicate, and its boolean form used by the
   correspondence check *)
Theorem c19_t35_spec : forall r, 1 <= r -> r <= 10000000 -> t35_ok r (char_time r) (t35 r).
Proof. intros r H1 _. exact (t35_spec r H1). Qed.

Theorem c19_spec_decides : forall r c d,
  timing_okb r c d = true <-> char_time_ok r c /\ t35_ok r c d.
Proof. exact timing_okb_iff. Qed.

(* the rules leave no freedom: numbers that satisfy them are the model's *)
Theorem c19_spec_unique : forall r c d, 1 <= r -> char_time_ok r c -> t35_ok r c d ->
  c = char_time r /\ d = t35 r.
Proof.
  intros r c d Hr [Hc1 Hc2] [Hlo Hhi].
  destruct (char_time_spec r Hr) as [Hm1 Hm2].
  assert (Hc : c = char_time r) by nia.
  split; [exact Hc|]. subst c.
  destruct (t35_spec r Hr) as [Mlo Mhi].
  destruct (Z_lt_ge_dec r 19200) as [Hlt|Hge].
  - specialize (Hlo Hlt). specialize (Mlo Hlt). lia.
  - rewrite (Hhi ltac:(lia)), (Mhi ltac:(lia)). reflexivity.
Qed.

(* Go computes in int64: no intermediate value overflows for these rates, so
   the model's unbounded integers are the machine's values *)
Theorem c19_no_overflow : forall r, 1 <= r -> r <= 10000000 ->
  11 * second_ns <= int64_max /\ r <= int64_max /\
  0 <= char_time r <= int64_max /\
  0 <= char_time r * 35 <= int64_max /\
  0 <= t35 r <= int64_max /\
  (forall n, 0 <= n <= 256 -> 0 <= n * char_time r <= int64_max).
Proof. exact timing_no_overflow. Qed.

(* T3: for every history of exchanges, every initial state and every
   admissible clock behaviour (non-negative delays, Sleep d takes at least d):
   a request never starts being transmitted earlier than t35 after the end of
   any earlier frame: the arrival of the last byte of a reply that was heard
   (frame_end = rx_end, not later than the instant the code stamps), or the
   estimated end ts + n * t1 of a transmission that got no reply. *)
Theorem c19_silence : forall t1 t35 xs s, 0 <= t1 -> 0 <= t35 -> Forall admissible xs ->
  ForallOrdPairs
    (fun e1 e2 => forall f, frame_end e1 = Some f -> f + t35 <= ev_tx_start e2)
    (run t1 t35 s xs).
Proof. intros. apply run_silence; assumption. Qed.

(* the same by position, at the delays computed for a rate of the property;
   in particular for consecutive exchanges j = i + 1 *)
Theorem c19_silence_rate : forall r xs s i j e1 e2 f,
  1 <= r -> r <= 10000000 -> Forall admissible xs -> (i < j)%nat ->
  nth_error (run (char_time r) (t35 r) s xs) i = Some e1 ->
  nth_error (run (char_time r) (t35 r) s xs) j = Some e2 ->
  frame_end e1 = Some f -> f + t35 r <= ev_tx_start e2.
Proof. exact run_silence_rate. Qed.

(* one step of the invariant: what the induction carries *)
Theorem c19_exchange_invariant : forall t1 t35 s x s' e,
  0 <= t1 -> 0 <= t35 -> admissible x -> exchange t1 t35 s x = (s', e) ->
  last_activity s + t35 <= ev_tx_start e /\
  last_activity s <= last_activity s' /\
  (forall f, frame_end e = Some f -> f <= last_activity s') /\
  clock s <= clock s'.
Proof. exact exchange_facts. Qed.

(* a heard reply: the instant the theorem calls the end of the received frame
   is not later than the instant the code stamps *)
Theorem c19_heard : forall t1 t35 s x s' e,
  0 <= t1 -> 0 <= t35 -> admissible x -> x_out x = Heard -> exchange t1 t35 s x = (s', e) ->
  frame_end e = Some (ev_rx_end e) /\ ev_rx_end e <= last_activity s' /\
  last_activity s' = clock s' /\ ev_tx_end e + t35 <= clock s'.
Proof. exact exchange_heard. Qed.

Theorem c19_run_outcomes : forall t1 t35 xs s, map ev_out (run t1 t35 s xs) = map x_out xs.
Proof. intros t1 t35 xs s. apply run_outcomes. Qed.

(* non-vacuity: concrete values, and a history that satisfies the hypotheses *)
Example c19_ex_9600 : char_time 9600 = 1145833 /\ t35 9600 = 4010415.
Proof. split; reflexivity. Qed.
Example c19_ex_19199 : char_time 19199 = 572946 /\ t35 19199 = 2005311.
Proof. split; reflexivity. Qed.
Example c19_ex_19200 : char_time 19200 = 572916 /\ t35 19200 = 1750000.
Proof. split; reflexivity. Qed.
Example c19_ex_spec : timing_okb 9600 1145833 4010415 = true /\ timing_okb 9600 1145833 4010416 = false.
Proof. split; reflexivity. Qed.

(* a reply heard early, a reply heard late, a timeout, a failed write, a reply *)
Definition c19_ex_history : list xchg :=
  [ mk_xchg 8 Heard 0 10 20 30 40 500 100 7;
    mk_xchg 8 Heard 5 0 0 0 0 9000000 0 0;
    mk_xchg 8 Silent 0 3 3 3 3 300000000 0 0;
    mk_xchg 8 WriteFail 1 1 1 1 0 0 0 0;
    mk_xchg 13 Heard 0 0 0 0 0 0 0 0 ].
Example c19_ex_admissible : Forall admissible c19_ex_history.
Proof. repeat constructor; cbn; lia. Qed.
Example c19_ex_run :
  map (fun e => (ev_tx_start e, frame_end e))
      (run (char_time 9600) (t35 9600) (mk_tstate 0 (-1000000000000)) c19_ex_history)
  = [ (30, Some 13177529); (17188051, Some 39365130); (43375551, Some 52542212);
      (356552633, None); (356552634, Some 375458878) ].
Proof. vm_compute. reflexivity. Qed.

Print Assumptions c19_char_time.
Print Assumptions c19_char_time_spec.
Print Assumptions c19_t35_low.
Print Assumptions c19_t35_low_exact.
Print Assumptions c19_t35_high.
Print Assumptions c19_t35_spec.
Print Assumptions c19_spec_decides.
Print Assumptions c19_spec_unique.
Print Assumptions c19_no_overflow.
Print Assumptions c19_silence.
Print Assumptions c19_silence_rate.
Print Assumptions c19_exchange_invariant.
Print Assumptions c19_heard.
Print Assumptions c19_run_outcomes.
