(* C06 - second and third clause over SESSIONS: behind a line that damages some
   replies, a damaged reply the transport rejects is reported as that error,
   the line is clean afterwards, and every reply that arrives intact is a
   success with its own values, wherever the damage occurs. (Error patterns:
   c06_never_success; the gap, finding F8: c06_recovery_refuted; both in C06b.v.) *)
From Modbus Require Import Base.Bytes Model.Crc Model.Encoding Model.Wire Model.Client Model.RtuSeq
  Model.RtuSeqBad Spec.ModbusSpec Spec.ClientSpec Spec.RtuSeqSpec
  Proofs.CrcP Proofs.RtuRecoveryP Proofs.RtuSeqBadP.

(* the outcomes of every such session; nothing is ever left on the line *)
Theorem c06_session_recovery : forall steps cfg outs,
  cfg_wf cfg -> rb_session cfg steps outs ->
  map cr_res (rtuseqbad_run cfg steps) = outs /\
  Forall (fun r => cr_rest r = []) (rtuseqbad_run cfg steps).
Proof. exact rtuseqbad_recovers. Qed.

(* the per-call demand the check evaluates on the real client's results
   (computed from the session alone) is what those outcomes say: the values of
   the reply that arrived intact, no success for the damaged one *)
Theorem c06_session_demands : forall steps cfg outs,
  cfg_wf cfg -> rb_session cfg steps outs ->
  rtuseqbad_demands cfg steps = map rb_demand_of outs.
Proof. exact rtuseqbad_demands_spec. Qed.

(* any CRC field that does not match is such a rejection *)
Theorem c06_session_bad_crc_field : forall unit fc b2 data lo hi,
  expected_len fc b2 = Some (lenN data) -> lenN data <= 251 ->
  crc_is_equal (crc16 ([unit; fc; b2] ++ data)) lo hi = false ->
  rb_rejected (([unit; fc; b2] ++ data) ++ [lo; hi]) EBadCRC.
Proof.
  intros unit fc b2 data lo hi He Hl Hc. split.
  - rewrite !app_length. cbn [length]. unfold lenN in Hl. lia.
  - exists []. split; [|left; reflexivity].
    pose proof (read_rtu_bad_crc Stall unit fc b2 data lo hi [] He Hl Hc) as H.
    rewrite app_nil_r in H. unfold rtu_read_response. rewrite H. reflexivity.
Qed.

(* non-vacuity: three polls of the same two registers, the device's data differ
   from reply to reply, one bit of the first reply is flipped on the line *)
Definition c06e_cfg := mkcfg 1 BigE HighFirst.
Definition c06e_op := OpReadRegs 1 0 2 Holding.
Definition c06e_r1 := spec_frame FRtu 0 (mkpdu 1 3 [4; 0; 1; 0; 2]).
Definition c06e_r2 := spec_frame FRtu 0 (mkpdu 1 3 [4; 0; 3; 0; 4]).
Definition c06e_r3 := spec_frame FRtu 0 (mkpdu 1 3 [4; 0; 5; 0; 6]).
Definition c06e_session :=
  [RbCall c06e_op c06e_r1 (xor_bytes c06e_r1 [0; 0; 0; 0; 1; 0; 0; 0; 0]);
   RbCall c06e_op c06e_r2 c06e_r2;
   RbCall c06e_op c06e_r3 c06e_r3].

Example c06_ex_session_recovery :
  map cr_res (rtuseqbad_run c06e_cfg c06e_session) =
  [Err EBadCRC; Ok (VNums [3; 4]); Ok (VNums [5; 6])].
Proof. vm_compute. reflexivity. Qed.

(* the hypothesis of c06_session_recovery is satisfiable (by that session) *)
Example c06_ex_session_hyp :
  rb_session c06e_cfg c06e_session [Err EBadCRC; Ok (VNums [3; 4]); Ok (VNums [5; 6])].
Proof.
  assert (W : op_wf c06e_op).
  { cbn [c06e_op op_wf]. split; [left; reflexivity|]. split; reflexivity. }
  assert (Ans : forall a b, (a = 1 /\ b = 2) \/ (a = 3 /\ b = 4) \/ (a = 5 /\ b = 6) ->
            answers c06e_cfg c06e_op (mkpdu 1 3 [4; 0; a; 0; b]) (VNums [a; b])).
  { intros a b H. split; [reflexivity|]. split; [reflexivity|].
    exists [a; b]. split.
    - destruct H as [[-> ->]|[[-> ->]|[-> ->]]]; vm_compute; reflexivity.
    - split; [reflexivity|]. split; [|reflexivity].
      change (2 ^ (16 * 1)) with 65536. repeat constructor; lia. }
  cbn [rb_session c06e_session].
  split; [exact W|]. split; [reflexivity|]. split.
  { exists (mkpdu 1 3 [4; 0; 1; 0; 2]), (VNums [1; 2]).
    split; [reflexivity|]. split; [apply Ans; tauto|]. split; [reflexivity|].
    right. exists EBadCRC. split; [|reflexivity].
    split; [vm_compute; lia|]. exists []. split; [vm_compute; reflexivity|left; reflexivity]. }
  split; [exact W|]. split; [reflexivity|]. split.
  { exists (mkpdu 1 3 [4; 0; 3; 0; 4]), (VNums [3; 4]).
    split; [reflexivity|]. split; [apply Ans; tauto|]. split; [reflexivity|].
    left. split; reflexivity. }
  split; [exact W|]. split; [reflexivity|]. split.
  { exists (mkpdu 1 3 [4; 0; 5; 0; 6]), (VNums [5; 6]).
    split; [reflexivity|]. split; [apply Ans; tauto|]. split; [reflexivity|].
    left. split; reflexivity. }
  reflexivity.
Qed.

Print Assumptions c06_session_recovery.
Print Assumptions c06_session_demands.
Print Assumptions c06_session_bad_crc_field.
