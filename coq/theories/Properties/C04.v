(* C04 - Typed values survive the client-server round trip in the documented
   layout. Statements, each with the last step of its proof; the lemmas are in
   Proofs/E2EP.v and Proofs/ServerP.v. The register file is Spec/RegFile.v
   (written from the README layout), the composition of the client model, the
   MBAP framing, the server model and the memory-backed handler is Model/E2E.v. *)
From Modbus Require Import Base.Bytes Base.Cells Model.Encoding Model.Wire Model.Client Model.Server
  Spec.ModbusSpec Spec.ClientSpec Spec.ServerSpec Spec.ServerSessionSpec Spec.RegFile Model.E2E
  Proofs.E2EP.

(* T1, refinement of one step. For every configuration (unit id below 256,
   either byte order, either word order), every memory holding 16-bit
   registers, every transaction counter, every operation of a history (a
   typed call with arguments of its Go types, SetUnitId, SetEncoding with any
   selectors) and every failure policy of the handler (Modbus errors are
   documented ones): the composition and the register file agree on the new
   configuration and memory, on what the caller sees and on the handler
   invocations; and the invariant (e2e_wf: registers below 65536, counter
   below 65536, no unread response bytes) is preserved. *)
Theorem c04_step : forall fail s x, e2e_wf s -> rf_op_wf x -> rf_fail_wf fail ->
  (e2e_view (fst (e2e_step fail s x)), snd (e2e_step fail s x)) = rf_step fail (e2e_view s) x /\
  e2e_wf (fst (e2e_step fail s x)).
Proof. exact e2e_step_refines. Qed.

(* T2, histories: every finite sequence of operations, each under its own
   failure policy *)
Theorem c04_history : forall h s, e2e_wf s -> rf_history_wf h ->
  (e2e_view (fst (e2e_run s h)), snd (e2e_run s h)) = rf_run (e2e_view s) h /\
  e2e_wf (fst (e2e_run s h)).
Proof. exact e2e_run_refines. Qed.

(* the server side of a step is one turn of the session loop server_run on
   the frame the client wrote (++ []: nothing follows the frame) *)
Theorem c04_serve_is_session : forall fail m t p, t < 65536 -> pdu_wf p ->
  server_run (e2e_mem_handler fail) m Stall (spec_mbap t p ++ []) =
  (let '(_, calls, reply, e) := e2e_serve fail m (spec_mbap t p ++ []) in
   map EvCall calls ++
   match e with
   | Stall => [EvResp reply; EvClosed]
   | _ => [EvClosed]
   end).
Proof.
  intros fail m t p Ht Hp. rewrite app_nil_r, e2e_serve_frame by (try exact Ht; apply Hp).
  pose proof (ServerP.server_pipelined (e2e_mem_handler fail) [(t, p)] [] m Stall) as HS.
  cbn [map concat fst snd] in HS. rewrite !app_nil_r in HS.
  rewrite HS by (constructor; [split; assumption|constructor]). cbn [spec_session].
  pose proof (ServerP.server_process_resp_len (e2e_mem_handler fail) m p) as HL.
  destruct (server_process (e2e_mem_handler fail) m p) as [[m' calls] act]. cbn [snd] in HL.
  destruct act as [res|]; [|reflexivity].
  rewrite (ServerP.assemble_is_spec t res HL). reflexivity.
Qed.

(* T3, write then read: the written values come back bit for bit, for every
   width (w = 1, 2, 4 registers per value: 16/32/64-bit integers and the
   32/64-bit floats, which are their bit patterns, NaN payloads included),
   every encoding, every unit id, every in-range address and count *)
Theorem c04_write_read_regs : forall s w a vs, e2e_wf s -> op_wf (OpWriteRegs w a vs) ->
  valid_op (OpWriteRegs w a vs) = true ->
  fst (snd (e2e_step rf_nofail (fst (e2e_step rf_nofail s (RfCall (OpWriteRegs w a vs))))
              (RfCall (OpReadRegs w a (lenN vs) Holding)))) = Ok (VNums vs).
Proof. intros s w a vs. exact (e2e_write_read s (OpWriteRegs w a vs) _ _ eq_refl). Qed.

Theorem c04_write_read_reg : forall s a v, e2e_wf s -> op_wf (OpWriteReg a v) ->
  fst (snd (e2e_step rf_nofail (fst (e2e_step rf_nofail s (RfCall (OpWriteReg a v))))
              (RfCall (OpReadRegs 1 a 1 Holding)))) = Ok (VNums [v]).
Proof.
  intros s a v Hs Hwf. apply (e2e_write_read s (OpWriteReg a v)); [reflexivity|exact Hs|exact Hwf|].
  destruct Hwf as [Ha _]. unfold valid_op. cbn [op_regtype_ok op_count op_limit op_addr]. lia.
Qed.

Theorem c04_write_read_coils : forall s a vs, e2e_wf s -> op_wf (OpWriteCoils a vs) ->
  valid_op (OpWriteCoils a vs) = true ->
  fst (snd (e2e_step rf_nofail (fst (e2e_step rf_nofail s (RfCall (OpWriteCoils a vs))))
              (RfCall (OpReadBools false a (lenN vs))))) = Ok (VBools vs).
Proof. intros s a vs. exact (e2e_write_read s (OpWriteCoils a vs) _ _ eq_refl). Qed.

Theorem c04_write_read_coil : forall s a v, e2e_wf s -> op_wf (OpWriteCoil a v) ->
  fst (snd (e2e_step rf_nofail (fst (e2e_step rf_nofail s (RfCall (OpWriteCoil a v))))
              (RfCall (OpReadBools false a 1)))) = Ok (VBools [v]).
Proof.
  intros s a v Hs Hwf. apply (e2e_write_read s (OpWriteCoil a v)); [reflexivity|exact Hs|exact Hwf|].
  cbn [op_wf] in Hwf. unfold valid_op. cbn [op_regtype_ok op_count op_limit op_addr]. lia.
Qed.

(* bytes, raw or observing the byte order, odd lengths included *)
Theorem c04_write_read_bytes : forall s raw a bs, e2e_wf s -> op_wf (OpWriteBytes raw a bs) ->
  valid_op (OpWriteBytes raw a bs) = true ->
  fst (snd (e2e_step rf_nofail (fst (e2e_step rf_nofail s (RfCall (OpWriteBytes raw a bs))))
              (RfCall (OpReadBytes raw a (lenN bs) Holding)))) = Ok (VBytes bs).
Proof. intros s raw a bs. exact (e2e_write_read s (OpWriteBytes raw a bs) _ _ eq_refl). Qed.

(* T3, a read decodes exactly the registers the register file names: value i
   comes from the registers a + i*w ... a + i*w + w - 1 of the addressed table,
   and the handler sees one read of q*w registers at a *)
Theorem c04_read_regs : forall s w a q rt, e2e_wf s -> op_wf (OpReadRegs w a q rt) ->
  valid_op (OpReadRegs w a q rt) = true ->
  snd (e2e_step rf_nofail s (RfCall (OpReadRegs w a q rt))) =
  (Ok (VNums (map (fun i => rf_regs_value (e2e_cfg s)
                              (cells_load (rf_table (e2e_mem s) rt) (a + N.of_nat i * w) w))
                  (seq 0 (N.to_nat q)))),
   [mkhreq (rf_kind rt) (c_unit (e2e_cfg s)) a (q * w) false [] []]).
Proof.
  intros s w a q rt Hs Hwf V.
  destruct (e2e_step_refines rf_nofail s (RfCall (OpReadRegs w a q rt)) Hs Hwf rf_nofail_wf) as [E _].
  unfold e2e_view at 2 in E. cbn [rf_step] in E. rewrite V in E. cbn [rf_nofail rf_failure] in E.
  apply (f_equal snd) in E. cbn [snd] in E. rewrite E. reflexivity.
Qed.

(* a handler failure surfaces as itself (a Modbus error) or as
   server-device-failure (anything else); the memory is untouched *)
Theorem c04_failure : forall fail s o code, e2e_wf s -> op_wf o -> rf_fail_wf fail ->
  valid_op o = true -> rf_failure (fail (rf_request (e2e_cfg s) o)) = Some code ->
  snd (e2e_step fail s (RfCall o)) = (Err (EExc code), [rf_request (e2e_cfg s) o]) /\
  e2e_view (fst (e2e_step fail s (RfCall o))) = e2e_view s.
Proof.
  intros fail s o code Hs Hwf Hf V Hc.
  destruct (e2e_step_refines fail s (RfCall o) Hs Hwf Hf) as [E _].
  unfold e2e_view at 2 in E. cbn [rf_step] in E. rewrite V, Hc in E.
  split; [apply (f_equal snd) in E|apply (f_equal fst) in E]; cbn [fst snd] in E; exact E.
Qed.

(* the register image of the register file, spelled out for the four
   encodings: most significant word first unless low-word-first, every
   register byte-swapped for little-endian *)
Theorem c04_layout32 : forall u v, v < 2 ^ 32 ->
  rf_value_regs (mkcfg u BigE HighFirst) 2 v = [v / 65536; v mod 65536] /\
  rf_value_regs (mkcfg u BigE LowFirst) 2 v = [v mod 65536; v / 65536] /\
  rf_value_regs (mkcfg u LittleE HighFirst) 2 v = [rf_swap16 (v / 65536); rf_swap16 (v mod 65536)] /\
  rf_value_regs (mkcfg u LittleE LowFirst) 2 v = [rf_swap16 (v mod 65536); rf_swap16 (v / 65536)].
Proof.
  intros u v Hv. unfold rf_value_regs, words_of. change (N.to_nat 2) with 2%nat.
  cbn [c_endian c_word seq rev app map rf_order rf_image].
  change (N.of_nat 1) with 1. change (N.of_nat 0) with 0. pow_consts.
  replace (v / 65536 mod 65536) with (v / 65536) by lia.
  replace (v / 1 mod 65536) with (v mod 65536) by lia. repeat split; reflexivity.
Qed.

Theorem c04_layout64 : forall u v, v < 2 ^ 64 ->
  let w3 := v / 2 ^ 48 in let w2 := (v / 2 ^ 32) mod 65536 in
  let w1 := (v / 2 ^ 16) mod 65536 in let w0 := v mod 65536 in
  rf_value_regs (mkcfg u BigE HighFirst) 4 v = [w3; w2; w1; w0] /\
  rf_value_regs (mkcfg u BigE LowFirst) 4 v = [w0; w1; w2; w3] /\
  rf_value_regs (mkcfg u LittleE HighFirst) 4 v = map rf_swap16 [w3; w2; w1; w0] /\
  rf_value_regs (mkcfg u LittleE LowFirst) 4 v = map rf_swap16 [w0; w1; w2; w3].
Proof.
  intros u v Hv w3 w2 w1 w0. subst w3 w2 w1 w0. unfold rf_value_regs, words_of. change (N.to_nat 4) with 4%nat.
  cbn [c_endian c_word seq rev app map rf_order rf_image].
  change (N.of_nat 1) with 1. change (N.of_nat 0) with 0. change (N.of_nat 2) with 2. change (N.of_nat 3) with 3.
  pow_consts.
  replace (v / 281474976710656 mod 65536) with (v / 281474976710656) by lia.
  replace (v / 1 mod 65536) with (v mod 65536) by lia. repeat split; reflexivity.
Qed.

(* non-vacuity: a well-formed initial state and a concrete history *)
Definition c04_mem0 : rfmem :=
  mkrfmem (fun _ => false) (fun k => k mod 3 =? 0) (fun _ => 0) (fun k => (k * 31 + 5) mod 65536).
Definition c04_s0 : e2e_state := mke2e (mkcfg 1 BigE HighFirst) c04_mem0 0 [].

Example c04_s0_wf : e2e_wf c04_s0.
Proof.
  unfold e2e_wf, cfg_wf, rfmem_wf. cbn [c04_s0 e2e_cfg e2e_mem e2e_txn e2e_left c04_mem0 rf_holding rf_input c_unit].
  repeat split; try reflexivity. apply N.mod_lt. discriminate.
Qed.

Definition c04_fail_busy : hreq -> option herr := fun _ => Some (HModbus 6).
Definition c04_fail_other : hreq -> option herr := fun _ => Some HOther.

Definition c04_history1 : list ((hreq -> option herr) * rf_op) :=
  [ (rf_nofail, RfSetEnc 2 2);                                 (* little-endian, low word first *)
    (rf_nofail, RfSetUnit 17);
    (rf_nofail, RfCall (OpWriteRegs 2 0xfffe [0x7fc00001]));    (* a float32 NaN with a payload *)
    (rf_nofail, RfCall (OpReadRegs 2 0xfffe 1 Holding));
    (rf_nofail, RfCall (OpReadRegs 1 0xfffe 2 Holding));        (* the two registers, as 16-bit values *)
    (rf_nofail, RfSetEnc 1 1);
    (rf_nofail, RfCall (OpReadRegs 1 0xfffe 2 Holding));        (* the raw register contents *)
    (rf_nofail, RfCall (OpReadBytes true 0xfffe 3 Holding));
    (c04_fail_busy, RfCall (OpWriteCoils 5 [true; false; true]));
    (rf_nofail, RfCall (OpReadBools false 5 3));
    (c04_fail_other, RfCall (OpReadBools true 0 4));
    (rf_nofail, RfCall (OpWriteCoils 5 [true; false; true]));
    (rf_nofail, RfCall (OpReadBools false 4 5));
    (rf_nofail, RfCall (OpReadRegs 2 0xffff 1 Holding));        (* past 0xffff: rejected locally *)
    (rf_nofail, RfSetEnc 3 1) ].                                (* unknown selector: refused *)

Example c04_history1_wf : rf_history_wf c04_history1.
Proof.
  assert (Hbusy : rf_fail_wf c04_fail_busy) by (intros r code H; injection H as <-; reflexivity).
  assert (Hother : rf_fail_wf c04_fail_other) by (intros r code H; discriminate H).
  pose proof rf_nofail_wf as Hno.
  unfold rf_history_wf, c04_history1.
  repeat (apply Forall_cons; [split; [assumption|cbn [snd rf_op_wf op_wf]]|]); try apply Forall_nil;
    try exact I; try reflexivity;
    try (repeat split; try reflexivity; auto; fail);
    try (repeat split; try reflexivity; auto;
         apply Forall_cons; [vm_compute; reflexivity|apply Forall_nil]).
Qed.

Example c04_history1_run :
  snd (e2e_run c04_s0 c04_history1) =
  [ (Ok VUnit, []); (Ok VUnit, []);
    (Ok VUnit, [mkhreq HHolding 17 0xfffe 2 true [] [0x0100; 0xc07f]]);
    (Ok (VNums [0x7fc00001]), [mkhreq HHolding 17 0xfffe 2 false [] []]);
    (Ok (VNums [0x0001; 0x7fc0]), [mkhreq HHolding 17 0xfffe 2 false [] []]);
    (Ok VUnit, []);
    (Ok (VNums [0x0100; 0xc07f]), [mkhreq HHolding 17 0xfffe 2 false [] []]);
    (Ok (VBytes [0x01; 0x00; 0xc0]), [mkhreq HHolding 17 0xfffe 2 false [] []]);
    (Err (EExc 6), [mkhreq HCoils 17 5 3 true [true; false; true] []]);
    (Ok (VBools [false; false; false]), [mkhreq HCoils 17 5 3 false [] []]);
    (Err (EExc 4), [mkhreq HDiscrete 17 0 4 false [] []]);
    (Ok VUnit, [mkhreq HCoils 17 5 3 true [true; false; true] []]);
    (Ok (VBools [false; true; false; true; false]), [mkhreq HCoils 17 4 5 false [] []]);
    (Err EParams, []);
    (Err EParams, []) ].
Proof. vm_compute. reflexivity. Qed.

Print Assumptions c04_step.
Print Assumptions c04_history.
Print Assumptions c04_serve_is_session.
Print Assumptions c04_write_read_regs.
Print Assumptions c04_write_read_reg.
Print Assumptions c04_write_read_coils.
Print Assumptions c04_write_read_coil.
Print Assumptions c04_write_read_bytes.
Print Assumptions c04_read_regs.
Print Assumptions c04_failure.
Print Assumptions c04_layout32.
Print Assumptions c04_layout64.
