(* C09, slots belong to connections, not to addresses: a client bound to a fixed
   local port that dials again at once is a NEW connection from the address of a
   session the server has not ended yet. In the Slots system a connection is an
   identity; what it shares with others is a label f : conn -> alabel that need
   not be injective (Model/SlotsAddr.v, Proofs/SlotsAddrP.v); for every such f: *)
From Coq Require Import List Arith Bool Permutation.
Import ListNotations.
From Modbus Require Import Model.Slots Proofs.SlotsP Model.SlotsVisit Model.SlotsAddr Proofs.SlotsAddrP.

(* shared_label decides whether two different members of the active list carry
   the same label (used below to show that such states are reachable) *)
Theorem c09c_shared_label_spec : forall f s, NoDup (clients s) ->
  (shared_label f s = true <->
   exists c d, c <> d /\ In c (clients s) /\ In d (clients s) /\ f c = f d).
Proof. intros f s. exact (has_dup_map f (clients s)). Qed.

(* admission next to a member of the list with the same label: one more slot
   is taken, the member stays what it was *)
Theorem c09c_enrol_same_label : forall (f : conn -> alabel) s c d, Inv s -> In c (clients s) ->
  stat s d = Taken -> started s = true -> length (clients s) < maxc s -> f d = f c ->
  let s1 := step s (Enrol d) in
  stat s1 d = Serving /\ In d (clients s1) /\ In c (clients s1) /\ stat s1 c = stat s c /\
  length (clients s1) = S (length (clients s)) /\
  length (at_label f (f c) s1) = S (length (at_label f (f c) s)).
Proof. exact label_enrol. Qed.

(* the removal of c gives back the slot of c and of nobody else: every other
   member keeps slot, status and socket whatever it shares with c; by label,
   the label of c loses exactly one member, the other labels none *)
Theorem c09c_remove_only_self : forall (f : conn -> alabel) s c, Inv s -> stat s c = Ended ->
  let s1 := step s (Remove c) in
  (forall d, d <> c -> In d (clients s) ->
     In d (clients s1) /\ stat s1 d = stat s d /\ closed s1 d = closed s d) /\
  ~ In c (clients s1) /\
  S (length (clients s1)) = length (clients s) /\
  S (length (at_label f (f c) s1)) = length (at_label f (f c) s) /\
  (forall a, a <> f c -> length (at_label f a s1) = length (at_label f a s)).
Proof. exact label_remove. Qed.

(* the come-back, in every reachable state with a free slot: the new
   connection d is enrolled while the server still holds the session of c
   (same label), then c is wound down for whatever reason; d is served and
   accounted for, c is not, and the list is exactly as long as before *)
Theorem c09c_comeback : forall (f : conn -> alabel) s c d w, Inv s -> started s = true -> 0 < acceptors s ->
  stat s c = Serving -> stat s d = Fresh -> w <> ClosedByStop ->
  length (clients s) < maxc s -> f d = f c ->
  let s1 := run s (comeback c d w) in
  Inv s1 /\ stat s1 d = Serving /\ In d (clients s1) /\ stat s1 c = Removed /\ ~ In c (clients s1) /\
  length (clients s1) = length (clients s) /\
  length (at_label f (f c) s1) = length (at_label f (f c) s) /\
  (forall x, x <> c -> x <> d -> stat s1 x = stat s x).
Proof. exact label_comeback. Qed.

(* non-vacuity: MaxClients = 2, every connection from the one address 7.
   1 is being served when 2 arrives from the same address: both hold a slot
   (shared_label). 1 is wound down: 2 keeps its slot. 3 fills the server and 4
   is refused: the limit counts 2. *)
Example c09c_ex :
  let f : conn -> alabel := fun _ => 7 in
  let s0 := run (init 2) (Start :: arrival 1) in
  Inv s0 /\ started s0 = true /\ 0 < acceptors s0 /\ stat s0 1 = Serving /\ stat s0 2 = Fresh /\
  length (clients s0) < maxc s0 /\
  let sa := run s0 (arrival 2) in
  shared_label f sa = true /\ at_label f 7 sa = [1; 2] /\
  let s1 := run s0 (comeback 1 2 Disconnect) in
  clients s1 = [2] /\ shared_label f s1 = false /\
  let s2 := run s1 (arrival 3 ++ arrival 4) in
  stat s2 2 = Serving /\ stat s2 3 = Serving /\ stat s2 4 = Rejected /\ at_label f 7 s2 = [2; 3].
Proof.
  cbn zeta. split; [apply reachable_inv|]. vm_compute. repeat split; repeat constructor.
Qed.

Print Assumptions c09c_shared_label_spec.
Print Assumptions c09c_enrol_same_label.
Print Assumptions c09c_remove_only_self.
Print Assumptions c09c_comeback.
