(* C18c - "slices returned by read calls are not altered by later calls on the
   same client", for the later calls that are NOT requests: Close() and Open()
   (lemmas in Proofs/HeapLifeP.v and Proofs/HeapP.v; vocabulary: Spec/AliasSpec.v).
   Model/HeapLife.v extends the histories of Model/Heap.v by HlClose / HlOpen: the
   handle's transport slot with its transaction counter, unread bytes, the peer's
   end of the connection, and the closed flag. hl_step gr fr c ev runs one event: a
   caller allocation, a request call (open or closed handle), Close(), Open(). *)
From Coq Require Import List.
From Modbus Require Import Base.Bytes Model.Crc Model.Encoding Model.Wire Model.Client Model.Heap
  Model.HeapLife Spec.AliasSpec Proofs.HeapLifeP.

(* Whatever the event - a request call in any state of the handle,
   Close(), Open() - and whatever the state of the client: every array that
   existed before is bit for bit the same afterwards. *)
Theorem c18c_event_memory_untouched : forall gr fr c ev,
  memory_untouched (hl_heap c) (hl_heap (fst (hl_step gr fr c ev))).
Proof. intros. apply HeapP.keeps_memory, life_step_frame. Qed.

Theorem c18c_history_memory_untouched : forall gr fr c evs,
  memory_untouched (hl_heap c) (hl_heap (hl_run gr fr c evs)).
Proof. intros. apply HeapP.keeps_memory, life_run_frame. Qed.

(* Close() and Open() store nothing at all and allocate nothing the caller
   could reach *)
Theorem c18c_close_stores_nothing : forall gr fr c,
  hl_heap (fst (hl_step gr fr c HlClose)) = hl_heap c.
Proof. reflexivity. Qed.

Theorem c18c_open_stores_nothing : forall gr fr c,
  hl_heap (fst (hl_step gr fr c HlOpen)) = hl_heap c.
Proof. reflexivity. Qed.

(* every slice the caller holds - contents and spare capacity - reads the same
   after any history of request calls, Close() and Open() *)
Theorem c18c_caller_slice_untouched : forall gr fr c evs t,
  caller_slice (hl_heap c) t ->
  slice_untouched (hl_heap c) (hl_heap (hl_run gr fr c evs)) t.
Proof.
  intros gr fr c evs t Ht. apply HeapP.keeps_slice_untouched; [apply life_run_frame|].
  apply HeapP.wf_in, HeapP.caller_slice_wf, Ht.
Qed.

(* For every history of request calls (any operations, settings, replies,
   peers that end the connection), caller allocations, Close() and Open() on
   one client: every slice returned so far reads the same - contents and
   spare capacity - after any number of later events of any of these kinds. *)
Theorem c18c_results_stable_across_close_open : forall gr fr h0 evs1 evs2 r,
  let c1 := hl_run gr fr (hl_init h0) evs1 in
  let c2 := hl_run gr fr c1 evs2 in
  In r (hl_results c1) ->
  slice_untouched (hl_heap c1) (hl_heap c2) r.
Proof.
  intros gr fr h0 evs1 evs2 r c1 c2 Hr. apply HeapP.keeps_slice_untouched; [apply life_run_frame|].
  exact (proj1 (Forall_forall _ _) (life_run_inv gr fr evs1 (hl_init h0) (Forall_nil _)) r Hr).
Qed.

(* A request call on a closed handle is not a success, transmits nothing,
   returns no slice and leaves the transaction counter alone. *)
Theorem c18c_call_on_closed_handle : forall gr fr c cfg o e chunk,
  hl_closed c = true ->
  exists r, snd (hl_step gr fr c (HlCall cfg o e chunk)) = Some r /\
    (forall v, hr_res r <> Ok v) /\ hr_writes r = [] /\
    hl_results (fst (hl_step gr fr c (HlCall cfg o e chunk))) = hl_results c /\
    hl_txn (fst (hl_step gr fr c (HlCall cfg o e chunk))) = hl_txn c.
Proof.
  intros gr fr c cfg o e chunk Hc. cbn [hl_step]. rewrite Hc.
  pose proof (closed_call_frame gr cfg (hl_txn c) o (hl_left c) (hl_heap c)) as (_ & N & W & _).
  destruct (hl_call_closed gr cfg (hl_txn c) o (hl_left c) (hl_heap c)) as [r h'].
  cbn [fst snd hl_results hl_txn] in *. exists r. repeat split; assumption.
Qed.

(* The link to C18: a request call on an open handle whose peer keeps the
   connection IS the call of Model/Heap.v (C18, C18b speak about it), and a
   history without Close / Open is a history of Model/Heap.v. *)
Theorem c18c_call_on_open_handle : forall gr fr c cfg o e chunk,
  hl_closed c = false -> hl_end c = Stall ->
  let r := hp_call gr fr cfg (hl_txn c) o e (hl_left c ++ chunk) (hl_heap c) in
  snd (hl_step gr fr c (HlCall cfg o e chunk)) = Some (fst r) /\
  hl_heap (fst (hl_step gr fr c (HlCall cfg o e chunk))) = snd r /\
  hl_results (fst (hl_step gr fr c (HlCall cfg o e chunk))) = hv_slices (hr_res (fst r)) ++ hl_results c.
Proof.
  intros gr fr c cfg o e chunk Hc He. cbn [hl_step]. rewrite Hc, He. cbn [hl_end_after].
  destruct (hp_call gr fr cfg (hl_txn c) o e (hl_left c ++ chunk) (hl_heap c)) as [r h'].
  cbn [fst snd hl_heap hl_results]. repeat split.
Qed.

Theorem c18c_without_close_open : forall gr fr c ev,
  hl_closed c = false -> hl_end c = Stall ->
  let c' := fst (hl_step gr fr c (hl_of_event ev)) in
  let d' := hp_step gr fr (mkhc (hl_heap c) (hl_txn c) (hl_left c) (hl_results c)) ev in
  hl_heap c' = hc_heap d' /\ hl_txn c' = hc_txn d' /\ hl_left c' = hc_left d' /\
  hl_results c' = hc_results d' /\ hl_closed c' = false.
Proof.
  intros gr fr c ev Hc He. destruct ev as [xs|cfg o e chunk]; cbn [hl_of_event hl_step hp_step].
  - cbn [fst hl_heap hl_txn hl_left hl_results hl_closed hc_heap hc_txn hc_left hc_results].
    repeat split. exact Hc.
  - rewrite Hc, He. cbn [hl_end_after hc_heap hc_txn hc_left hc_results].
    destruct (hp_call gr fr cfg (hl_txn c) o e (hl_left c ++ chunk) (hl_heap c)) as [r h'].
    cbn [fst hl_heap hl_txn hl_left hl_results hl_closed hc_heap hc_txn hc_left hc_results].
    repeat split.
Qed.

(* non-vacuity. ReadBytes (little endian, odd quantity) returns a slice; the
   caller closes the client: the slice still reads the same; a call on the
   closed handle fails and sends nothing; after Open() the transaction counter
   starts again and WriteBytes of the kept slice sends its bytes (swapped on
   the wire, padded), and the slice still reads the same *)
Example c18c_ex_close_open :
  let cfg := mkcfg 1 LittleE HighFirst in
  let reply1 := [0; 1; 0; 0; 0; 7; 1; 3; 4; 0x0a; 0x0b; 0x0c; 0x0d] in
  let c1 := hl_run hp_gr_double FMbap (hl_init [])
              [HlCall cfg (HpOther (OpReadBytes false 0 3 Holding)) Stall reply1] in
  match hl_results c1 with
  | [r] =>
      h_read r (hl_heap c1) = [0x0b; 0x0a; 0x0d] /\
      let c2 := hl_run hp_gr_double FMbap c1 [HlClose] in
      h_read r (hl_heap c2) = [0x0b; 0x0a; 0x0d] /\ hl_closed c2 = true /\
      let '(c3, o3) := hl_step hp_gr_double FMbap c2 (HlCall cfg (HpWriteBytes false 7 r) Stall []) in
      option_map hr_res o3 = Some (Err EIO) /\ option_map hr_writes o3 = Some [] /\
      let c4 := hl_run hp_gr_double FMbap c3 [HlOpen] in
      hl_txn c4 = 0 /\ hl_closed c4 = false /\
      let '(c5, o5) := hl_step hp_gr_double FMbap c4
                         (HlCall cfg (HpWriteBytes false 7 r) Stall [0; 1; 0; 0; 0; 6; 1; 16; 0; 7; 0; 2]) in
      option_map hr_writes o5 = Some [[0; 1; 0; 0; 0; 11; 1; 16; 0; 7; 0; 2; 4; 0x0a; 0x0b; 0; 0x0d]] /\
      option_map hr_res o5 = Some (Ok HvUnit) /\
      h_read r (hl_heap c5) = [0x0b; 0x0a; 0x0d] /\ length (hl_results c5) = 1%nat
  | _ => False
  end.
Proof. vm_compute. repeat split; reflexivity. Qed.

Print Assumptions c18c_event_memory_untouched.
Print Assumptions c18c_history_memory_untouched.
Print Assumptions c18c_close_stores_nothing.
Print Assumptions c18c_open_stores_nothing.
Print Assumptions c18c_caller_slice_untouched.
Print Assumptions c18c_results_stable_across_close_open.
Print Assumptions c18c_call_on_closed_handle.
Print Assumptions c18c_call_on_open_handle.
Print Assumptions c18c_without_close_open.
