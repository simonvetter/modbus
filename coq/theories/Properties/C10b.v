(* C10 (lock-discipline clause) - "... and none of this involves a data race":
   the accesses of Start, Stop, acceptTCPClients and handleTCPClient to the
   shared server state (started, tcpListener, tcpClients) are protected by
   ms.lock. Same generic theorems as C08 (Proofs/ConcP.v), instantiated to the
   lock skeleton GENERATED from server.go (Gen/ServerLocks.v). *)
From Coq Require Import List Bool String Arith.
Import ListNotations.
From Modbus Require Import Model.Conc Proofs.ConcP Proofs.GenLocksP Gen.ServerLocks.
Local Open Scope string_scope.
Local Open Scope list_scope.

Theorem c10b_table_wb : cc_table_wb server_programs cc_fuel server_entries = true.
Proof. exact server_programs_wb. Qed.

(* any number of goroutines running Start / Stop / the accept loop / sessions,
   any interleaving: at most one of them holds ms.lock *)
Theorem c10b_mutual_exclusion : forall prog ps evs c,
  cc_runs_table server_programs server_entries prog ps ->
  cc_exec (cc_init ps) evs c -> cc_mutex c.
Proof. intros prog ps evs c Hr. apply cc_reach_mutex, (tb_good _ _ server_programs_wb _ _ Hr). Qed.

(* every read / write of started, tcpListener, tcpClients is made by the
   goroutine that holds ms.lock *)
Theorem c10b_access_under_lock : forall prog ps e1 i a e2 c,
  cc_runs_table server_programs server_entries prog ps ->
  cc_exec (cc_init ps) (e1 ++ (i, a) :: e2) c -> cc_is_access a = true ->
  exists c1, cc_exec (cc_init ps) e1 c1 /\ cc_holds c1 i = true /\
             forall j, cc_holds c1 j = true -> j = i.
Proof. exact (tb_access_by_holder _ _ server_programs_wb). Qed.

(* conflicting accesses of different goroutines are ordered by an Unlock of
   the first and a later Lock of the second: no data race on these fields *)
Theorem c10b_no_data_race : forall prog ps e1 i a1 mid j a2 e2 c,
  cc_runs_table server_programs server_entries prog ps ->
  cc_exec (cc_init ps) (e1 ++ (i, a1) :: mid ++ (j, a2) :: e2) c ->
  i <> j -> cc_conflict a1 a2 = true ->
  exists m1 m2 m3, mid = m1 ++ (i, AUnlock) :: m2 ++ (j, ALock) :: m3.
Proof. exact (tb_no_race _ _ server_programs_wb). Qed.

(* the four entry points are exactly the lifecycle calls and the goroutines
   they start; the tracked fields are the shared lifecycle state *)
Example c10b_ex_entries :
  server_entries = ["Start"; "Stop"; "acceptTCPClients"; "handleTCPClient"] /\
  server_fields = ["started"; "tcpListener"; "tcpClients"].
Proof. split; reflexivity. Qed.

(* the accept goroutine gets its listener as an argument: it does not touch
   ms.tcpListener at all, while Start writes it (under the lock) *)
Example c10b_ex_accept_listener :
  cc_method_mentions server_programs "acceptTCPClients" (ARd "tcpListener") = false /\
  cc_method_mentions server_programs "acceptTCPClients" (AWr "tcpListener") = false /\
  cc_method_mentions server_programs "Start" (AWr "tcpListener") = true.
Proof. vm_compute. repeat split; reflexivity. Qed.

(* the three calls Start, acceptTCPClients, handleTCPClient in a row have a
   path in the generated table, and it writes tcpListener *)
Example c10b_ex_path :
  exists p, cc_thread_path server_programs ["Start"; "acceptTCPClients"; "handleTCPClient"] p /\
            In (AWr "tcpListener") p.
Proof.
  destruct (cc_fp_thread server_programs cc_fuel ["Start"; "acceptTCPClients"; "handleTCPClient"]) as [p|] eqn:E;
    [|vm_compute in E; discriminate].
  exists p. split; [apply (cc_fp_thread_path _ cc_fuel), E|].
  vm_compute in E. inversion E. cbn. tauto.
Qed.

Print Assumptions c10b_table_wb.
Print Assumptions c10b_mutual_exclusion.
Print Assumptions c10b_access_under_lock.
Print Assumptions c10b_no_data_race.
