(* C12 / C07 / C18, source level: the socket wrappers of udp.go and tls_utils.go AS TRANSLATED FROM THE GO SOURCE ON
   THIS RUN (copy as a memmove on values, the wrapped socket as external functions over the world, a written slice
   parameter handed back). For EVERY wrapped socket they compute the wrapper model of Model/Transport.v; on a queue of
   datagrams udpSockWrapper.Read is usw_read of Model/Udp.v, which the UDP theorems of C12.v are about.
   tlsSockWrapper.Read writes only buf[0:rlen]; tlsSockWrapper.Write closes the socket after a timed-out write only. *)
From Coq Require Import List NArith String.
Import ListNotations.
From Modbus Require Import Base.Bytes.
From Modbus Require Import Model.GoLite.
From Modbus Require Import Gen.SrcPure.
From Modbus Require Import Model.Wire.
From Modbus Require Import Model.Chunks.
From Modbus Require Import Model.Udp.
From Modbus Require Import Model.Transport.
From Modbus Require Import Proofs.GoLiteLinkP.
From Modbus Require Import Proofs.SrcCrcP.
From Modbus Require Import Proofs.SrcMiscP.
From Modbus Require Import Proofs.SrcClientP.
From Modbus Require Import Proofs.SrcTransportP.
From Modbus Require Import Proofs.SrcWrapP.
From Modbus Require Import Proofs.SrcWrapRunP.
From Modbus Require Import Proofs.UdpRefineP.
Open Scope string_scope.
Open Scope N_scope.

Theorem c12t_udp_Read :
  forall (base : fenv) (fuel : nat) (T : tworld) (lft : N) (rxbuf buf : list N) (w : val),
       sock_hyp base T ->
       tread_wf T ->
       bytesb rxbuf = true ->
       bytesb buf = true ->
       lft <= lenN rxbuf ->
       lenN rxbuf < 2 ^ 32 ->
       lenN buf < 2 ^ 32 ->
       call_with src_pure base fuel "udpSockWrapper.Read" [VN lft; vbytes rxbuf; vbytes buf; w] =
       out_udp_read T lft rxbuf buf w.
Proof.
  intros base fuel T lft rxbuf buf w HT Hwf Hb1 Hb2 H1 H2 H3.
  link_step "udpSockWrapper.Read" src_fn_udpSockWrapper_Read.
  apply run_udp_Read; [apply sock_hyp_env, HT|assumption..].
Qed.
Print Assumptions c12t_udp_Read.

Theorem c12t_udp_Write :
  forall (base : fenv) (fuel : nat) (T : tworld) (lft : N) (rxbuf buf : list N) (w : val),
       sock_hyp base T ->
       call_with src_pure base fuel "udpSockWrapper.Write" [VN lft; vbytes rxbuf; vbytes buf; w] =
       out_udp_write T lft rxbuf buf w.
Proof.
  intros base fuel T lft rxbuf buf w HT.
  link_step "udpSockWrapper.Write" src_fn_udpSockWrapper_Write.
  apply run_udp_Write, sock_hyp_env, HT.
Qed.
Print Assumptions c12t_udp_Write.

Theorem c12t_udp_Close :
  forall (base : fenv) (fuel : nat) (T : tworld) (lft : N) (rxbuf : list N) (w : val),
       sock_hyp base T ->
       call_with src_pure base fuel "udpSockWrapper.Close" [VN lft; vbytes rxbuf; w] =
       out_udp_close T lft rxbuf w.
Proof.
  intros base fuel T lft rxbuf w HT.
  link_step "udpSockWrapper.Close" src_fn_udpSockWrapper_Close.
  apply run_udp_Close, sock_hyp_env, HT.
Qed.
Print Assumptions c12t_udp_Close.

Theorem c12t_udp_SetDeadline :
  forall (base : fenv) (fuel : nat) (T : tworld) (lft : N) (rxbuf : list N) (d : N) (w : val),
       sock_hyp base T ->
       call_with src_pure base fuel "udpSockWrapper.SetDeadline" [VN lft; vbytes rxbuf; VN d; w] =
       out_udp_setdl T lft rxbuf d w.
Proof.
  intros base fuel T lft rxbuf d w HT.
  link_step "udpSockWrapper.SetDeadline" src_fn_udpSockWrapper_SetDeadline.
  apply run_udp_SetDeadline, sock_hyp_env, HT.
Qed.
Print Assumptions c12t_udp_SetDeadline.

Theorem c12t_datagram_world_satisfies_the_hypothesis :
  tread_wf dq_world.
Proof. exact dq_world_wf. Qed.
Print Assumptions c12t_datagram_world_satisfies_the_hypothesis.

Theorem c12t_udp_read_refines :
  forall (u : usw) (rxbuf buf : list N),
       dgrams_bytes (usw_net u) ->
       Datatypes.length rxbuf = usw_rxbuf_len ->
       firstn (Datatypes.length (usw_left u)) rxbuf = usw_left u ->
       (Datatypes.length (usw_left u) <= usw_rxbuf_len)%nat ->
       let
       '(lft', rxbuf', buf', w', rlen, e) :=
        t_udp_read dq_world (lenN (usw_left u)) rxbuf buf (enc_dq (usw_net u)) in
        match usw_read (Datatypes.length buf) u with
        | Rd1 got u' =>
            e = 0 /\
            rlen = lenN got /\
            firstn (Datatypes.length got) buf' = got /\
            skipn (Datatypes.length got) buf' = skipn (Datatypes.length got) buf /\
            lft' = lenN (usw_left u') /\
            firstn (Datatypes.length (usw_left u')) rxbuf' = usw_left u' /\
            Datatypes.length rxbuf' = usw_rxbuf_len /\ w' = enc_dq (usw_net u')
        | Rd1None => e <> 0 /\ buf' = buf /\ lft' = 0
        end.
Proof. exact udp_read_refines. Qed.
Print Assumptions c12t_udp_read_refines.

Theorem c12t_tls_Read :
  forall (base : fenv) (fuel : nat) (T : tworld) (buf : list N) (w : val),
       sock_hyp base T ->
       tread_wf T ->
       lenN buf < 2 ^ 32 ->
       call_with src_pure base fuel "tlsSockWrapper.Read" [vbytes buf; w] = out_tls_read T buf w.
Proof.
  intros base fuel T buf w HT Hwf Hlen.
  link_step "tlsSockWrapper.Read" src_fn_tlsSockWrapper_Read.
  apply run_tls_Read; [apply sock_hyp_env, HT|assumption..].
Qed.
Print Assumptions c12t_tls_Read.

Theorem c12t_tls_Write :
  forall (base : fenv) (fuel : nat) (T : tworld) (buf : list N) (w : val),
       sock_hyp base T ->
       call_with src_pure base fuel "tlsSockWrapper.Write" [vbytes buf; w] = out_tls_write T buf w.
Proof.
  intros base fuel T buf w HT.
  link_step "tlsSockWrapper.Write" src_fn_tlsSockWrapper_Write.
  apply run_tls_Write, sock_hyp_env, HT.
Qed.
Print Assumptions c12t_tls_Write.

Theorem c12t_tls_Close :
  forall (base : fenv) (fuel : nat) (T : tworld) (w : val),
       sock_hyp base T -> call_with src_pure base fuel "tlsSockWrapper.Close" [w] = out_tls_close T w.
Proof.
  intros base fuel T w HT.
  link_step "tlsSockWrapper.Close" src_fn_tlsSockWrapper_Close.
  apply run_tls_Close, sock_hyp_env, HT.
Qed.
Print Assumptions c12t_tls_Close.

Theorem c12t_tls_SetDeadline :
  forall (base : fenv) (fuel : nat) (T : tworld) (d : N) (w : val),
       sock_hyp base T ->
       call_with src_pure base fuel "tlsSockWrapper.SetDeadline" [VN d; w] = out_tls_setdl T d w.
Proof.
  intros base fuel T d w HT.
  link_step "tlsSockWrapper.SetDeadline" src_fn_tlsSockWrapper_SetDeadline.
  apply run_tls_SetDeadline, sock_hyp_env, HT.
Qed.
Print Assumptions c12t_tls_SetDeadline.

