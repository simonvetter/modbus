(* C15 (continued) - the role is that of the client leaf of THAT session, whether
   negotiated by a full handshake or resumed: clients that keep a session cache
   (lemmas in Proofs/RoleResumeP.v). tls_serve_cached hsr c cs conns
   (Model/RoleResume.v): cs is what the clients' session caches hold at the start;
   None = refused, Some (resumed, role) = ConnectionState.DidResume and the
   ClientRole of every invocation of that session. hsr is Go's crypto/tls with
   resumption, an oracle: tls_resume_documented says that a full handshake
   authenticates the presented chain and a resumed one restores version and peer
   certificates of the session the ticket was issued on. per_identity ident conns:
   the connections that use cache k present the chain ident k. *)
From Modbus Require Import Base.Bytes Model.Utf8 Model.Der Model.Role Model.TlsPolicy Model.RoleSeq
  Model.RoleResume Spec.RoleSpec Proofs.RoleSeqP Proofs.RoleResumeP.

(* `resumed` does not enter the role: startTLS computes it from the connection state alone *)
Theorem c15_resumed_not_in_role : forall b b' s,
  tls_role_of_state (trs_state (mk_tls_rsession b s)) =
  tls_role_of_state (trs_state (mk_tls_rsession b' s)).
Proof. reflexivity. Qed.

Theorem c15_resume_role_of_state : forall hsr c peer offer,
  option_map snd (tls_start_tls_r hsr c peer offer) =
  match hsr (tls_policy_of_server c) peer offer with
  | Some rs => tls_role_of_state (trs_state rs)
  | None => None
  end.
Proof.
  intros hsr c peer offer. unfold tls_start_tls_r.
  destruct (hsr (tls_policy_of_server c) peer offer) as [rs|]; [|reflexivity].
  destruct (tls_role_of_state (trs_state rs)); reflexivity.
Qed.

(* the role of a served session is extract_role of the leaf of the client of
   that very connection (to which c15_role_sound .. c15_total of C15.v apply),
   resumed or not, whatever the other clients did before *)
Theorem c15_resume_role_of_leaf : forall hsr verifies now ident c conns i resumed role,
  tls_resume_documented hsr verifies now ->
  per_identity ident conns ->
  nth_error (tls_serve_cached hsr c [] conns) i = Some (Some (resumed, role)) ->
  exists x leaf more,
    nth_error conns i = Some x /\ tpe_chain (trc_peer x) = leaf :: more /\
    role = extract_role (tlc_exts leaf).
Proof.
  intros hsr verifies now ident c conns i resumed role Hdoc Hid.
  apply (serve_cached_leaf hsr verifies now ident); auto using caches_of_nil.
Qed.

(* a non-empty role is stated by the leaf of that very session *)
Theorem c15_resume_role_sound : forall hsr verifies now ident c conns i resumed role,
  tls_resume_documented hsr verifies now ->
  per_identity ident conns ->
  nth_error (tls_serve_cached hsr c [] conns) i = Some (Some (resumed, role)) -> role <> [] ->
  exists x leaf more,
    nth_error conns i = Some x /\ tpe_chain (trc_peer x) = leaf :: more /\
    (all_bytes (tlc_exts leaf) = true -> states_role (tlc_exts leaf) role).
Proof.
  intros hsr verifies now ident c conns i resumed role Hdoc Hid Hn Hne.
  destruct (c15_resume_role_of_leaf hsr verifies now ident c conns i resumed role Hdoc Hid Hn)
    as (x & leaf & more & Hp & Hc & Hr).
  exists x, leaf, more. split; [exact Hp|]. split; [exact Hc|].
  intros Hb. apply RoleP.role_sound_spec; auto.
Qed.

(* a served session whose leaf states r has role r - on a resumed session too *)
Theorem c15_resume_role_complete : forall hsr verifies now ident c conns i x leaf more r resumed role,
  tls_resume_documented hsr verifies now ->
  per_identity ident conns ->
  nth_error conns i = Some x -> tpe_chain (trc_peer x) = leaf :: more ->
  states_role (tlc_exts leaf) r -> lenN r < 2 ^ 31 ->
  nth_error (tls_serve_cached hsr c [] conns) i = Some (Some (resumed, role)) ->
  role = r.
Proof.
  intros hsr verifies now ident c conns i x leaf more r resumed role Hdoc Hid Hx Hc Hst Hlen Hn.
  destruct (c15_resume_role_of_leaf hsr verifies now ident c conns i resumed role Hdoc Hid Hn)
    as (x' & leaf' & more' & Hx' & Hc' & ->).
  rewrite Hx in Hx'. injection Hx' as <-. rewrite Hc in Hc'. injection Hc' as <- _.
  apply RoleP.role_complete_spec; assumption.
Qed.

(* a server that resumes and one that does not (any two TLS stacks that behave
   as documented): a connection served by both gets the same role from both *)
Theorem c15_resume_role_independent :
  forall hsr1 hsr2 verifies1 verifies2 now1 now2 ident c conns i b1 b2 role1 role2,
  tls_resume_documented hsr1 verifies1 now1 ->
  tls_resume_documented hsr2 verifies2 now2 ->
  per_identity ident conns ->
  nth_error (tls_serve_cached hsr1 c [] conns) i = Some (Some (b1, role1)) ->
  nth_error (tls_serve_cached hsr2 c [] conns) i = Some (Some (b2, role2)) ->
  role1 = role2.
Proof.
  intros hsr1 hsr2 verifies1 verifies2 now1 now2 ident c conns i b1 b2 role1 role2 H1 H2 Hid Hn1 Hn2.
  destruct (c15_resume_role_of_leaf hsr1 verifies1 now1 ident c conns i b1 role1 H1 Hid Hn1)
    as (x & leaf & more & Hx & Hc & ->).
  destruct (c15_resume_role_of_leaf hsr2 verifies2 now2 ident c conns i b2 role2 H2 Hid Hn2)
    as (x' & leaf' & more' & Hx' & Hc' & ->).
  rewrite Hx in Hx'. injection Hx' as <-. rewrite Hc in Hc'. injection Hc' as <- _. reflexivity.
Qed.

(* with a TLS stack that never resumes the server is that of C15b (Model/RoleSeq.v) *)
Theorem c15_resume_never_is_sessions : forall hs c cs conns,
  tls_roles_only (tls_serve_cached (tls_never_resumes hs) c cs conns) =
  tls_serve_sessions hs c (map trc_peer conns).
Proof.
  intros hs c cs conns. unfold tls_roles_only.
  revert cs. induction conns as [|x l IH]; intros cs; [reflexivity|].
  cbn [tls_serve_cached map tls_serve_sessions]. rewrite IH. f_equal.
  unfold tls_start_tls_r, tls_never_resumes, tls_start_tls, tls_role_of_state.
  destruct (hs (tls_policy_of_server c) (trc_peer x)) as [s|]; [|reflexivity].
  cbn [trs_state trs_resumed]. destruct (tss_peer_certs s); reflexivity.
Qed.

Theorem c15_resume_never_documented : forall hs verifies now,
  tls_srv_documented hs verifies now ->
  tls_resume_documented (tls_never_resumes hs) verifies now.
Proof.
  intros hs verifies now Hdoc pol peer offer rs. unfold tls_never_resumes.
  destruct (hs pol peer) as [s|] eqn:Eh; [|discriminate].
  intros [= <-]. cbn [trs_state trs_resumed].
  destruct (Hdoc _ _ _ Eh) as (Ht & Hv & Hm & Hauth).
  repeat split; auto; try discriminate; apply Hauth; assumption.
Qed.

(* non-vacuity: an oracle that resumes whenever the peer offers a session of
   the version it asks for, and otherwise completes the full handshake of
   every TLS peer that presents a chain, at the single version it offers *)
Definition c15c_hsr (pol : tls_policy) (peer : tls_peer) (offer : option tls_session) : option tls_rsession :=
  if tpe_speaks_tls peer then
    match tpe_versions peer with
    | [v] =>
        if tls_version_geb v (tpo_min_version pol) then
          match offer with
          | Some t =>
              if tls_version_code (tss_version t) =? tls_version_code v
              then Some (mk_tls_rsession true (mk_tls_session v (tss_peer_certs t)))
              else match tpe_chain peer with
                   | _ :: _ => Some (mk_tls_rsession false (mk_tls_session v (tpe_chain peer)))
                   | [] => None
                   end
          | None =>
              match tpe_chain peer with
              | _ :: _ => Some (mk_tls_rsession false (mk_tls_session v (tpe_chain peer)))
              | [] => None
              end
          end
        else None
    | _ => None
    end
  else None.

Example c15c_ex_documented : tls_resume_documented c15c_hsr (fun _ _ _ _ _ => True) 0.
Proof.
  intros pol peer offer rs. unfold c15c_hsr.
  destruct (tpe_speaks_tls peer) eqn:Et; [|discriminate].
  destruct (tpe_versions peer) as [|v [|]] eqn:Ev; try discriminate.
  destruct (tls_version_geb v (tpo_min_version pol)) eqn:Eg; [|discriminate].
  assert (Hfull : match tpe_chain peer with
                  | _ :: _ => Some (mk_tls_rsession false (mk_tls_session v (tpe_chain peer)))
                  | [] => None
                  end = Some rs ->
                  true = true /\ In (tss_version (trs_state rs)) [v] /\
                  tls_version_geb (tss_version (trs_state rs)) (tpo_min_version pol) = true /\
                  (trs_resumed rs = false -> tpo_client_auth pol = TlsRequireAndVerify ->
                   tss_peer_certs (trs_state rs) = tpe_chain peer /\ tpe_chain peer <> [] /\ True) /\
                  (trs_resumed rs = true ->
                   exists t, offer = Some t /\ tss_version (trs_state rs) = tss_version t /\
                     tss_peer_certs (trs_state rs) = tss_peer_certs t)).
  { destruct (tpe_chain peer) as [|leaf more] eqn:Ec; [discriminate|].
    intros [= <-]. cbn. repeat split; auto; discriminate. }
  destruct offer as [t|]; [|exact Hfull].
  destruct (tls_version_code (tss_version t) =? tls_version_code v) eqn:Ecode; [|exact Hfull].
  intros [= <-]. cbn. apply N.eqb_eq in Ecode.
  assert (Hv : tss_version t = v) by (destruct (tss_version t), v; cbn in Ecode; congruence).
  repeat split; auto; try discriminate.
  intros _. exists t. auto.
Qed.

Definition c15c_conf : tls_srv_conf :=
  mk_tls_srv_conf [] 0 0 (Some (mk_tls_cert 2 [])) (Some [mk_tls_cert 1 []]).
(* client A: role "op"; client B: a PrintableString (no role); client C: role "vi" *)
Definition c15c_A (v : tls_version) (k : option N) : tls_rconn :=
  mk_tls_rconn k (mk_tls_peer true [mk_tls_cert 7 [(true, [0x0c; 2; 0x6f; 0x70])]] [v]).
Definition c15c_B (v : tls_version) (k : option N) : tls_rconn :=
  mk_tls_rconn k (mk_tls_peer true [mk_tls_cert 8 [(true, [0x13; 2; 0x6f; 0x70])]] [v]).
Definition c15c_C (v : tls_version) (k : option N) : tls_rconn :=
  mk_tls_rconn k (mk_tls_peer true [mk_tls_cert 9 [(true, [0x0c; 2; 0x76; 0x69])]] [v]).

Definition c15c_ident (k : N) : list tls_cert :=
  if k =? 0 then [mk_tls_cert 7 [(true, [0x0c; 2; 0x6f; 0x70])]]
  else if k =? 1 then [mk_tls_cert 8 [(true, [0x13; 2; 0x6f; 0x70])]]
  else [mk_tls_cert 9 [(true, [0x0c; 2; 0x76; 0x69])]].

Definition c15c_conns : list tls_rconn :=
  [ c15c_A TLS13 (Some 0); c15c_A TLS13 (Some 0); c15c_B TLS12 (Some 1); c15c_A TLS13 (Some 0);
    c15c_C TLS13 (Some 2); c15c_B TLS12 (Some 1); c15c_A TLS12 (Some 0); c15c_A TLS13 None;
    c15c_C TLS11 (Some 2); c15c_C TLS13 (Some 2) ].

Example c15c_ex_per_identity : per_identity c15c_ident c15c_conns.
Proof.
  intros x k Hin Hk. cbn in Hin.
  repeat (destruct Hin as [<-|Hin]; [cbn in Hk; try discriminate; injection Hk as <-; reflexivity|]).
  destruct Hin.
Qed.

(* A, A again (resumed), B, A (resumed), C, B (resumed), A at another version
   (full), A without its cache (full), C at TLS 1.1 (refused), C (resumed):
   the role is that of the client in every served session *)
Example c15c_ex_sequence :
  tls_serve_cached c15c_hsr c15c_conf [] c15c_conns
  = [ Some (false, [0x6f; 0x70]); Some (true, [0x6f; 0x70]); Some (false, []); Some (true, [0x6f; 0x70]);
      Some (false, [0x76; 0x69]); Some (true, []); Some (false, [0x6f; 0x70]); Some (false, [0x6f; 0x70]);
      None; Some (true, [0x76; 0x69]) ].
Proof. reflexivity. Qed.

Print Assumptions c15_resumed_not_in_role.
Print Assumptions c15_resume_role_of_state.
Print Assumptions c15_resume_role_of_leaf.
Print Assumptions c15_resume_role_sound.
Print Assumptions c15_resume_role_complete.
Print Assumptions c15_resume_role_independent.
Print Assumptions c15_resume_never_is_sessions.
Print Assumptions c15_resume_never_documented.
