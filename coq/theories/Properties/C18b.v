(* C18b - the deepening of C18 (lemmas in Proofs/HeapValuesP.v and Proofs/HeapP.v).
   C18 proves WHERE the data of a call lives; here the VALUES a call returns, read
   through the heap it leaves (spec_result_values), are those the value-level
   client_call (Model/Client.v, the model of C01 / C02) returns, and the whole call
   refines client_call; the same for calls that leave behind receive buffers of
   skipped / rejected frames and decoder temporaries (Model/HeapJunk.v), and in
   histories in which the caller's own code stores into any array between the
   calls (vocabulary: Spec/AliasValuesSpec.v). *)
From Coq Require Import List.
From Modbus Require Import Base.Bytes Model.Crc Model.Encoding Model.Wire Model.Client Model.Heap
  Model.HeapJunk Spec.ModbusSpec Spec.ClientSpec Spec.AliasSpec Spec.AliasValuesSpec
  Proofs.HeapValuesP.

(* every read call (every call without a slice argument), every heap, every
   reply stream, framing, encoding, growth policy: what the caller reads
   through the returned slice after the call is what client_call returns *)
Theorem c18_result_values : forall gr fr cfg txn ro e s h,
  spec_result_values (snd (hp_call gr fr cfg txn (HpOther ro) e s h))
                     (hr_res (fst (hp_call gr fr cfg txn (HpOther ro) e s h))) =
  cr_res (client_call fr cfg txn ro e s).
Proof.
  intros gr fr cfg txn ro e s h. apply (call_values gr fr cfg txn (HpOther ro) e s h). exact I.
Qed.

(* every call: the heap-level call, seen at the value level, IS the
   value-level call on the content the argument slice has when the call is
   made - result, transmitted frames (C18's c18_wire_bytes is the second
   component), peer bytes left unread, transaction counter *)
Theorem c18_call_refines_value_model : forall gr fr cfg txn o e s h,
  args_are_caller_slices o h ->
  spec_call_view (snd (hp_call gr fr cfg txn o e s h)) (fst (hp_call gr fr cfg txn o e s h)) =
  client_call fr cfg txn (hp_value_op o h) e s.
Proof.
  intros gr fr cfg txn o e s h Ho. apply HeapP.call_eq, HeapP.args_caller_wf, Ho.
Qed.

(* histories (those of c18_results_stable): the values a call returned,
   re-read after any number of later calls and caller allocations, are still
   the values of the value-level call; counter and unread bytes carry on as
   in the value-level model *)
Theorem c18_result_values_stable : forall gr fr c cfg o e chunk evs,
  args_are_caller_slices o (hc_heap c) ->
  let c1 := hp_step gr fr c (HeCall cfg o e chunk) in
  let c2 := hp_run gr fr c1 evs in
  let v := client_call fr cfg (hc_txn c) (hp_value_op o (hc_heap c)) e (hc_left c ++ chunk) in
  spec_result_values (hc_heap c2)
    (hr_res (fst (hp_call gr fr cfg (hc_txn c) o e (hc_left c ++ chunk) (hc_heap c)))) = cr_res v /\
  hc_txn c1 = cr_txn v /\ hc_left c1 = cr_rest v.
Proof. exact result_values_stable. Qed.

(* consequently what C02 proves of client_call holds of the slices: success
   only on a well-formed reply to this very request, found at a frame
   boundary, and the ELEMENTS OF THE RETURNED SLICE are the requested values
   decoded from that reply (answers: Spec/ClientSpec.v) *)
Theorem c18_returned_slice_answers_request : forall gr fr cfg txn o e s h vs,
  args_are_caller_slices o h ->
  op_wf (hp_value_op o h) -> cfg_wf cfg -> txn < 65536 -> bytesb s = true ->
  spec_result_values (snd (hp_call gr fr cfg txn o e s h))
                     (hr_res (fst (hp_call gr fr cfg txn o e s h))) = Ok vs ->
  valid_op (hp_value_op o h) = true /\
  exists res pre post,
    answers cfg (hp_value_op o h) res vs /\
    s = pre ++ spec_frame fr (u16 (txn + 1)) res ++ post /\
    hr_rest (fst (hp_call gr fr cfg txn o e s h)) = post /\
    match fr with
    | FMbap => exists frames, pre = concat frames /\ Forall (skippable (u16 (txn + 1))) frames
    | FRtu => pre = []
    end.
Proof. exact call_sound. Qed.

(* and no reply stream drives a call into an out-of-range index or slice
   expression on its buffers (the heap model panics on those) *)
Theorem c18_no_out_of_range : forall gr fr cfg txn o e s h,
  args_are_caller_slices o h -> op_wf (hp_value_op o h) ->
  hr_res (fst (hp_call gr fr cfg txn o e s h)) <> Panic /\
  hr_res (fst (hp_call gr fr cfg txn o e s h)) <> OutOfFuel.
Proof. exact call_no_panic. Qed.

(* Left-over buffers. hj_call = hp_call + arbitrary arrays j1 (receive buffers of frames the
   transport skipped or rejected, discard buffer) and j2 (decoder
   temporaries) left on the heap; without them it is hp_call *)
Theorem c18_leftover_none : forall gr fr cfg txn o e s h,
  hj_call gr fr cfg txn o e s [] [] h = hp_call gr fr cfg txn o e s h.
Proof. exact HeapP.hjp_call_nil. Qed.

Theorem c18_leftover_memory_untouched : forall gr fr cfg txn o e s j1 j2 h,
  memory_untouched h (snd (hj_call gr fr cfg txn o e s j1 j2 h)).
Proof. intros. apply HeapP.keeps_memory, HeapP.hjp_call_frame. Qed.

Theorem c18_leftover_results_allocated_by_the_call : forall gr fr cfg txn o e s j1 j2 h,
  Forall (allocated_between h (snd (hj_call gr fr cfg txn o e s j1 j2 h)))
         (hv_slices (hr_res (fst (hj_call gr fr cfg txn o e s j1 j2 h)))).
Proof.
  intros gr fr cfg txn o e s j1 j2 h. eapply Forall_impl; [|apply HeapP.hjp_call_frame].
  intros t [_ Ht]. exact Ht.
Qed.

Theorem c18_leftover_call_refines_value_model : forall gr fr cfg txn o e s j1 j2 h,
  args_are_caller_slices o h ->
  spec_call_view (snd (hj_call gr fr cfg txn o e s j1 j2 h))
                 (fst (hj_call gr fr cfg txn o e s j1 j2 h)) =
  client_call fr cfg txn (hp_value_op o h) e s.
Proof.
  intros gr fr cfg txn o e s j1 j2 h Ho. apply HeapP.hjp_call_eq, HeapP.args_caller_wf, Ho.
Qed.

(* The caller stores, too. Histories of caller stores (into ANY array: arguments, spare capacity,
   results), caller allocations and calls with left-over buffers: the arrays
   that existed at any point of a history end up exactly as the caller's own
   stores of the rest of the history leave them - the calls in between (any
   operations, settings, replies) contribute nothing *)
Theorem c18_only_caller_stores_alter : forall gr fr c evs,
  firstn (length (hc_heap c)) (hc_heap (hx_run gr fr c evs)) = hx_caller_only evs (hc_heap c).
Proof. exact hxp_caller_only. Qed.

(* in particular every slice returned so far, contents and spare capacity *)
Theorem c18_results_stable_but_for_caller_stores : forall gr fr h0 txn0 left0 evs1 evs2 r,
  let c1 := hx_run gr fr (mkhc h0 txn0 left0 []) evs1 in
  let c2 := hx_run gr fr c1 evs2 in
  In r (hc_results c1) ->
  spec_contents (hc_heap c2) r = spec_contents (hx_caller_only evs2 (hc_heap c1)) r /\
  spec_room (hc_heap c2) r = spec_room (hx_caller_only evs2 (hc_heap c1)) r.
Proof.
  intros gr fr h0 txn0 left0 evs1 evs2 r c1 c2 Hr.
  assert (Hin : HeapP.hs_in 0 (length (hc_heap c1)) r)
    by exact (proj1 (Forall_forall _ _)
                (hxp_run_inv gr fr evs1 (mkhc h0 txn0 left0 []) (Forall_nil _)) r Hr).
  unfold spec_contents, spec_room. rewrite <- (hxp_caller_only gr fr c1 evs2). fold c2.
  split; symmetry; apply HeapP.cells_firstn; try exact Hin; [apply Hin|apply le_n].
Qed.

(* and the values of a call made at any point of such a history (the caller
   may have overwritten the argument or earlier results before): right after
   the call they are the value-level values for the content the argument has
   THEN; later they are what the caller's own stores made of them *)
Theorem c18_history_values : forall gr fr c cfg o e chunk j1 j2 evs,
  args_are_caller_slices o (hc_heap c) ->
  let c1 := hx_step gr fr c (HxCall cfg o e chunk j1 j2) in
  let c2 := hx_run gr fr c1 evs in
  let res := hr_res (fst (hj_call gr fr cfg (hc_txn c) o e (hc_left c ++ chunk) j1 j2 (hc_heap c))) in
  let v := client_call fr cfg (hc_txn c) (hp_value_op o (hc_heap c)) e (hc_left c ++ chunk) in
  spec_result_values (hc_heap c1) res = cr_res v /\
  hc_txn c1 = cr_txn v /\ hc_left c1 = cr_rest v /\
  spec_result_values (hc_heap c2) res = spec_result_values (hx_caller_only evs (hc_heap c1)) res.
Proof. exact history_values. Qed.

(* the histories of C18 are the special case: no stores, no left-overs *)
Theorem c18_histories_generalised : forall gr fr evs c,
  hx_run gr fr c (map hx_of_event evs) = hp_run gr fr c evs /\
  hx_caller_only (map hx_of_event evs) (hc_heap c) = hc_heap c.
Proof. exact histories_generalised. Qed.

(* Non-vacuity. ReadBytes, little endian, odd quantity 3, over RTU: the reply carries
   0a 0b 0c 0d; the slice returned (an interior window of the 256-byte
   receive buffer, swapped in place and cut) holds 0b 0a 0d - which is what
   client_call returns *)
Example c18b_ex_read_bytes :
  let cfg := mkcfg 1 LittleE HighFirst in
  let reply := [1; 3; 4; 0x0a; 0x0b; 0x0c; 0x0d] ++ crc_bytes [1; 3; 4; 0x0a; 0x0b; 0x0c; 0x0d] in
  let '(r, h') := hp_call hp_gr_double FRtu cfg 0 (HpOther (OpReadBytes false 0 3 Holding)) Stall reply [] in
  cr_res (client_call FRtu cfg 0 (OpReadBytes false 0 3 Holding) Stall reply) = Ok (VBytes [0x0b; 0x0a; 0x0d]) /\
  spec_result_values h' (hr_res r) = Ok (VBytes [0x0b; 0x0a; 0x0d]) /\
  hr_res r = Ok (HvBytes (mkhs 4 3 3 253)).
Proof. vm_compute. repeat split; reflexivity. Qed.

(* a foreign frame first (skipped: its two buffers are left over), then the
   reply; ReadUint32s; the caller then overwrites the first element of the
   result and reads again: the later call leaves the caller's value alone *)
Example c18b_ex_history :
  let cfg := mkcfg 1 BigE HighFirst in
  let foreign := [0; 9; 0; 0; 0; 3; 1; 3; 0] in
  let reply1 := [0; 1; 0; 0; 0; 7; 1; 3; 4; 0x0a; 0x0b; 0x0c; 0x0d] in
  let reply2 := [0; 2; 0; 0; 0; 5; 1; 3; 2; 0xee; 0xff] in
  let c1 := hx_run hp_gr_double FMbap (mkhc [] 0 [] [])
              [HxCall cfg (HpOther (OpReadRegs 2 0 1 Holding)) Stall (foreign ++ reply1)
                      [[0; 9; 0; 0; 0; 3; 1]; [3; 0]] [[0x0a0b0c0d]]] in
  match hc_results c1 with
  | [r] =>
      spec_contents (hc_heap c1) r = [0x0a0b0c0d] /\
      let c2 := hx_run hp_gr_double FMbap c1
                  [HxStore (hs_arr r) (hs_off r) [7];
                   HxCall cfg (HpOther (OpReadRegs 1 0 1 Holding)) Stall reply2 [] []] in
      length (hc_results c2) = 2%nat /\ spec_contents (hc_heap c2) r = [7] /\ hc_txn c2 = 2
  | _ => False
  end.
Proof. vm_compute. repeat split; reflexivity. Qed.

Print Assumptions c18_result_values.
Print Assumptions c18_call_refines_value_model.
Print Assumptions c18_result_values_stable.
Print Assumptions c18_returned_slice_answers_request.
Print Assumptions c18_no_out_of_range.
Print Assumptions c18_leftover_none.
Print Assumptions c18_leftover_memory_untouched.
Print Assumptions c18_leftover_results_allocated_by_the_call.
Print Assumptions c18_leftover_call_refines_value_model.
Print Assumptions c18_only_caller_stores_alter.
Print Assumptions c18_results_stable_but_for_caller_stores.
Print Assumptions c18_history_values.
Print Assumptions c18_histories_generalised.
