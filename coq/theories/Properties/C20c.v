(* C20c - C20 for command lists that are executed more than once (`repeat`).
   Lemmas: Proofs/CliRepeatP.v. Model/CliRepeat.v adds `repeat` and
   `sleep:<duration>` to the parser of Model/Cli.v and iterates the execution
   loop; Spec/CliRepeatSpec.v is written from the help text: "Restart execution
   of the given commands". time.ParseDuration enters as an oracle (dur). *)
From Modbus Require Import Base.Bytes Model.Encoding Model.Wire Model.Client Model.Strconv Model.Cli
  Model.CliRepeat Spec.ModbusSpec Spec.ClientSpec Spec.CliSpec Spec.CliRepeatSpec Proofs.CliP Proofs.CliRepeatP.
From Coq Require String.
Import String.StringSyntax.
Local Delimit Scope string_scope with string.

(* every pass is a run of the execution loop over the SAME operations,
   started from the state (unit id, transaction counter, device memory) the
   previous pass left: all the statements of C20 about cli_exec / cli_run in
   an arbitrary state (c20_read_regs_values, c20_write_num_lands, ...) hold
   for every command of every pass, with the device as the earlier passes
   left it. *)
Theorem c20c_pass_is_run : forall n st ops,
  clr_iter (S n) st ops = cli_run (clr_iter n st ops) ops.
Proof. exact iter_snoc. Qed.

(* the requests of n passes: the documented requests of the list, n times
   over; the addresses, counts and values are those on the command line in
   every pass, only the unit id selected by `sid` and the transaction counter
   carry over. Independent of the device's contents. *)
Theorem c20c_frames : forall n cs st,
  Forall cli_op_wf cs -> cfg_wf (cs_cfg st) -> cs_txn st < 65536 ->
  cs_tx (clr_iter n st cs) = cs_tx st ++ clr_doc_frames n (cs_cfg st) (cs_txn st) cs.
Proof. exact iter_frames. Qed.

Theorem c20c_pass_frames : forall n cs st,
  Forall cli_op_wf cs -> cfg_wf (cs_cfg st) -> cs_txn st < 65536 ->
  let s := clr_iter n st cs in
  cs_tx (clr_iter (S n) st cs) = cs_tx s ++ cli_doc_frames (cs_cfg s) (cs_txn s) cs.
Proof.
  intros n cs st Hwf Hcfg Htxn. cbn zeta. rewrite iter_snoc.
  destruct (iter_wf n cs st Hwf Hcfg Htxn) as [H1 H2].
  apply run_frames; assumption.
Qed.

(* unit id and transaction counter at the end of a pass are the documented ones *)
Theorem c20c_pass_end : forall cs st,
  Forall cli_op_wf cs -> cfg_wf (cs_cfg st) -> cs_txn st < 65536 ->
  cli_doc_end (cs_cfg st) (cs_txn st) cs = (cs_cfg (cli_run st cs), cs_txn (cli_run st cs)) /\
  cfg_wf (cs_cfg (cli_run st cs)) /\ cs_txn (cli_run st cs) < 65536.
Proof. exact run_end. Qed.

(* the whole program: n passes of an accepted looping command line (as in
   c20_requests_exact the proof does not need u to be bytes) *)
Theorem c20c_requests_exact : forall pf32 pf64 dur,
  (forall s v, pf32 s = Some v -> v < 2 ^ 32) -> (forall s v, pf64 s = Some v -> v < 2 ^ 64) ->
  forall n e w u args dev st,
  Forall (fun a => bytesb a = true) args -> bytesb u = true ->
  clr_main pf32 pf64 dur n e w u args dev = CliDone st ->
  clr_main_loops pf32 pf64 dur args = true ->
  exists unit en wo items,
    sc_parse_uint 64 u = ScOk unit /\ unit < 256 /\
    cli_endian_of e = Some en /\ cli_word_of w = Some wo /\
    Forall2 (fun a o => clr_parse_cmd pf32 pf64 dur a = CliOk o) args items /\
    cs_tx st = clr_doc_frames n (mkcfg unit en wo) 0 (clr_pass items).
Proof.
  intros pf32 pf64 dur B32 B64 n e w u args dev st Hb Hu H HL.
  destruct (rmain_done pf32 pf64 dur n e w u args dev st H) as (unit & en & wo & items & H1 & H2 & H3 & H4 & H5 & H6).
  exists unit, en, wo, items. repeat split; try assumption.
  - apply rparse_all_ok. exact H5.
  - unfold clr_main_loops in HL. rewrite H5 in HL. rewrite HL in H6. subst st.
    rewrite iter_frames; [reflexivity| |exact H2|cbn; lia].
    exact (rparse_all_wf pf32 pf64 dur B32 B64 args items Hb H5).
Qed.

(* what is executed: the commands in front of the first `repeat`; what
   stands behind it never runs *)
Theorem c20c_pass_ops : forall pre post, clr_loops pre = false ->
  clr_pass (pre ++ ClrRepeat :: post) = clr_pass pre /\ clr_loops (pre ++ ClrRepeat :: post) = true.
Proof.
  intros pre post.
  induction pre as [|i t IH]; intros H; [split; reflexivity|].
  destruct i; cbn [clr_loops] in H; try discriminate; cbn [app clr_pass clr_loops];
    destruct (IH H) as [E1 E2]; rewrite E1, E2; split; reflexivity.
Qed.

(* parsing: the two extra commands, everything else as in C20 *)
Theorem c20c_parse_cases : forall pf32 pf64 dur arg i,
  clr_parse_cmd pf32 pf64 dur arg = CliOk i ->
  (i = ClrRepeat /\ arg = clr_s_repeat) \/
  (i = ClrSleep /\ exists d, cli_split 58 arg = [clr_s_sleep; d] /\ dur d = true) \/
  (exists c, i = ClrOp c /\ cli_parse_cmd pf32 pf64 arg = CliOk c).
Proof. exact parse_cmd_cases. Qed.

Theorem c20c_parse_kept : forall pf32 pf64 dur arg c,
  cli_parse_cmd pf32 pf64 arg = CliOk c -> clr_parse_cmd pf32 pf64 dur arg = CliOk (ClrOp c).
Proof. exact parse_cmd_kept. Qed.

(* a command line without the extra commands behaves as cli_main says *)
Theorem c20c_one_shot : forall pf32 pf64 dur n e w u args dev ops,
  cli_parse_all pf32 pf64 args = CliOk ops ->
  clr_main pf32 pf64 dur n e w u args dev = cli_main pf32 pf64 e w u args dev /\
  clr_main_loops pf32 pf64 dur args = false.
Proof.
  intros pf32 pf64 dur n e w u args dev ops H. unfold clr_main, cli_main, clr_main_loops.
  rewrite (rparse_all_kept pf32 pf64 dur args ops H), H.
  destruct (pass_all_ops ops) as [E1 E2]. rewrite E1, E2. split; reflexivity.
Qed.

(* all-or-nothing: a refused argument anywhere in the list (also behind a
   `repeat`) ends the program with a non-zero status before any connection *)
Theorem c20c_all_or_nothing : forall pf32 pf64 dur n e w u args dev a,
  In a args -> clr_parse_cmd pf32 pf64 dur a = CliRefused ->
  let r := clr_main pf32 pf64 dur n e w u args dev in
  (exists code, r = CliExit code /\ code <> 0) /\ cli_tx_log r = [] /\ cli_printed r = [].
Proof.
  intros pf32 pf64 dur n e w u args dev a Hin Hr.
  destruct (rmain_all_or_nothing pf32 pf64 dur n e w u args dev a Hin Hr) as (code & E & Hc).
  cbn zeta. rewrite E. repeat split. exists code. split; [reflexivity|exact Hc].
Qed.

(* non-vacuity: the help text's own example, three passes *)
Definition c20c_nof : list N -> option N := fun _ => None.
Definition c20c_anydur : list N -> bool := fun _ => true.

(* "rh:uint32:100 sleep:1s repeat": addresses 100-101 in every pass *)
Example c20c_ex_help :
  let r := clr_main c20c_nof c20c_nof c20c_anydur 3 (sc_str "big"%string) (sc_str "highfirst"%string)
             (sc_str "1"%string)
             [sc_str "rh:uint32:100"%string; sc_str "sleep:1s"%string; sc_str "repeat"%string] cli_dev_init in
  cli_tx_log r =
    [[0; 1; 0; 0; 0; 6; 1; 3; 0; 100; 0; 2];
     [0; 2; 0; 0; 0; 6; 1; 3; 0; 100; 0; 2];
     [0; 3; 0; 0; 0; 6; 1; 3; 0; 100; 0; 2]] /\
  cli_printed r =
    [ClNum 2 100 (cli_pat_hold 100 * 65536 + cli_pat_hold 101);
     ClNum 2 100 (cli_pat_hold 100 * 65536 + cli_pat_hold 101);
     ClNum 2 100 (cli_pat_hold 100 * 65536 + cli_pat_hold 101)].
Proof. vm_compute. split; reflexivity. Qed.

(* a write in the list: the read of the next pass sees it; `sid` behind the
   read takes effect from the write on and stays for the later passes; the
   command behind `repeat` never runs *)
Example c20c_ex_threaded :
  let r := clr_main c20c_nof c20c_nof c20c_anydur 2 (sc_str "big"%string) (sc_str "hf"%string)
             (sc_str "1"%string)
             [sc_str "rh:uint16:7"%string; sc_str "sid:9"%string; sc_str "wr:uint16:7:0x1234"%string;
              sc_str "repeat"%string; sc_str "wc:1:true"%string] cli_dev_init in
  cli_tx_log r =
    [[0; 1; 0; 0; 0; 6; 1; 3; 0; 7; 0; 1];
     [0; 2; 0; 0; 0; 6; 9; 6; 0; 7; 18; 52];
     [0; 3; 0; 0; 0; 6; 9; 3; 0; 7; 0; 1];
     [0; 4; 0; 0; 0; 6; 9; 6; 0; 7; 18; 52]] /\
  cli_printed r = [ClNum 1 7 (cli_pat_hold 7); ClWrote; ClNum 1 7 0x1234; ClWrote].
Proof. vm_compute. split; reflexivity. Qed.

Example c20c_ex_refused :
  clr_parse_cmd c20c_nof c20c_nof c20c_anydur (sc_str "repeat:1"%string) = CliRefused /\
  clr_parse_cmd c20c_nof c20c_nof c20c_anydur (sc_str "sleep"%string) = CliRefused /\
  clr_parse_cmd c20c_nof c20c_nof c20c_anydur (sc_str "sleep:1s:2s"%string) = CliRefused /\
  clr_parse_cmd c20c_nof c20c_nof (fun _ => false) (sc_str "sleep:soon"%string) = CliRefused /\
  clr_parse_cmd c20c_nof c20c_nof c20c_anydur (sc_str "repeat"%string) = CliOk ClrRepeat /\
  clr_parse_cmd c20c_nof c20c_nof c20c_anydur (sc_str "sleep:3ms"%string) = CliOk ClrSleep.
Proof. vm_compute. repeat split; reflexivity. Qed.

Print Assumptions c20c_pass_is_run.
Print Assumptions c20c_frames.
Print Assumptions c20c_pass_frames.
Print Assumptions c20c_pass_end.
Print Assumptions c20c_requests_exact.
Print Assumptions c20c_pass_ops.
Print Assumptions c20c_parse_cases.
Print Assumptions c20c_parse_kept.
Print Assumptions c20c_one_shot.
Print Assumptions c20c_all_or_nothing.
