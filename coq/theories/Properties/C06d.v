(* C06 - first clause over SESSIONS: every frame sent in a sequence of requests
   on one client / one RTU transport ends with the CRC-16/MODBUS (bit-serial
   reference, low byte first) of its own preceding bytes, whatever was sent
   before it on that transport, so a device that drops every frame whose
   trailer does not match answers every request. Lemmas: Proofs/RtuSeqP.v. *)
From Modbus Require Import Base.Bytes Model.Encoding Model.Wire Model.Client Model.RtuSeq
  Spec.ModbusSpec Spec.ClientSpec Spec.RtuSeqSpec Proofs.RtuSeqP.

(* the executable trailer test (the device's, and the check's predicate on the
   frames the real client emitted) is the declarative one *)
Theorem c06_trailer_test : forall f, ends_with_crcb f = true <-> ends_with_crc f.
Proof. exact ends_with_crcb_iff. Qed.

(* every frame of every session, for every history of calls, reconfigurations,
   replies and leftover bytes *)
Theorem c06_session_frames : forall steps cfg left,
  cfg_wf cfg -> Forall rs_step_wf steps ->
  Forall (fun r => Forall ends_with_crc (cr_writes r)) (rtuseq_run cfg left steps).
Proof. exact rtuseq_frames_crc. Qed.

(* a device that checks the trailer of what it receives answers every request
   of the session: all the calls succeed *)
Theorem c06_session_succeeds : forall steps cfg vss,
  cfg_wf cfg -> rs_answered cfg steps vss ->
  map cr_res (rtuseq_run cfg [] steps) = map (fun vs => Ok vs) vss.
Proof. exact rtuseq_all_succeed. Qed.

(* non-vacuity: two writes to the same registers with different data, the
   second frame has its own trailer and both are answered *)
Example c06_ex_session :
  map (fun r => (cr_res r, cr_writes r)) (rtuseq_run (mkcfg 1 BigE HighFirst) []
    [RsCall (OpWriteRegs 1 0x10 [0x1111; 0x2222]) [1; 16; 0; 16; 0; 2; 0x40; 0x0d];
     RsCall (OpWriteRegs 1 0x10 [0x3333; 0x4444]) [1; 16; 0; 16; 0; 2; 0x40; 0x0d]]) =
  [(Ok VUnit, [[1; 16; 0; 16; 0; 2; 4; 0x11; 0x11; 0x22; 0x22; 0x3f; 0x23]]);
   (Ok VUnit, [[1; 16; 0; 16; 0; 2; 4; 0x33; 0x33; 0x44; 0x44; 0x3e; 0xdb]])].
Proof. vm_compute. reflexivity. Qed.

(* the hypothesis of c06_session_succeeds is satisfiable: the same write twice
   with different data, a change of unit id in between *)
Example c06_ex_answered :
  rs_answered (mkcfg 1 BigE HighFirst)
    [RsCall (OpWriteRegs 1 0x10 [0x1111; 0x2222]) (spec_frame FRtu 0 (mkpdu 1 16 [0; 16; 0; 2]));
     RsCfg (mkcfg 9 BigE HighFirst);
     RsCall (OpWriteRegs 1 0x10 [0x3333; 0x4444]) (spec_frame FRtu 0 (mkpdu 9 16 [0; 16; 0; 2]))]
    [VUnit; VUnit].
Proof.
  assert (W : forall a b, op_wf (OpWriteRegs 1 0x10 [a; b]) <-> a < 65536 /\ b < 65536).
  { intros a b. cbn [op_wf]. change (2 ^ (16 * 1)) with 65536. split.
    - intros (_ & _ & F). inversion F as [|? ? Ha F']; subst. inversion F' as [|? ? Hb _]; subst. tauto.
    - intros [Ha Hb]. split; [left; reflexivity|]. split; [reflexivity|].
      constructor; [exact Ha|]. constructor; [exact Hb|]. constructor. }
  cbn [rs_answered]. unfold cfg_wf. cbn [c_unit].
  split; [apply W; lia|]. split; [reflexivity|]. split.
  { exists (mkpdu 1 16 [0; 16; 0; 2]). repeat split; reflexivity. }
  split; [lia|].
  split; [apply W; lia|]. split; [reflexivity|]. split.
  { exists (mkpdu 9 16 [0; 16; 0; 2]). repeat split; reflexivity. }
  reflexivity.
Qed.

Print Assumptions c06_trailer_test.
Print Assumptions c06_session_frames.
Print Assumptions c06_session_succeeds.
