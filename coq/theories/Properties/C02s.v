(* C02, source level: the RTU length inference table and the exception-code map AS TRANSLATED FROM THE GO SOURCE
   ON THIS RUN (Gen/SrcPure.v) are the model's, for every argument (lemmas in Proofs/SrcMiscP.v). Error values
   are numbers: 0 = nil, 1 = an error that is none of the package's Error constants, 2 = such an error for which
   os.IsTimeout holds, then from 3 the constants in order of declaration (src_error_codes). *)
From Coq Require Import List NArith String.
Import ListNotations.
From Modbus Require Import Base.Bytes Model.GoLite Gen.SrcPure Model.Wire Model.Client.
From Modbus Require Import Proofs.GoLiteLinkP Proofs.SrcMiscP.
Open Scope string_scope.
Open Scope N_scope.

(* expectedResponseLenth(function code, third byte): all 2^16 inputs *)
Theorem c02s_expected_len : forall fuel fc b2, fc < 256 -> b2 < 256 ->
  call_with src_pure no_fns fuel "expectedResponseLenth" [VN fc; VN b2] =
  match expected_len fc b2 with
  | Some m => GoLite.Ok [VN m; VN 0]
  | None => GoLite.Ok [VN 0; VN (code_of "ErrProtocolError")]
  end.
Proof. exact (src_expectedResponseLenth_ok no_fns). Qed.
Print Assumptions c02s_expected_len.

(* mapExceptionCodeToError: all 256 codes *)
Theorem c02s_exception_map : forall fuel c, c < 256 ->
  call_with src_pure no_fns fuel "mapExceptionCodeToError" [VN c] = GoLite.Ok [VN (err_value (exc_err c))].
Proof. exact (src_mapExceptionCodeToError_ok no_fns). Qed.
Print Assumptions c02s_exception_map.

(* a known code gives its documented, named error; the names are distinct, non-nil values *)
Theorem c02s_exception_named : forall c, known_exception c = true ->
  err_value (exc_err c) = code_of (exc_name c) /\ 2 <= code_of (exc_name c).
Proof.
  intros c H. unfold exc_err. rewrite H. split; [reflexivity|].
  apply known_exception_cases in H. cbn [In] in H.
  repeat (destruct H as [<-|H]; [vm_compute; discriminate|]). destruct H.
Qed.
Print Assumptions c02s_exception_named.

Theorem c02s_error_codes_distinct :
  NoDup (map snd src_error_codes) /\ forallb (fun nc => 2 <=? snd nc) src_error_codes = true.
Proof.
  split.
  - vm_compute. repeat (constructor; [cbv; intuition discriminate|]). constructor.
  - vm_compute. reflexivity.
Qed.
Print Assumptions c02s_error_codes_distinct.
