(* C05 - "the call keeps waiting for its own reply until the timeout", in
   time. The peer's bytes carry their arrival instants (Model/Timed.v); times
   are integer nanoseconds. Statements, each with the last step of its proof;
   the lemmas are in Proofs/TxnTimedP.v and Proofs/TimedP.v. *)
From Modbus Require Import Base.Bytes Model.Crc Model.Encoding Model.Wire Model.Client
  Model.Timed Spec.ModbusSpec Spec.ClientSpec Spec.TimedSpec Proofs.TimedP Proofs.TxnTimedP.

(* T5: a peer that only ever sends frames with another transaction id or a
   non-Modbus protocol id - late replies to earlier requests, duplicates,
   foreign traffic; any number, at any instants, the last one possibly cut by
   the deadline: the call returns the request-timed-out error, exactly at its
   deadline t0 + timeout - never a result, never earlier, never later. *)
Theorem c05_timed_keeps_waiting : forall k la cfg txn o t0 s frames,
  op_wf o -> valid_op o = true -> (0 <= tm_timeout k)%Z ->
  map snd s = concat frames -> Forall (skippable (u16 (txn + 1))) frames ->
  let r := tm_client_call FMbap k la cfg txn o t0 None s in
  tmc_res r = Err ETimeout /\ tmc_finish r = (t0 + tm_timeout k)%Z.
Proof. exact timed_keeps_waiting. Qed.

(* T6: ... and when its own reply does arrive by the deadline, after any such
   frames, the call returns the values of that reply (no later than the
   deadline), whatever follows *)
Theorem c05_timed_own_reply : forall k la cfg txn o t0 c pre post res vs frames,
  op_wf o -> cfg_wf cfg -> txn < 65536 -> valid_op o = true -> (0 <= tm_timeout k)%Z ->
  bytesb (p_payload res) = true -> answers cfg o res vs ->
  Forall (skippable (u16 (txn + 1))) frames ->
  map snd pre = concat frames ++ spec_frame FMbap (u16 (txn + 1)) res ->
  Forall (fun p => (fst p <= t0 + tm_timeout k)%Z) pre ->
  let r := tm_client_call FMbap k la cfg txn o t0 c (pre ++ post) in
  tmc_res r = Ok vs /\ (t0 <= tmc_finish r <= t0 + tm_timeout k)%Z.
Proof. exact tm_timely_mbap. Qed.

(* any prefix of a sequence of frames to skip leaves the untimed receive loop
   waiting (what has arrived by an instant is such a prefix: tm_avail_prefix,
   Proofs/TxnTimedP.v) *)
Theorem c05_prefix_waits : forall cfg txn o e frames k,
  op_wf o -> valid_op o = true -> Forall (skippable (u16 (txn + 1))) frames ->
  let r := client_call FMbap cfg txn o e (firstn k (concat frames)) in
  cr_res r = Err (short_err e) /\ cr_rest r = [] /\ cr_txn r = u16 (txn + 1).
Proof. exact call_prefix_waits. Qed.

(* non-vacuity: concrete instances of the statements above *)
Definition c05b_k : tm_conf := mk_tm_conf 150000000 0 0 0.   (* 150 ms *)
Definition c05b_cfg : ccfg := mkcfg 17 BigE HighFirst.
Definition c05b_o : op := OpReadRegs 1 0x10 1 Holding.
(* the call under study is the third on this connection: its id is 3 *)
Definition c05b_late1 : list N := [0; 1; 0; 0; 0; 5; 17; 3; 2; 0x11; 0x11].   (* reply to request 1 *)
Definition c05b_late2 : list N := [0; 2; 0; 0; 0; 5; 17; 3; 2; 0x22; 0x22].   (* reply to request 2 *)
Definition c05b_foreign : list N := [0; 3; 0; 7; 0; 5; 17; 3; 2; 0x33; 0x33]. (* id 3, protocol 7 *)
Definition c05b_own : list N := [0; 3; 0; 0; 0; 5; 17; 3; 2; 0xab; 0xcd].
Definition c05b_at (t : Z) (l : list N) : list (Z * N) := map (fun b => (t, b)) l.
Definition c05b_run (s : list (Z * N)) :=
  let r := tm_client_call FMbap c05b_k 0%Z c05b_cfg 2 c05b_o 1000%Z None s in (tmc_res r, tmc_finish r).

(* late replies, a duplicate and a foreign-protocol frame, the last one cut by
   the deadline: timeout at t0 + 150 ms *)
Example c05b_ex_waits :
  c05b_run (c05b_at 2000 c05b_late1 ++ c05b_at 40000000 c05b_late2 ++ c05b_at 40000001 c05b_late2
            ++ c05b_at 90000000 c05b_foreign ++ c05b_at 150000000 (firstn 9 c05b_late1)
            ++ c05b_at 150002000 (skipn 9 c05b_late1))
  = (Err ETimeout, 150001000%Z).
Proof. vm_compute. reflexivity. Qed.

(* the same stale traffic, then the own reply at 0.9 x timeout *)
Example c05b_ex_own :
  c05b_run (c05b_at 2000 c05b_late1 ++ c05b_at 40000000 c05b_late2 ++ c05b_at 90000000 c05b_foreign
            ++ c05b_at 135000000 c05b_own ++ c05b_at 135000001 c05b_late1)
  = (Ok (VNums [0xabcd]), 135000000%Z).
Proof. vm_compute. reflexivity. Qed.

Example c05b_ex_skippable :
  Forall (skippable (u16 (2 + 1))) [c05b_late1; c05b_late2; c05b_late2; c05b_foreign].
Proof.
  repeat constructor.
  - exists 1, 0, 17, 3, [2; 0x11; 0x11]. repeat split; try (vm_compute; reflexivity); cbn; lia.
  - exists 2, 0, 17, 3, [2; 0x22; 0x22]. repeat split; try (vm_compute; reflexivity); cbn; lia.
  - exists 2, 0, 17, 3, [2; 0x22; 0x22]. repeat split; try (vm_compute; reflexivity); cbn; lia.
  - exists 3, 7, 17, 3, [2; 0x33; 0x33]. repeat split; try (vm_compute; reflexivity); cbn; lia.
Qed.

Print Assumptions c05_timed_keeps_waiting.
Print Assumptions c05_timed_own_reply.
Print Assumptions c05_prefix_waits.
