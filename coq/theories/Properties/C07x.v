(* C07x - "a valid reply that arrives before the timeout is never turned into a
   timeout" for the OTHER kind of valid reply, the exception response: function
   code with the error bit set, one code byte, sent by the addressed unit or by
   the gateway unit 255 (ClientSpec.exception_reply). Every operation, every one
   of the 256 code bytes. Lemmas: Proofs/TimedExcP.v. *)
From Modbus Require Import Base.Bytes Model.Crc Model.Encoding Model.Wire Model.Client
  Model.Timed Spec.ModbusSpec Spec.ClientSpec Spec.TimedSpec Proofs.TimedExcP.

(* MBAP transports: the error of the exception code (documented table, else
   the unknown-exception-code error), within the timeout *)
Theorem c07x_timely_exception_mbap : forall k la cfg txn o t0 c pre post res code frames,
  op_wf o -> cfg_wf cfg -> txn < 65536 -> valid_op o = true -> (0 <= tm_timeout k)%Z ->
  code < 256 -> exception_reply cfg o res code ->
  Forall (skippable (u16 (txn + 1))) frames ->
  map snd pre = concat frames ++ spec_frame FMbap (u16 (txn + 1)) res ->
  Forall (fun p => (fst p <= t0 + tm_timeout k)%Z) pre ->
  let r := tm_client_call FMbap k la cfg txn o t0 c (pre ++ post) in
  tmc_res r = Err (if documented_exception code then EExc code else EExcUnknown code) /\
  (t0 <= tmc_finish r <= t0 + tm_timeout k)%Z.
Proof. exact tm_timely_exception_mbap. Qed.

(* RTU transports (net.Conn): the reply is at the start of the stream and the
   post-write sleep ends before the deadline *)
Theorem c07x_timely_exception_rtu : forall k la cfg txn o t0 c pre post res code,
  op_wf o -> cfg_wf cfg -> valid_op o = true -> tm_conf_wf k -> tm_gran k = 0%Z ->
  (tm_rtu_read_start k la t0 (tm_req_len cfg o) <= t0 + tm_timeout k)%Z ->
  code < 256 -> exception_reply cfg o res code ->
  map snd pre = spec_frame FRtu 0 res ->
  Forall (fun p => (fst p <= t0 + tm_timeout k)%Z) pre ->
  tmc_res (tm_client_call FRtu k la cfg txn o t0 c (pre ++ post)) =
    Err (if documented_exception code then EExc code else EExcUnknown code).
Proof. exact tm_timely_exception_rtu. Qed.

(* the clause as worded: never the request-timed-out error *)
Theorem c07x_exception_never_timeout_mbap : forall k la cfg txn o t0 c pre post res code frames,
  op_wf o -> cfg_wf cfg -> txn < 65536 -> valid_op o = true -> (0 <= tm_timeout k)%Z ->
  code < 256 -> exception_reply cfg o res code ->
  Forall (skippable (u16 (txn + 1))) frames ->
  map snd pre = concat frames ++ spec_frame FMbap (u16 (txn + 1)) res ->
  Forall (fun p => (fst p <= t0 + tm_timeout k)%Z) pre ->
  tmc_res (tm_client_call FMbap k la cfg txn o t0 c (pre ++ post)) <> Err ETimeout.
Proof.
  intros k la cfg txn o t0 c pre post res code frames Hwf Hcfg Htx V Ht Hc Hex HF Hpre Htimes.
  destruct (tm_timely_exception_mbap k la cfg txn o t0 c pre post res code frames
              Hwf Hcfg Htx V Ht Hc Hex HF Hpre Htimes) as [-> _].
  destruct (documented_exception code); discriminate.
Qed.

Theorem c07x_exception_never_timeout_rtu : forall k la cfg txn o t0 c pre post res code,
  op_wf o -> cfg_wf cfg -> valid_op o = true -> tm_conf_wf k -> tm_gran k = 0%Z ->
  (tm_rtu_read_start k la t0 (tm_req_len cfg o) <= t0 + tm_timeout k)%Z ->
  code < 256 -> exception_reply cfg o res code ->
  map snd pre = spec_frame FRtu 0 res ->
  Forall (fun p => (fst p <= t0 + tm_timeout k)%Z) pre ->
  tmc_res (tm_client_call FRtu k la cfg txn o t0 c (pre ++ post)) <> Err ETimeout.
Proof.
  intros k la cfg txn o t0 c pre post res code Hwf Hcfg V Hk Hg Hs Hc Hex Hpre Htimes.
  rewrite (tm_timely_exception_rtu k la cfg txn o t0 c pre post res code
             Hwf Hcfg V Hk Hg Hs Hc Hex Hpre Htimes).
  destruct (documented_exception code); discriminate.
Qed.

Print Assumptions c07x_timely_exception_mbap.
Print Assumptions c07x_timely_exception_rtu.
Print Assumptions c07x_exception_never_timeout_mbap.
Print Assumptions c07x_exception_never_timeout_rtu.

(* 600 ms, 19200 bps; one call per function code the client emits; every
   documented code and one that is not; the reply arrives 30 ms after the
   call was entered (at 1 us): the call returns the error of the code AT THAT
   INSTANT, on either framing - not at the deadline *)
Definition exx_k : tm_conf := mk_tm_conf 600000000 572916 1750000 0.
Definition exx_cfg : ccfg := mkcfg 17 BigE HighFirst.
Definition exx_ops : list op :=
  [OpReadBools false 0x10 3; OpReadBools true 0x10 9; OpReadRegs 1 0x10 2 Holding;
   OpReadRegs 2 0x10 1 InputReg; OpWriteCoil 0x10 true; OpWriteReg 0x10 0x1234;
   OpWriteCoils 0x10 [true; false; true]; OpWriteRegs 1 0x10 [1; 2]; OpWriteBytes false 0x10 [1; 2; 3]].
Definition exx_codes : list N := [1; 2; 3; 4; 5; 6; 8; 10; 11].
Definition exx_at (t : Z) (l : list N) : list (Z * N) := map (fun b => (t, b)) l.
Definition exx_reply (fr : framing) (unit : N) (o : op) (code : N) : list N :=
  spec_frame fr 1 (mkpdu unit (spec_fc o + 128) [code]).
Definition exx_run fr unit o code :=
  let r := tm_client_call fr exx_k 0%Z exx_cfg 0 o 1000%Z None (exx_at 30001000 (exx_reply fr unit o code)) in
  (tmc_res r, tmc_finish r).

Example c07x_ex_hyps : tm_conf_wf exx_k /\ cfg_wf exx_cfg /\
  Forall (fun o => op_wf o /\ valid_op o = true /\ exception_reply exx_cfg o (mkpdu 17 (spec_fc o + 128) [2]) 2 /\
    (tm_rtu_read_start exx_k 0 1000 (tm_req_len exx_cfg o) <= 1000 + tm_timeout exx_k)%Z) exx_ops.
Proof.
  split; [unfold tm_conf_wf, exx_k; cbn [tm_timeout tm_t1 tm_t35 tm_gran]; lia|].
  split; [unfold cfg_wf, exx_cfg; cbn [c_unit]; lia|].
  unfold exx_ops, exception_reply.
  repeat (apply Forall_cons; [|]); try apply Forall_nil;
    cbn [op_wf p_unit p_fc p_payload c_unit exx_cfg];
    repeat match goal with
           | |- _ /\ _ => split
           | |- Forall _ (_ :: _) => apply Forall_cons
           | |- Forall _ [] => apply Forall_nil
           | |- _ \/ _ => lia
           end;
    vm_compute; (reflexivity || discriminate).
Qed.

Example c07x_ex_documented : forallb (fun fr => forallb (fun unit => forallb (fun o => forallb (fun code =>
    match exx_run fr unit o code with
    | (Err (EExc c), t) => (c =? code) && (t =? 30001000)%Z
    | _ => false
    end) exx_codes) exx_ops) [17; 255]) [FMbap; FRtu] = true.
Proof. vm_compute. reflexivity. Qed.

Example c07x_ex_undocumented : forallb (fun fr => forallb (fun o =>
    match exx_run fr 17 o 7 with
    | (Err (EExcUnknown 7), t) => (t =? 30001000)%Z
    | _ => false
    end) exx_ops) [FMbap; FRtu] = true.
Proof. vm_compute. reflexivity. Qed.
