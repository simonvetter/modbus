(* C10, the case in which the listen step of Start FAILS because the address is
   occupied by a foreign listener while the server is stopped (Model/Lifeblock.v).
   A Start that cannot bind must fail cleanly - error returned, server left
   stopped - so that Stop stays a harmless no-op and a later Start serves again.
   Lemmas in Proofs/LifeblockP.v and Proofs/SlotsP.v. *)
From Coq Require Import List Arith Bool.
Import ListNotations.
From Modbus Require Import Model.Slots Model.Lifeblock Proofs.SlotsP Proofs.LifeblockP.

(* Start returns an error exactly when it reaches the listen step (the server
   is stopped) and the address is occupied *)
Theorem c10c_start_fails_iff : forall b,
  lb_start_fails b = true <-> started (lb_srv b) = false /\ lb_blocked b = true.
Proof. exact start_fails_spec. Qed.

(* the failing listen step changes nothing, however often it is repeated *)
Theorem c10c_failed_start_unchanged : forall b, lb_start_fails b = true ->
  lb_step b (LSrv Start) = b.
Proof. exact failed_start_unchanged. Qed.
Theorem c10c_failed_starts_unchanged : forall b n, lb_start_fails b = true ->
  lb_run b (repeat (LSrv Start) n) = b.
Proof. exact failed_starts_unchanged. Qed.

(* ... in particular it preserves the invariant of C09 / C10 and leaves the
   server stopped: not started, no listener, no accept goroutine *)
Theorem c10c_failed_start_preserves_inv : forall b, lb_start_fails b = true -> Inv (lb_srv b) ->
  Inv (lb_srv (lb_step b (LSrv Start))) /\ started (lb_srv (lb_step b (LSrv Start))) = false /\
  listening (lb_srv (lb_step b (LSrv Start))) = false /\ acceptors (lb_srv (lb_step b (LSrv Start))) = 0.
Proof.
  intros b H I. rewrite (failed_start_unchanged b H). apply start_fails_spec in H as [Hs _].
  split; [exact I|]. split; [exact Hs|]. split; [rewrite (inv_listen _ I); exact Hs|apply (inv_acceptors _ I), Hs].
Qed.

(* every step of the extended system preserves the extended invariant: the one
   of Slots.v, and the address has at most one owner *)
Theorem c10c_step_preserves_inv : forall b l, LInv b -> LInv (lb_step b l).
Proof. exact linv_step. Qed.
Theorem c10c_reachable_inv : forall m tr, LInv (lb_run (lb_init m) tr).
Proof. exact lb_reachable_inv. Qed.

(* Stop after a failed Start is a no-op on the whole state *)
Theorem c10c_stop_after_failed_start : forall b, lb_start_fails b = true ->
  lb_step (lb_step b (LSrv Start)) (LSrv Stop) = b.
Proof.
  intros b H. rewrite (failed_start_unchanged b H). apply start_fails_spec in H as [Hs _].
  unfold lb_step. rewrite (step_stop_stopped _ Hs). apply lb_eta.
Qed.

(* Start after (any number of) failed Starts, once the address is free again,
   behaves as Start from the stopped state: the server serves *)
Theorem c10c_start_after_failed_start : forall b n, LInv b -> lb_start_fails b = true ->
  let b1 := lb_step (lb_run b (repeat (LSrv Start) n)) LUnblock in
  let b2 := lb_step b1 (LSrv Start) in
  lb_start_fails b1 = false /\
  lb_srv b2 = step (lb_srv b) Start /\
  started (lb_srv b2) = true /\ listening (lb_srv b2) = true /\ acceptors (lb_srv b2) = 1 /\
  clients (lb_srv b2) = clients (lb_srv b) /\ lb_blocked b2 = false.
Proof.
  intros b n I H. cbn zeta. rewrite (failed_starts_unchanged b n H).
  apply start_fails_spec in H as [Hs Hb].
  destruct (free_start_is_start (lb_step b LUnblock) eq_refl) as [F E]. rewrite E.
  cbn [lb_srv lb_blocked lb_step]. rewrite (step_start _ Hs). cbn [started listening acceptors clients].
  rewrite (inv_acceptors _ (linv_srv _ I) Hs). repeat split; assumption.
Qed.

(* Start is never refused without cause: with the address free it is the Start
   of Slots.v, and on a started server it is the no-op of C10 (no error) *)
Theorem c10c_free_start_is_start : forall b, lb_blocked b = false ->
  lb_start_fails b = false /\ lb_step b (LSrv Start) = mk_lb (step (lb_srv b) Start) false.
Proof. exact free_start_is_start. Qed.
Theorem c10c_started_start_noop : forall b, started (lb_srv b) = true ->
  lb_start_fails b = false /\ lb_step b (LSrv Start) = b.
Proof.
  intros b H. assert (F : lb_start_fails b = false) by (unfold lb_start_fails; rewrite H; reflexivity).
  split; [exact F|]. unfold lb_step. rewrite F, (step_start_started _ H). apply lb_eta.
Qed.

(* the server component of every reachable state is reachable in Slots.v, so the
   theorems of C10.v carry over; e.g. a stopped server serves nothing *)
Theorem c10c_reach_proj : forall m tr, exists tr', lb_srv (lb_run (lb_init m) tr) = run (init m) tr'.
Proof. exact lb_reach_proj. Qed.
Theorem c10c_stopped_serves_nothing : forall m tr c,
  let s := lb_srv (lb_run (lb_init m) tr) in
  started s = false -> listening s = false /\ acceptors s = 0 /\ enabled s (Req c) = false.
Proof.
  intros m tr c. cbn zeta. destruct (lb_reach_proj m tr) as [tr' E]. rewrite E. apply stopped_serves_nothing.
Qed.

(* while a foreign listener holds the address the server is stopped *)
Theorem c10c_blocked_not_started : forall m tr,
  let b := lb_run (lb_init m) tr in
  lb_blocked b = true -> started (lb_srv b) = false /\ lb_block_ok b = false.
Proof.
  intros m tr. cbn zeta. intros Hb. destruct (lb_reachable_inv m tr) as [I X].
  split; [rewrite <- (inv_listen _ I); apply X, Hb|].
  unfold lb_block_ok. rewrite Hb. apply andb_false_r.
Qed.

(* the hypotheses are satisfiable: a failed first Start, a failed restart, and
   service after the address was freed *)
Example c10c_ex :
  let tr := [LBlock; LSrv Start; LSrv Stop; LUnblock; LSrv Start; LSrv (Arrive 1); LSrv (Take 1);
             LSrv (Enrol 1); LSrv Stop; LBlock; LSrv Start; LSrv Start] in
  let b := lb_run (lb_init 2) tr in
  lb_start_fails (lb_run (lb_init 2) [LBlock]) = true /\
  lb_start_fails b = true /\ started (lb_srv b) = false /\ closed (lb_srv b) 1 = true /\
  let b' := lb_run b [LUnblock; LSrv Start; LSrv (Arrive 2); LSrv (Take 2); LSrv (Enrol 2)] in
  started (lb_srv b') = true /\ enabled (lb_srv b') (Req 2) = true.
Proof. vm_compute. repeat split; reflexivity. Qed.

Print Assumptions c10c_start_fails_iff.
Print Assumptions c10c_failed_start_unchanged.
Print Assumptions c10c_failed_starts_unchanged.
Print Assumptions c10c_failed_start_preserves_inv.
Print Assumptions c10c_step_preserves_inv.
Print Assumptions c10c_reachable_inv.
Print Assumptions c10c_stop_after_failed_start.
Print Assumptions c10c_start_after_failed_start.
Print Assumptions c10c_free_start_is_start.
Print Assumptions c10c_started_start_noop.
Print Assumptions c10c_reach_proj.
Print Assumptions c10c_stopped_serves_nothing.
Print Assumptions c10c_blocked_not_started.
