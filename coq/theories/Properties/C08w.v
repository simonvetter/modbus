(* C08, scenario "concslow": goroutines share one client while the device
   answers slowly or too late. The harness records the wire events the device
   sees (WReq k: request k written in one Write call; WEnd k: the reply read of
   request k over); the model side runs cw_atomic (Model/ConcWire.v) on them.
   Lemmas in Proofs/ConcWireP.v and Proofs/ConcP.v. *)
From Coq Require Import List Bool Arith.
Import ListNotations.
From Modbus Require Import Model.Conc Model.ConcWire Proofs.ConcP Proofs.ConcWireP Proofs.GenLocksP
  Gen.ClientLocks.

(* every interleaving of any number of goroutines making any public calls of
   the lock skeleton generated from client.go shows an atomic wire: the check
   never rejects what the model can do, however slow the peer is (the model
   has no clock: a thread may stay between its Tx and its Rx for any time) *)
Theorem c08w_client_wire_atomic : forall prog ps evs c,
  cc_runs_table client_programs client_entries prog ps ->
  cc_exec (cc_init ps) evs c -> cw_atomic (cw_proj evs) = true.
Proof.
  intros prog ps evs c Hr. apply cw_good_atomic, (tb_good _ _ client_programs_wb _ _ Hr).
Qed.
Print Assumptions c08w_client_wire_atomic.

Theorem c08w_good_wire_atomic : forall ps evs c,
  cc_good ps -> cc_exec (cc_init ps) evs c -> cw_atomic (cw_proj evs) = true.
Proof. exact cw_good_atomic. Qed.
Print Assumptions c08w_good_wire_atomic.

(* what an accepted wire means: the event after a request is the end of its
   own exchange (no second request, no end of another one) ... *)
Theorem c08w_atomic_next : forall l1 k e l2,
  cw_atomic (l1 ++ WReq k :: e :: l2) = true -> e = WEnd k.
Proof. intros l1 k e l2. apply cw_run_next. Qed.
Print Assumptions c08w_atomic_next.

(* ... and an exchange only ends directly after its request *)
Theorem c08w_atomic_prev : forall l1 k l2,
  cw_atomic (l1 ++ WEnd k :: l2) = true -> exists l0, l1 = l0 ++ [WReq k].
Proof.
  intros l1 k l2 H. destruct (cw_run_prev _ _ _ _ H) as [[_ Ho]|Hx]; [discriminate|exact Hx].
Qed.
Print Assumptions c08w_atomic_prev.

(* non-vacuity: a serial wire is accepted, also with a last request whose
   reply read is not over; two requests outstanding are rejected; so is a
   reply read that ends another caller's exchange *)
Example c08w_ex_serial : cw_atomic [WReq 2; WEnd 2; WReq 0; WEnd 0; WReq 1] = true.
Proof. reflexivity. Qed.
Example c08w_ex_two_outstanding : cw_atomic [WReq 2; WEnd 2; WReq 0; WReq 1; WEnd 0] = false.
Proof. reflexivity. Qed.
Example c08w_ex_foreign_end : cw_atomic [WReq 0; WEnd 1] = false.
Proof. reflexivity. Qed.

(* an execution with an exchange exists and projects to its wire events *)
Example c08w_ex_exec :
  let ps := [[ALock; ATx; ARx; AUnlock]; [ALock; ATx; ARx; AUnlock]] in
  let evs := [(1, ALock); (1, ATx); (1, ARx); (1, AUnlock); (0, ALock); (0, ATx)] in
  cc_good ps /\ (exists c, cc_exec (cc_init ps) evs c) /\
  cw_proj evs = [WReq 1; WEnd 1; WReq 0].
Proof.
  split; [|split; [eexists; reflexivity|reflexivity]].
  repeat constructor.
Qed.
