(* C06 - client-level clauses: a corrupted RTU reply is never reported as
   success, a wrong CRC field is rejected as such, and the next exchange succeeds
   after a rejection that triggers the resynchronisation flush. The unconditional
   form of the last clause is FALSE for the code as it is (F8 of
   known_findings.json). Lemmas: Proofs/RtuRecoveryP.v, Proofs/FramingP.v. *)
From Modbus Require Import Base.Bytes Model.Crc Model.Encoding Model.Wire Model.Client
  Spec.ModbusSpec Spec.ClientSpec Proofs.CrcP Proofs.FramingP Proofs.RtuRecoveryP.

(* T3: every RTU frame sent ends with the low-byte-first CRC-16 of all
   preceding bytes (bit-serial reference) *)
Theorem c06_frame_sent : forall t p, bytesb ([p_unit p; p_fc p] ++ p_payload p) = true ->
  assemble_rtu p = spec_frame FRtu t p.
Proof. exact assemble_rtu_spec. Qed.

(* T6: for every request, every valid reply and every single-bit, double-bit
   (frames are at most 256 bytes) or <= 16-bit burst corruption of it, followed
   by anything: the call is not a success - whatever length the corrupted
   bytes make the receiver infer. (txn < 65536 is not needed, see C02.v.) *)
Theorem c06_never_success : forall cfg txn o e res vs err post,
  op_wf o -> cfg_wf cfg -> txn < 65536 -> valid_op o = true ->
  bytesb (p_payload res) = true -> answers cfg o res vs ->
  let v := spec_frame FRtu 0 res in
  bytesb err = true -> length err = length v -> low_weight err -> bytesb post = true ->
  forall vs', cr_res (client_call FRtu cfg txn o e (xor_bytes v err ++ post)) <> Ok vs'.
Proof. exact corrupted_never_success. Qed.

(* T7: any CRC field that does not match is a bad-CRC error *)
Theorem c06_bad_crc_field : forall e unit fc b2 data lo hi rest,
  expected_len fc b2 = Some (lenN data) -> lenN data <= 251 ->
  crc_is_equal (crc16 ([unit; fc; b2] ++ data)) lo hi = false ->
  read_rtu e (([unit; fc; b2] ++ data) ++ [lo; hi] ++ rest) = (Err EBadCRC, rest).
Proof. exact read_rtu_bad_crc. Qed.

(* T8: after a rejection by bad CRC, protocol error or short frame at the
   transport (everything the peer sent, up to 1024 bytes, is flushed) the line
   is clean and the next exchange with a well-behaved device succeeds *)
Theorem c06_recovery : forall cfg txn o e s req x rest o2 e2 res2 vs2 post,
  client_request cfg o = Ok req -> (length s <= 1024)%nat ->
  rtu_read_response e s = (Err x, rest) -> flushes x = true ->
  op_wf o2 -> cfg_wf cfg -> valid_op o2 = true ->
  bytesb (p_payload res2) = true -> answers cfg o2 res2 vs2 ->
  let r1 := client_call FRtu cfg txn o e s in
  cr_res r1 = Err x /\ cr_rest r1 = [] /\
  let r2 := client_call FRtu cfg (cr_txn r1) o2 e2 (cr_rest r1 ++ spec_frame FRtu 0 res2 ++ post) in
  cr_res r2 = Ok vs2 /\ cr_rest r2 = post.
Proof.
  intros cfg txn o e s req x rest o2 e2 res2 vs2 post Hreq Hl Er Hfl Hwf2 Hcfg V2 Hb2 Hans2. cbn zeta.
  pose proof (flush_empties_line e s x rest Hl Er Hfl) as Hrest. subst rest.
  assert (H1 : cr_res (client_call FRtu cfg txn o e s) = Err x /\
               cr_rest (client_call FRtu cfg txn o e s) = []).
  { unfold client_call, transport_exchange. rewrite Hreq, Er. split; reflexivity. }
  destruct H1 as [H1 H2]. split; [exact H1|]. split; [exact H2|]. rewrite H2. cbn [app].
  apply ClientRespP.client_complete_rtu; assumption.
Qed.

(* F8: the unconditional recovery clause does not hold: a single-bit flip can
   make a prefix of the reply parse as a complete, CRC-valid exception frame;
   it is not a success, but nothing is flushed and the next exchange fails *)
Theorem c06_recovery_refuted :
  answers f8_cfg f8_op f8_reply (VNums [0x40F3; 0x1234]) /\
  low_weight f8_flip /\ length f8_flip = length (spec_frame FRtu 0 f8_reply) /\
  answers f8_cfg f8_op f8_next (VNums [1; 2]) /\
  let r1 := client_call FRtu f8_cfg 0 f8_op Stall (xor_bytes (spec_frame FRtu 0 f8_reply) f8_flip) in
  cr_res r1 = Err (EExc 4) /\ cr_rest r1 <> [] /\
  let r2 := client_call FRtu f8_cfg (cr_txn r1) f8_op Stall (cr_rest r1 ++ spec_frame FRtu 0 f8_next) in
  cr_res r2 = Err EProtocol.
Proof. exact recovery_refuted. Qed.

Print Assumptions c06_frame_sent.
Print Assumptions c06_never_success.
Print Assumptions c06_bad_crc_field.
Print Assumptions c06_recovery.
Print Assumptions c06_recovery_refuted.
