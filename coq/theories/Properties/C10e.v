(* C10 on plain tcp servers at their connection limit. "When Stop returns every
   client connection has been closed" is about EVERY connection the server has
   accepted: the members of the active list and the connections it has turned away
   (list full, or accepted while Stop ran), whatever their peers have sent on them
   (Model/TurnAway.v). Lemmas in Proofs/TurnAwayP.v and Proofs/SlotsP.v. *)
From Coq Require Import List Arith Bool.
Import ListNotations.
From Modbus Require Import Model.Slots Model.TurnAway Proofs.SlotsP Proofs.TurnAwayP.

(* when Stop returns the listener is closed and every connection accepted so
   far - served or turned away, no hypothesis on what its peer has sent - has
   been closed and is not live; the peers' bytes, the handler counter and the
   responses written are untouched *)
Theorem c10e_stop_closes_every_accepted : forall m tr,
  let b := ta_run (ta_init m) tr in
  started (ta_srv b) = true ->
  let b' := ta_step b (ASrv Stop) in
  started (ta_srv b') = false /\ listening (ta_srv b') = false /\ acceptors (ta_srv b') = 0 /\
  ta_part b' = ta_part b /\ ta_calls b' = ta_calls b /\ ta_wrote b' = ta_wrote b /\
  (forall c, ta_accepted b c = true -> ta_peer_closed b' c = true /\ ta_live b' c = false).
Proof.
  intros m tr. cbn zeta. intros Hs.
  destruct (stop_closes_all (ta_srv (ta_run (ta_init m) tr)) Hs) as (A & B & C & _).
  split; [exact A|]. split; [exact B|]. split; [exact C|].
  split; [reflexivity|]. split; [reflexivity|]. split; [reflexivity|].
  intros c H. rewrite <- ta_run_snoc. apply ta_stopped_all_closed.
  - rewrite ta_run_snoc. exact A.
  - rewrite ta_run_snoc, accepted_after_stop. exact H.
Qed.

(* in every reachable stopped state - for every interleaving of server steps
   and peer steps that led there - every accepted connection is closed *)
Theorem c10e_stopped_all_closed : forall m tr c,
  let b := ta_run (ta_init m) tr in
  started (ta_srv b) = false -> ta_accepted b c = true ->
  ta_peer_closed b c = true /\ ta_live b c = false.
Proof. exact ta_stopped_all_closed. Qed.

(* a handler runs and a response is written only in the Req step of a live
   connection *)
Theorem c10e_write_needs_live : forall b l,
  (ta_calls (ta_step b l) = ta_calls b /\ ta_wrote (ta_step b l) = ta_wrote b) \/
  (exists c, l = ASrv (Req c) /\ ta_live b c = true /\
             ta_calls (ta_step b l) = S (ta_calls b) /\
             ta_wrote (ta_step b l) = upd (ta_wrote b) c (S (ta_wrote b c))).
Proof. exact ta_write_needs_live. Qed.

(* between a Stop and the next Start no handler runs and the server writes
   nothing on any connection, whatever the peers send and the goroutines do *)
Theorem c10e_silent_while_stopped : forall m tr tr',
  let b := ta_run (ta_init m) tr in
  started (ta_srv b) = false -> (forall l, In l tr' -> l <> ASrv Start) ->
  ta_calls (ta_run b tr') = ta_calls b /\ ta_wrote (ta_run b tr') = ta_wrote b /\
  started (ta_srv (ta_run b tr')) = false.
Proof.
  intros m tr tr'. cbn zeta. intros Hs Hn.
  apply silent_while_stopped; [apply ta_reachable_inv|exact Hs|exact Hn].
Qed.

(* a connection that has been turned away is closed, has never been answered,
   is not live, has no session goroutine and is not on the active list - in
   every reachable state, stopped or not *)
Theorem c10e_turned_away_is_over : forall m tr c,
  let b := ta_run (ta_init m) tr in
  ta_turned_away b c = true ->
  ta_peer_closed b c = true /\ ta_wrote b c = 0 /\ ta_live b c = false /\
  ta_session_goroutine b c = false /\ ~ In c (clients (ta_srv b)).
Proof.
  intros m tr c. cbn zeta. intros H. unfold ta_turned_away in H. apply stat_eqb_eq in H.
  pose proof (ta_reachable_inv m tr) as I. repeat split.
  - apply (inv_closed _ I c). left. exact H.
  - destruct (Nat.eq_dec (ta_wrote (ta_run (ta_init m) tr) c) 0) as [E|E]; [exact E|].
    pose proof (wrote_served_reachable m tr c E) as W. rewrite H in W. discriminate.
  - unfold ta_live. rewrite H. reflexivity.
  - unfold ta_session_goroutine. rewrite H. reflexivity.
  - apply not_client; [exact I|rewrite H; reflexivity].
Qed.

(* arriving at a full list: turned away and closed in the admission step *)
Theorem c10e_full_list_turns_away : forall b c, Inv (ta_srv b) -> stat (ta_srv b) c = Taken ->
  maxc (ta_srv b) <= length (clients (ta_srv b)) ->
  let b' := ta_step b (ASrv (Enrol c)) in
  ta_turned_away b' c = true /\ ta_peer_closed b' c = true /\
  clients (ta_srv b') = clients (ta_srv b).
Proof.
  intros b c I Ht Hf. cbn zeta. cbn [ta_step ta_srv].
  destruct (full_list_rejects (ta_srv b) c I Ht (or_intror Hf)) as (A & B & C).
  unfold ta_turned_away, ta_peer_closed. cbn [ta_srv]. rewrite A, B. repeat split. exact C.
Qed.

(* ... and so is a connection that was being accepted while Stop ran *)
Theorem c10e_taken_during_stop : forall b c, Inv (ta_srv b) -> stat (ta_srv b) c = Taken ->
  started (ta_srv b) = true ->
  let b' := ta_step (ta_step b (ASrv Stop)) (ASrv (Enrol c)) in
  ta_turned_away b' c = true /\ ta_peer_closed b' c = true /\ ta_live b' c = false.
Proof.
  intros b c I Ht Hs. cbn zeta. cbn [ta_step ta_srv].
  destruct (taken_during_stop_rejected (ta_srv b) c I Ht Hs) as [A B].
  unfold ta_turned_away, ta_live, ta_peer_closed. cbn [ta_srv]. rewrite A, B. repeat split.
Qed.

(* the live session goroutines are exactly the members of the active list *)
Theorem c10e_sessions_are_clients : forall m tr,
  let b := ta_run (ta_init m) tr in
  ta_sessions b = length (clients (ta_srv b)) /\ NoDup (clients (ta_srv b)) /\
  (forall c, ta_session_goroutine b c = true <-> In c (clients (ta_srv b))).
Proof. intros m tr. exact (sessions_are_clients _ (ta_reachable_inv m tr)). Qed.

(* no session goroutine outlives Stop: it ends and removes its connection in two steps *)
Theorem c10e_session_winds_down : forall b c, Inv (ta_srv b) -> started (ta_srv b) = false ->
  stat (ta_srv b) c = Serving ->
  let b1 := ta_step b (ASrv (End c ClosedByStop)) in
  let b2 := ta_step b1 (ASrv (Remove c)) in
  enabled (ta_srv b) (End c ClosedByStop) = true /\ enabled (ta_srv b1) (Remove c) = true /\
  stat (ta_srv b2) c = Removed /\ ta_session_goroutine b2 c = false /\ ~ In c (clients (ta_srv b2)).
Proof. intros b c. exact (stopped_session_gone (ta_srv b) c). Qed.

(* once they have wound down a stopped server has no goroutine left - however
   many connections it has turned away *)
Theorem c10e_stopped_no_goroutine : forall m tr,
  let b := ta_run (ta_init m) tr in
  started (ta_srv b) = false -> clients (ta_srv b) = [] -> zombies (ta_srv b) = 0 ->
  ta_goroutines b = 0.
Proof.
  intros m tr. cbn zeta. intros Hs Hc Hz. pose proof (ta_reachable_inv m tr) as I.
  unfold ta_goroutines, ta_acceptors, ta_sessions.
  rewrite (inv_acceptors _ I Hs), Hz, Hc. reflexivity.
Qed.

(* Start after Stop serves again; repeated Start / Stop are no-ops on the whole state *)
Theorem c10e_stop_start : forall b, started (ta_srv b) = true ->
  let b' := ta_step (ta_step b (ASrv Stop)) (ASrv Start) in
  started (ta_srv b') = true /\ listening (ta_srv b') = true /\ acceptors (ta_srv b') = 1.
Proof. intros b. exact (stop_start_serves_again (ta_srv b)). Qed.
Theorem c10e_stop_idempotent : forall b,
  ta_step (ta_step b (ASrv Stop)) (ASrv Stop) = ta_step b (ASrv Stop).
Proof. intros b. cbn [ta_step ta_srv ta_part ta_calls ta_wrote]. rewrite stop_idempotent. reflexivity. Qed.
Theorem c10e_start_idempotent : forall b,
  ta_step (ta_step b (ASrv Start)) (ASrv Start) = ta_step b (ASrv Start).
Proof. intros b. cbn [ta_step ta_srv ta_part ta_calls ta_wrote]. rewrite start_idempotent. reflexivity. Qed.

Theorem c10e_reach_proj : forall m tr, exists tr', ta_srv (ta_run (ta_init m) tr) = run (init m) tr'.
Proof. exact ta_reach_proj. Qed.
Theorem c10e_reachable_inv : forall m tr, Inv (ta_srv (ta_run (ta_init m) tr)).
Proof. exact ta_reachable_inv. Qed.

(* the hypotheses are satisfiable: a server with one slot; connection 1 is
   served and in the middle of a request, 2 is turned away and silent, 3 is
   turned away and has sent the first bytes of a request, 4 is turned away and
   has sent a whole request, 5 is being accepted when Stop runs. All are closed
   after Stop (5 after its admission step), requests on them reach no handler
   and are not answered, the goroutines wind down, and after Start a new
   connection is served *)
Definition c10e_arrive (c : conn) : list ta_label := [ASrv (Arrive c); ASrv (Take c); ASrv (Enrol c)].
Example c10e_ex :
  let tr := [ASrv Start] ++ c10e_arrive 1 ++ [ASrv (Req 1); APart 1] ++ c10e_arrive 2 ++
            c10e_arrive 3 ++ [APart 3] ++ c10e_arrive 4 ++ [ASrv (Req 4)] ++
            [ASrv (Arrive 5); ASrv (Take 5)] in
  let b := ta_run (ta_init 1) tr in
  clients (ta_srv b) = [1] /\ ta_calls b = 1 /\ ta_wrote b 1 = 1 /\ ta_wrote b 4 = 0 /\
  map (ta_turned_away b) [1; 2; 3; 4; 5] = [false; true; true; true; false] /\
  map (ta_accepted b) [1; 2; 3; 4; 5] = [true; true; true; true; false] /\
  ta_goroutines b = 2 /\
  let b' := ta_run b [ASrv Stop; ASrv (Enrol 5)] in
  forallb (ta_peer_closed b') [1; 2; 3; 4; 5] = true /\ ta_turned_away b' 5 = true /\
  let b2 := ta_run b' [ASrv (Req 1); ASrv (Req 2); ASrv (Req 3); ASrv (Req 4); ASrv (Req 5);
                       ASrv (End 1 ClosedByStop); ASrv (Remove 1); ASrv AcceptExit] in
  ta_calls b2 = 1 /\ map (ta_wrote b2) [1; 2; 3; 4; 5] = [1; 0; 0; 0; 0] /\
  ta_goroutines b2 = 0 /\ clients (ta_srv b2) = [] /\
  let b3 := ta_run b2 ([ASrv Start] ++ c10e_arrive 6 ++ [ASrv (Req 6)]) in
  ta_calls b3 = 2 /\ ta_wrote b3 6 = 1 /\ ta_goroutines b3 = 2.
Proof. vm_compute. repeat split; reflexivity. Qed.

Print Assumptions c10e_stop_closes_every_accepted.
Print Assumptions c10e_stopped_all_closed.
Print Assumptions c10e_write_needs_live.
Print Assumptions c10e_silent_while_stopped.
Print Assumptions c10e_turned_away_is_over.
Print Assumptions c10e_full_list_turns_away.
Print Assumptions c10e_taken_during_stop.
Print Assumptions c10e_sessions_are_clients.
Print Assumptions c10e_session_winds_down.
Print Assumptions c10e_stopped_no_goroutine.
Print Assumptions c10e_stop_start.
Print Assumptions c10e_stop_idempotent.
Print Assumptions c10e_start_idempotent.
Print Assumptions c10e_reach_proj.
Print Assumptions c10e_reachable_inv.
