(* C07c - "a valid reply that arrives before the timeout is never turned into a
   timeout" for EVERY call of a connection that stays in use (lemmas:
   Proofs/TimedSteadyP.v). Model/TimedSteady.v: the peer answers every request in
   time under the id of the request, possibly after a frame with a foreign id, or
   stays silent for once; session length and start value of the counter are free. *)
From Modbus Require Import Base.Bytes Model.Crc Model.Encoding Model.Wire Model.Client
  Model.Timed Model.TimedSession Model.TimedWrite Model.TimedSteady
  Spec.ModbusSpec Spec.ClientSpec Spec.TimedSpec Spec.TimedWriteSpec Spec.TimedSteadySpec
  Proofs.TimedSteadyP.

(* every call of every session: the values of its reply within the timeout;
   a silence costs exactly one request-timed-out (at the deadline) and leaves
   the calls after it unharmed *)
Theorem c07c_steady_session_mbap : forall k cfg, cfg_wf cfg -> (0 <= tm_timeout k)%Z ->
  forall l la txn room now, txn < 65536 -> Forall (tm_item_wf k cfg) l ->
  Forall2 (tm_step_ok k cfg) l
    (tm_session_w FMbap k cfg la txn room now [] (tm_steady_calls FMbap cfg txn l)).
Proof. exact tm_steady_session_mbap. Qed.

(* the converse clause for whole sessions: a peer that answers every request
   in time is never reported as timed out (or as anything but its values),
   however many requests the connection has carried *)
Theorem c07c_alive_never_fails_mbap : forall k cfg, cfg_wf cfg -> (0 <= tm_timeout k)%Z ->
  forall l la txn room now, txn < 65536 -> Forall (tm_item_wf k cfg) l ->
  Forall (fun it => snd it <> PaSilent) l ->
  Forall (fun st => exists vs, tws_res st = Ok vs)
    (tm_session_w FMbap k cfg la txn room now [] (tm_steady_calls FMbap cfg txn l)).
Proof. exact tm_steady_alive_mbap. Qed.

(* the i-th request of a session carries the id (start + 1 + i) mod 2^16.
   (Used by the session theorems above, from Proofs/TimedSteadyP.v: the
   counter stays a 16-bit value for ever, tm_next_txn_u16, and every timely
   reply is consumed to its last byte, tm_timely_mbap_clean.) *)
Theorem c07c_request_ids : forall cfg l txn,
  Forall (fun it => op_wf (fst (fst it)) /\ valid_op (fst (fst it)) = true) l ->
  tm_steady_ids cfg txn l = map (fun i => u16 (txn + 1 + N.of_nat i)) (seq 0 (length l)).
Proof. exact tm_steady_ids_spec. Qed.

(* non-vacuity: concrete instances of the statements above *)
Definition exc_k : tm_conf := mk_tm_conf 1000000000 0 0 0.   (* 1 s, a socket *)
Definition exc_cfg : ccfg := mkcfg 1 BigE HighFirst.
Definition exc_o : op := OpReadRegs 1 0x10 1 Holding.
Definition exc_res : pdu := mkpdu 1 3 [2; 0xab; 0xcd].
Definition exc_proj (l : list tm_wstep) :=
  map (fun st => (tws_res st, (tws_finish st - tws_start st)%Z)) l.

Example c07c_ex_item : forall a, tm_act_wf exc_k a -> tm_item_wf exc_k exc_cfg (exc_o, exc_res, a).
Proof.
  intros a Ha. unfold tm_item_wf, exc_o, exc_res, exc_cfg, op_wf, answers.
  cbn [p_unit p_fc p_payload c_unit c_endian c_word].
  split; [lia|]. split; [vm_compute; reflexivity|]. split; [vm_compute; reflexivity|].
  split; [vm_compute; discriminate|]. split; [|exact Ha].
  exists (VNums [0xabcd]). split; [reflexivity|]. split; [vm_compute; reflexivity|].
  exists [0xabcd]. split; [vm_compute; reflexivity|]. split; [reflexivity|].
  split; [|reflexivity]. constructor; [|constructor]. cbn. lia.
Qed.

Example c07c_ex_hyps : cfg_wf exc_cfg /\ (0 <= tm_timeout exc_k)%Z /\
  Forall (tm_item_wf exc_k exc_cfg)
    [(exc_o, exc_res, PaReply 0); (exc_o, exc_res, PaSilent); (exc_o, exc_res, PaForeign 0xffff);
     (exc_o, exc_res, PaReply 500000000)].
Proof.
  split; [vm_compute; reflexivity|]. split; [vm_compute; discriminate|].
  repeat (apply Forall_cons; [apply c07c_ex_item; cbn [tm_act_wf exc_k tm_timeout]; (exact I || lia)|]).
  apply Forall_nil.
Qed.

(* a connection that has already carried 65533 requests: the next ones bear
   the ids fffe, ffff, 0000, 0001, 0002 - each is answered; the silence on the
   id 0000 costs that one call, the stale frame (id ffff on the request 0001)
   is passed over *)
Example c07c_ex_ids :
  tm_steady_ids exc_cfg 65533 (repeat (exc_o, exc_res, PaReply 0) 5) = [0xfffe; 0xffff; 0; 1; 2].
Proof. vm_compute. reflexivity. Qed.

Example c07c_ex_wrap :
  exc_proj (tm_session_w FMbap exc_k exc_cfg 0 65533 0 1000 []
    (tm_steady_calls FMbap exc_cfg 65533
       [(exc_o, exc_res, PaReply 0); (exc_o, exc_res, PaReply 7000); (exc_o, exc_res, PaSilent);
        (exc_o, exc_res, PaForeign 0xfffe); (exc_o, exc_res, PaReply 0)]))
  = [(Ok (VNums [0xabcd]), 0%Z); (Ok (VNums [0xabcd]), 7000%Z); (Err ETimeout, 1000000000%Z);
     (Ok (VNums [0xabcd]), 0%Z); (Ok (VNums [0xabcd]), 0%Z)].
Proof. vm_compute. reflexivity. Qed.

Print Assumptions c07c_steady_session_mbap.
Print Assumptions c07c_alive_never_fails_mbap.
Print Assumptions c07c_request_ids.
