(* C06 - the recovery clause in time. The tail of a corrupted reply may reach
   the client after the reply has been rejected (a flipped byte count makes the
   frame look shorter than it is): the client keeps the line quiet for 256
   character times and flushes afterwards, so what arrives until the end of
   the flush window is discarded. Lemmas: Proofs/TimedRecoveryP.v, TimedP.v. *)
From Modbus Require Import Base.Bytes Model.Crc Model.Encoding Model.Wire Model.Client
  Model.Timed Model.TimedSession Spec.ModbusSpec Spec.ClientSpec Spec.TimedSpec
  Proofs.TimedP Proofs.TimedRecoveryP.

(* T9 (net.Conn links): the reply is rejected at t3 with an error that
   triggers the re-synchronisation (bad CRC, protocol error, short frame).
   Whatever else the peer sent that arrives until the end of the flush window
   (t3 + 256 t1 + 500 us; at most 1024 bytes) is discarded; what arrives
   after the window is left on the line untouched; the exchange ends inside
   the window. (0 <= t1 is stated because every configuration has it,
   tm_conf_wf; neither proof below needs it.) *)
Theorem c06_timed_flush : forall k la t0 nreq s x t3 tail later,
  tm_gran k = 0%Z -> (0 <= tm_t1 k)%Z ->
  tm_read_rtu 0 (t0 + tm_timeout k) None (tm_rtu_now2 k la t0 nreq) s = (Err x, t3, tail ++ later) ->
  tm_resync x = true -> (length tail <= 1024)%nat ->
  Forall (fun p => (fst p <= tm_flush_end k t3)%Z) tail -> tm_head_after (tm_flush_end k t3) later ->
  exists t4, rtu_exchange_t k la t0 nreq None s = (Err x, t4, later) /\
             (tm_flush_start k t3 <= t4 <= tm_flush_end k t3)%Z.
Proof.
  intros k la t0 nreq s x t3 tail later Hg _. exact (rtu_exchange_flush0 k la t0 nreq s x t3 tail later Hg).
Qed.

(* the same behind the serial wrapper (or any link with a poll granularity):
   what had arrived when the quiet period ended is discarded *)
Theorem c06_timed_flush_any_link : forall k la t0 nreq s x t3 tail,
  (0 <= tm_gran k)%Z -> (0 <= tm_t1 k)%Z ->
  tm_read_rtu (tm_gran k) (t0 + tm_timeout k) None (tm_rtu_now2 k la t0 nreq) s = (Err x, t3, tail) ->
  tm_resync x = true -> (length tail <= 1024)%nat ->
  Forall (fun p => (fst p <= tm_flush_start k t3)%Z) tail ->
  exists t4, rtu_exchange_t k la t0 nreq None s = (Err x, t4, []) /\
             (tm_flush_start k t3 <= t4 <= tm_flush_end k t3 + tm_gran k)%Z.
Proof.
  intros k la t0 nreq s x t3 tail Hg _ Hread Hx Hl Ht. rewrite <- (app_nil_r tail) in Hread.
  apply (rtu_exchange_flush k la t0 nreq s x t3 tail [] Hg Hread Hx Hl); [|exact I].
  (* what had arrived when the flush started has arrived by the end of its window *)
  eapply Forall_impl; [|exact Ht]. intros p Hp. cbn beta in Hp.
  unfold tm_flush_end, tm_flush_window. lia.
Qed.

(* T10: two calls in a row. Call 1 (entered gap1 after `now`) is rejected at
   t3 as above; the rest of what the peer sent for exchange 1 (tail) arrives
   until the end of the flush window; the valid reply to call 2 (pre) starts
   arriving after the window and is complete by the deadline of call 2, which
   is entered gap2 after call 1 returned; anything may follow (post). Then
   the session is: call 1 fails with that error, call 2 returns the values of
   its reply. *)
Theorem c06_timed_recovery : forall k cfg o1 req1 o2 la now gap1 gap2 s x t3 tail pre post res2 vs2,
  tm_conf_wf k -> tm_gran k = 0%Z -> cfg_wf cfg ->
  client_request cfg o1 = Ok req1 ->
  op_wf o2 -> valid_op o2 = true ->
  let t0 := (now + Z.max 0 gap1)%Z in
  tm_read_rtu 0 (t0 + tm_timeout k) None
    (tm_rtu_now2 k la t0 (Z.of_nat (length (assemble_rtu req1)))) s = (Err x, t3, tail ++ pre ++ post) ->
  tm_resync x = true -> (length tail <= 1024)%nat ->
  Forall (fun p => (fst p <= tm_flush_end k t3)%Z) tail ->
  tm_head_after (tm_flush_end k t3) (pre ++ post) ->
  bytesb (p_payload res2) = true -> answers cfg o2 res2 vs2 ->
  map snd pre = spec_frame FRtu 0 res2 ->
  (forall t4, (tm_flush_start k t3 <= t4 <= tm_flush_end k t3)%Z ->
     let t02 := (t4 + Z.max 0 gap2)%Z in
     (tm_rtu_read_start k t4 t02 (tm_req_len cfg o2) <= t02 + tm_timeout k)%Z /\
     Forall (fun p => (fst p <= t02 + tm_timeout k)%Z) pre) ->
  exists t4 t5,
    (tm_flush_start k t3 <= t4 <= tm_flush_end k t3)%Z /\
    tm_rtu_session k cfg None la now s [(o1, gap1); (o2, gap2)] = [(Err x, t4); (Ok vs2, t5)].
Proof. exact timed_recovery. Qed.

(* 19200 bps, timeout 1 s, unit 1; read 2 holding registers at 0x10. The reply
   01 03 04 12 34 56 78 <crc> with its byte count flipped 04 -> 00 looks like
   a 5-byte frame with a wrong CRC: rejected when 5 bytes are there; its last
   4 bytes arrive 20 ms later, inside the 146.7 ms quiet period. *)
Definition c06c_k : tm_conf := mk_tm_conf 1000000000 572916 1750000 0.
Definition c06c_cfg : ccfg := mkcfg 1 BigE HighFirst.
Definition c06c_o : op := OpReadRegs 1 0x10 2 Holding.
Definition c06c_good : list N := assemble_rtu (mkpdu 1 3 [4; 0x12; 0x34; 0x56; 0x78]).
Definition c06c_bad : list N := [1; 3; 0] ++ skipn 3 c06c_good.
Definition c06c_at (t : Z) (l : list N) : list (Z * N) := map (fun b => (t, b)) l.
Definition c06c_stream (t_tail t_reply2 : Z) : list (Z * N) :=
  c06c_at 9000000 (firstn 5 c06c_bad) ++ c06c_at t_tail (skipn 5 c06c_bad) ++ c06c_at t_reply2 c06c_good.
Definition c06c_run (t_tail t_reply2 : Z) :=
  tm_rtu_session c06c_k c06c_cfg None (-1000000000000)%Z 0%Z (c06c_stream t_tail t_reply2)
    [(c06c_o, 0%Z); (c06c_o, 0%Z)].

(* the tail 20 ms after the head, reply 2 at 400 ms: rejected, flushed, recovered;
   call 1 returns at t3 + 256 t1 + 500 us *)
Example c06c_ex_recovers :
  c06c_run 29000000 400000000 =
  [(Err EBadCRC, (9000000 + 256 * 572916 + 500000)%Z); (Ok (VNums [0x1234; 0x5678]), 400000000%Z)].
Proof. vm_compute. reflexivity. Qed.

(* the hypothesis matters: a tail that arrives after the flush window (here at
   200 ms) is still on the line when call 2 reads, and call 2 fails *)
Example c06c_ex_late_tail :
  map fst (c06c_run 200000000 400000000) = [Err EBadCRC; Err EProtocol].
Proof. vm_compute. reflexivity. Qed.

(* the example meets the hypotheses of c06_timed_recovery *)
Example c06c_ex_hyps :
  tm_conf_wf c06c_k /\ cfg_wf c06c_cfg /\ op_wf c06c_o /\ valid_op c06c_o = true /\
  client_request c06c_cfg c06c_o = Ok (spec_pdu c06c_cfg c06c_o) /\
  tm_read_rtu 0 (0 + tm_timeout c06c_k) None
    (tm_rtu_now2 c06c_k (-1000000000000) 0 (Z.of_nat (length (assemble_rtu (spec_pdu c06c_cfg c06c_o)))))
    (c06c_stream 29000000 400000000)
  = (Err EBadCRC, 9000000%Z, c06c_at 29000000 (skipn 5 c06c_bad) ++ c06c_at 400000000 c06c_good ++ []) /\
  tm_resync EBadCRC = true /\
  Forall (fun p => (fst p <= tm_flush_end c06c_k 9000000)%Z) (c06c_at 29000000 (skipn 5 c06c_bad)) /\
  tm_head_after (tm_flush_end c06c_k 9000000) (c06c_at 400000000 c06c_good ++ []) /\
  answers c06c_cfg c06c_o (mkpdu 1 3 [4; 0x12; 0x34; 0x56; 0x78]) (VNums [0x1234; 0x5678]) /\
  map snd (c06c_at 400000000 c06c_good) = spec_frame FRtu 0 (mkpdu 1 3 [4; 0x12; 0x34; 0x56; 0x78]).
Proof.
  split; [unfold tm_conf_wf, c06c_k; cbn; lia|].
  split; [vm_compute; reflexivity|].
  split; [vm_compute; repeat split; (reflexivity || lia || discriminate)|].
  split; [vm_compute; reflexivity|].
  split; [vm_compute; reflexivity|].
  split; [vm_compute; reflexivity|].
  split; [reflexivity|].
  split; [repeat constructor; vm_compute; discriminate|].
  split; [vm_compute; reflexivity|].
  split; [|vm_compute; reflexivity].
  split; [reflexivity|]. split; [reflexivity|]. exists [0x1234; 0x5678].
  split; [reflexivity|]. split; [reflexivity|]. split; [|reflexivity].
  repeat constructor.
Qed.

Print Assumptions c06_timed_flush.
Print Assumptions c06_timed_flush_any_link.
Print Assumptions c06_timed_recovery.
