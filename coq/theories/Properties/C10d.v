(* C10 on tcp+tls servers, with connections in EVERY phase of becoming a session
   when Stop runs: connected and silent, ClientHello sent and stalled, handshake
   complete and idle, in the middle of a request (Model/TlsLife.v). A connection
   in its handshake is an enrolled connection that has not served a request.
   Lemmas in Proofs/TlsLifeP.v and Proofs/SlotsP.v. *)
From Coq Require Import List Arith Bool.
Import ListNotations.
From Modbus Require Import Model.Slots Model.TlsLife Proofs.SlotsP Proofs.TlsLifeP.

(* when Stop returns the listener is closed and every connection of the active
   list has been closed - there is no hypothesis on its phase - and nothing
   can proceed on it; the peers' phases and the handler counter are untouched *)
Theorem c10d_stop_closes_every_phase : forall b, started (tl_srv b) = true ->
  let b' := tl_step b (TSrv Stop) in
  started (tl_srv b') = false /\ listening (tl_srv b') = false /\ acceptors (tl_srv b') = 0 /\
  tl_phase b' = tl_phase b /\ tl_calls b' = tl_calls b /\
  (forall c, In c (clients (tl_srv b)) ->
     tl_peer_closed b' c = true /\ tl_live b' c = false /\ tl_shake_ok b' c = false /\ tl_req_ok b' c = false).
Proof.
  intros b Hs. cbn zeta. cbn [tl_step tl_srv tl_phase tl_calls].
  destruct (stop_closes_all (tl_srv b) Hs) as (A & B & C & D).
  repeat split; try assumption; [apply D; assumption|..];
    unfold tl_shake_ok, tl_req_ok, tl_live; cbn [tl_srv]; rewrite (D c H), !andb_false_r; reflexivity.
Qed.

(* in every reachable stopped state - for every interleaving of server and
   peer steps that led there - no handshake completes, no request reaches a
   handler, and every connection still held by a session goroutine is closed *)
Theorem c10d_stopped_nothing_proceeds : forall m tr c,
  let b := tl_run (tl_init m) tr in
  started (tl_srv b) = false ->
  tl_shake_ok b c = false /\ tl_req_ok b c = false /\
  (stat (tl_srv b) c = Serving -> tl_peer_closed b c = true).
Proof.
  intros m tr c. cbn zeta. intros Hs. pose proof (tl_reachable_inv m tr) as I.
  unfold tl_shake_ok, tl_req_ok. rewrite tl_live_enabled, (stopped_req _ c I Hs). repeat split.
  apply (inv_stopped _ I Hs c).
Qed.

(* a handler runs only in the Req step of a live connection whose handshake
   has completed *)
Theorem c10d_call_needs_session : forall b l,
  tl_calls (tl_step b l) = tl_calls b \/
  (exists c, l = TSrv (Req c) /\ tl_live b c = true /\ phase_estab (tl_phase b c) = true /\
             tl_calls (tl_step b l) = S (tl_calls b)).
Proof. exact tl_call_needs_session. Qed.

(* no request sent after Stop reaches a handler: until the next Start the
   handler counter is frozen, whatever the peers and the goroutines do *)
Theorem c10d_calls_frozen_while_stopped : forall m tr tr',
  let b := tl_run (tl_init m) tr in
  started (tl_srv b) = false -> (forall l, In l tr' -> l <> TSrv Start) ->
  tl_calls (tl_run b tr') = tl_calls b /\ started (tl_srv (tl_run b tr')) = false.
Proof.
  intros m tr tr'. cbn zeta. intros Hs Hn. apply calls_frozen; [apply tl_reachable_inv|exact Hs|exact Hn].
Qed.

(* ... including a connection that was being accepted while Stop ran *)
Theorem c10d_taken_during_stop : forall b c, Inv (tl_srv b) -> stat (tl_srv b) c = Taken ->
  started (tl_srv b) = true ->
  let b' := tl_step (tl_step b (TSrv Stop)) (TSrv (Enrol c)) in
  stat (tl_srv b') c = Rejected /\ tl_peer_closed b' c = true /\
  tl_shake_ok b' c = false /\ tl_req_ok b' c = false.
Proof.
  intros b c I Ht Hs. cbn zeta. cbn [tl_step tl_srv].
  destruct (taken_during_stop_rejected (tl_srv b) c I Ht Hs) as [A B].
  unfold tl_shake_ok, tl_req_ok, tl_live, tl_peer_closed. cbn [tl_srv]. rewrite A, B. repeat split.
Qed.

(* no session goroutine outlives Stop: whatever phase its connection was in,
   it ends and removes the connection in two steps *)
Theorem c10d_session_winds_down : forall b c, Inv (tl_srv b) -> started (tl_srv b) = false ->
  stat (tl_srv b) c = Serving ->
  let b1 := tl_step b (TSrv (End c ClosedByStop)) in
  let b2 := tl_step b1 (TSrv (Remove c)) in
  enabled (tl_srv b) (End c ClosedByStop) = true /\ enabled (tl_srv b1) (Remove c) = true /\
  stat (tl_srv b2) c = Removed /\ tl_session_goroutine b2 c = false /\ ~ In c (clients (tl_srv b2)).
Proof. intros b c. exact (stopped_session_gone (tl_srv b) c). Qed.

(* the live session goroutines are exactly the members of the active list (so
   an empty list means that no session goroutine is left) *)
Theorem c10d_sessions_are_clients : forall m tr,
  let b := tl_run (tl_init m) tr in
  tl_sessions b = length (clients (tl_srv b)) /\ NoDup (clients (tl_srv b)) /\
  (forall c, tl_session_goroutine b c = true <-> In c (clients (tl_srv b))).
Proof. intros m tr. exact (sessions_are_clients _ (tl_reachable_inv m tr)). Qed.

(* Start after Stop serves again; repeated Start / Stop are no-ops on the
   whole state (phases and counter included) *)
Theorem c10d_stop_start : forall b, started (tl_srv b) = true ->
  let b' := tl_step (tl_step b (TSrv Stop)) (TSrv Start) in
  started (tl_srv b') = true /\ listening (tl_srv b') = true /\ acceptors (tl_srv b') = 1.
Proof. intros b. exact (stop_start_serves_again (tl_srv b)). Qed.
Theorem c10d_stop_idempotent : forall b,
  tl_step (tl_step b (TSrv Stop)) (TSrv Stop) = tl_step b (TSrv Stop).
Proof. intros b. cbn [tl_step tl_srv tl_phase tl_calls]. rewrite stop_idempotent. reflexivity. Qed.
Theorem c10d_start_idempotent : forall b,
  tl_step (tl_step b (TSrv Start)) (TSrv Start) = tl_step b (TSrv Start).
Proof. intros b. cbn [tl_step tl_srv tl_phase tl_calls]. rewrite start_idempotent. reflexivity. Qed.

(* the server component of every reachable state is reachable in Slots.v: the
   theorems of C10.v / C09.v about reachable states carry over *)
Theorem c10d_reach_proj : forall m tr, exists tr', tl_srv (tl_run (tl_init m) tr) = run (init m) tr'.
Proof. exact tl_reach_proj. Qed.
Theorem c10d_reachable_inv : forall m tr, Inv (tl_srv (tl_run (tl_init m) tr)).
Proof. exact tl_reachable_inv. Qed.

(* the hypotheses are satisfiable: four connections, one in each phase, when
   Stop runs; all four are closed, nothing proceeds afterwards, the goroutines
   wind down, and after Start a new connection is served *)
Definition c10d_arrive (c : conn) : list tl_label := [TSrv (Arrive c); TSrv (Take c); TSrv (Enrol c)].
Example c10d_ex :
  let tr := [TSrv Start] ++ c10d_arrive 1 ++ c10d_arrive 2 ++ c10d_arrive 3 ++ c10d_arrive 4 ++
            [THello 2; TShake 3; TSrv (Req 3); THello 4; TShake 4; TPart 4] in
  let b := tl_run (tl_init 4) tr in
  (tl_phase b 1, tl_phase b 2, tl_phase b 3, tl_phase b 4) = (PSilent, PHello, PEstab, PMid) /\
  tl_calls b = 1 /\ tl_sessions b = 4 /\ tl_shake_ok b 1 = true /\ tl_req_ok b 4 = true /\
  let b' := tl_step b (TSrv Stop) in
  forallb (tl_peer_closed b') [1; 2; 3; 4] = true /\
  let b2 := tl_run b' [TShake 1; TShake 2; TSrv (Req 3); TSrv (Req 4);
                       TSrv (End 1 ClosedByStop); TSrv (Remove 1); TSrv (End 2 ClosedByStop); TSrv (Remove 2);
                       TSrv (End 3 ClosedByStop); TSrv (Remove 3); TSrv (End 4 ClosedByStop); TSrv (Remove 4);
                       TSrv AcceptExit] in
  tl_calls b2 = 1 /\ tl_sessions b2 = 0 /\ tl_acceptors b2 = 0 /\ clients (tl_srv b2) = [] /\
  let b3 := tl_run b2 ([TSrv Start] ++ c10d_arrive 5 ++ [TShake 5; TSrv (Req 5)]) in
  tl_calls b3 = 2 /\ tl_sessions b3 = 1 /\ tl_acceptors b3 = 1.
Proof. vm_compute. repeat split; reflexivity. Qed.

Print Assumptions c10d_stop_closes_every_phase.
Print Assumptions c10d_stopped_nothing_proceeds.
Print Assumptions c10d_call_needs_session.
Print Assumptions c10d_calls_frozen_while_stopped.
Print Assumptions c10d_taken_during_stop.
Print Assumptions c10d_session_winds_down.
Print Assumptions c10d_sessions_are_clients.
Print Assumptions c10d_stop_start.
Print Assumptions c10d_stop_idempotent.
Print Assumptions c10d_start_idempotent.
Print Assumptions c10d_reach_proj.
Print Assumptions c10d_reachable_inv.
