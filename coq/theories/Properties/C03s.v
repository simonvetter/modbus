(* C03, source level: mapErrorToExceptionCode AS TRANSLATED FROM THE GO SOURCE
   ON THIS RUN (Gen/SrcPure.v) is the documented table on every error value
   (nil, an error that is none of the package's constants, each constant), and
   on the handler error classes of the server model it is [herr_code]. Lemmas
   in Proofs/SrcMiscP.v. *)
From Coq Require Import List NArith String.
Import ListNotations.
From Modbus Require Import Base.Bytes Model.GoLite Gen.SrcPure Model.Wire Model.Client Model.Server.
From Modbus Require Import Proofs.GoLiteLinkP Proofs.SrcMiscP.
Open Scope string_scope.
Open Scope N_scope.

Theorem c03s_error_map : forall fuel v, In v all_error_values ->
  call_with src_pure no_fns fuel "mapErrorToExceptionCode" [VN v] = GoLite.Ok [VN (err_to_exc v)].
Proof. exact (src_mapErrorToExceptionCode_ok no_fns). Qed.
Print Assumptions c03s_error_map.

Theorem c03s_error_map_model : forall e,
  (match e with HModbus c => known_exception c = true | _ => True end) ->
  e <> HNone ->
  In (herr_value e) all_error_values /\
  err_to_exc (herr_value e) = herr_code (match e with HProtocol => HModbus 4 | x => x end).
Proof.
  intros e Hk Hn. destruct e as [|c| |]; [congruence| | |]; cbn [herr_value herr_code].
  - apply known_exception_cases in Hk. cbn [In] in Hk.
    repeat (destruct Hk as [<-|Hk]; [vm_compute; split; [tauto|reflexivity]|]). destruct Hk.
  - vm_compute. split; [tauto|reflexivity].
  - vm_compute. split; [tauto|reflexivity].
Qed.
Print Assumptions c03s_error_map_model.
