(* C05 / C12 / C13, source level: tcp_transport.go AS TRANSLATED FROM THE GO SOURCE ON THIS RUN (Gen/SrcPure.v, signed
   mode, the socket and the clock as external functions over the state of the world). (1) For EVERY world each
   function, run on the whole translated program, computes the transport model of Model/Transport.v. (2) On byte
   streams with an end (stall / close / reset) they return what read_mbap / mbap_read_response of Model/Wire.v return
   (what C02.v, C05.v, C12.v, C13.v are about), consume the same bytes and fail in the same error class. *)
From Coq Require Import List NArith String.
Import ListNotations.
From Modbus Require Import Base.Bytes.
From Modbus Require Import Model.GoLite.
From Modbus Require Import Gen.SrcPure.
From Modbus Require Import Model.Wire.
From Modbus Require Import Model.Transport.
From Modbus Require Import Proofs.GoLiteLinkP.
From Modbus Require Import Proofs.SrcCrcP.
From Modbus Require Import Proofs.SrcMiscP.
From Modbus Require Import Proofs.SrcClientP.
From Modbus Require Import Proofs.SrcTransportP.
From Modbus Require Import Proofs.TransportStreamP.
From Modbus Require Import Proofs.TransportClockP.
From Modbus Require Import Proofs.SrcTransportLinkP.
From Modbus Require Import Proofs.SrcTransportWorldsP.
Open Scope string_scope.
Open Scope N_scope.

Theorem c05t_readMBAPFrame :
  forall (base : fenv) (fuel : nat) (T : tworld) (tmo last : N) (w : val),
       tworld_hyp base T "socket" ->
       tworld_wf T src_codes ->
       call_with src_pure base fuel "tcpTransport.readMBAPFrame" [VN tmo; VN last; w] =
       out_read_mbap T tmo last w.
Proof. exact src_readMBAPFrame_ok. Qed.
Print Assumptions c05t_readMBAPFrame.

Theorem c05t_readResponse :
  forall (base : fenv) (fuel : nat) (T : tworld) (tmo last : N) (w : val),
       tworld_hyp base T "socket" ->
       tworld_wf T src_codes ->
       call_with src_pure base fuel "tcpTransport.readResponse" [VN tmo; VN last; w] =
       out_read_response T fuel tmo last w.
Proof. exact src_readResponse_ok. Qed.
Print Assumptions c05t_readResponse.

Theorem c05t_ExecuteRequest :
  forall (base : fenv) (fuel : nat) (T : tworld) (tmo last : N) (req : pdu) (w : val),
       tworld_hyp base T "socket" ->
       tworld_wf T src_codes ->
       pdu_ok req ->
       call_with src_pure base fuel "tcpTransport.ExecuteRequest" ([VN tmo; VN last] ++ pdu_args req ++ [w]) =
       out_tcp_execute T fuel tmo last req w.
Proof. exact src_tcp_ExecuteRequest_ok. Qed.
Print Assumptions c05t_ExecuteRequest.

Theorem c05t_ReadRequest :
  forall (base : fenv) (fuel : nat) (T : tworld) (tmo last : N) (w : val),
       tworld_hyp base T "socket" ->
       tworld_wf T src_codes ->
       call_with src_pure base fuel "tcpTransport.ReadRequest" [VN tmo; VN last; w] =
       out_tcp_read_request T tmo last w.
Proof.
  intros base fuel T tmo last w HT Hwf.
  link_step "tcpTransport.ReadRequest" src_fn_tcpTransport_ReadRequest.
  apply SrcTransportTcpP.run_tcp_ReadRequest; [world_env HT|].
  by_callee "tcpTransport.ReadRequest" "tcpTransport.readMBAPFrame" src_fn_tcpTransport_readMBAPFrame src_readMBAPFrame_ok.
Qed.
Print Assumptions c05t_ReadRequest.

Theorem c05t_WriteResponse :
  forall (base : fenv) (fuel : nat) (T : tworld) (tmo last : N) (res0 : pdu) (w : val),
       tworld_hyp base T "socket" ->
       pdu_ok res0 ->
       call_with src_pure base fuel "tcpTransport.WriteResponse" ([VN tmo; VN last] ++ pdu_args res0 ++ [w]) =
       out_tcp_write_response T tmo last res0 w.
Proof.
  intros base fuel T tmo last res0 w HT Hok.
  link_step "tcpTransport.WriteResponse" src_fn_tcpTransport_WriteResponse.
  apply SrcTransportTcpP.run_tcp_WriteResponse; [world_env HT| |exact Hok].
  by_callee "tcpTransport.WriteResponse" "tcpTransport.assembleMBAPFrame" src_fn_tcpTransport_assembleMBAPFrame src_assembleMBAPFrame_ok.
Qed.
Print Assumptions c05t_WriteResponse.

Theorem c05t_Close :
  forall (base : fenv) (fuel : nat) (T : tworld) (tmo last : N) (w : val),
       tworld_hyp base T "socket" ->
       call_with src_pure base fuel "tcpTransport.Close" [VN tmo; VN last; w] =
       out_close T [VN tmo; VN last] w.
Proof.
  intros base fuel T tmo last w HT.
  link_step "tcpTransport.Close" src_fn_tcpTransport_Close.
  apply SrcTransportTcpP.run_tcp_Close. world_env HT.
Qed.
Print Assumptions c05t_Close.

Theorem c05t_stream_world_satisfies_the_hypotheses :
  forall e : send, tworld_wf (sw e) src_codes.
Proof. exact sw_wf. Qed.
Print Assumptions c05t_stream_world_satisfies_the_hypotheses.

Theorem c05t_readMBAPFrame_stream :
  forall (fuel : nat) (e : send) (tmo last : N) (s : list N),
       bytesb s = true ->
       exists (w' : val) (p : option pdu) (txn c : N),
         call_with src_pure (world_base (sw e)) fuel "tcpTransport.readMBAPFrame" [VN tmo; VN last; vbytes s] =
         GOk ([VN tmo; VN last; w'] ++ enc_opdu p ++ [VN txn; VN c])%list /\
         w' = vbytes (snd (read_mbap e s)) /\
         match fst (read_mbap e s) with
         | FOk q t => p = Some q /\ txn = t /\ c = 0
         | FErr x => p = None /\ c <> 0 /\ EC c = x
         end.
Proof.
  intros fuel e tmo last s Hs.
  rewrite (src_readMBAPFrame_ok (world_base (sw e)) fuel (sw e) tmo last (vbytes s));
    [|apply world_base_hyp; tauto|apply sw_wf].
  unfold out_read_mbap.
  pose proof (t_read_mbap_stream src_codes e 2 src_eof src_distinct s Hs) as H.
  change (SW src_codes e 2 src_eof) with (sw e) in H.
  destruct (t_read_mbap (sw e) src_codes (vbytes s)) as [[[w' p] txn] c], H as [Hw H].
  exists w', p, txn, c. split; [reflexivity|]. split; [exact Hw|].
  destruct (fst (read_mbap e s)); [exact H|].
  destruct H as [Hp Hc]. split; [exact Hp|exact (CK_EC c _ Hc)].
Qed.
Print Assumptions c05t_readMBAPFrame_stream.

Theorem c05t_ExecuteRequest_stream :
  forall (fuel : nat) (e : send) (tmo last : N) (req : pdu) (s : list N),
       bytesb s = true ->
       pdu_ok req ->
       let last' := (last + 1) mod 65536 in
       let run :=
         call_with src_pure (world_base (sw e)) fuel "tcpTransport.ExecuteRequest"
           ([VN tmo; VN last] ++ pdu_args req ++ [vbytes s]) in
       let (r, s') := mbap_read_response fuel e last' s in
       match r with
       | MOk q => run = GOk ([VN tmo; VN last'; vbytes s'] ++ enc_opdu (Some q) ++ [VN 0])%list
       | Err x =>
           exists c : N,
             run = GOk ([VN tmo; VN last'; vbytes s'] ++ enc_opdu None ++ [VN c])%list /\ c <> 0 /\ EC c = x
       | Panic => False
       | OutOfFuel => run = GoLite.OutOfFuel
       end.
Proof.
  intros fuel e tmo last req s Hs Hok.
  pose proof (src_tcp_ExecuteRequest_stream fuel e tmo last req s Hs Hok) as H. cbv zeta in H |- *.
  destruct (mbap_read_response fuel e ((last + 1) mod 65536) s) as [[q|x| |] s']; try exact H.
  destruct H as (c & H & Hc). exists c. split; [exact H|exact (CK_EC c x Hc)].
Qed.
Print Assumptions c05t_ExecuteRequest_stream.

