(* C13 - the reply is cut in the MIDDLE of a session (lemmas:
   Proofs/CutSessionP.v). Model/CutSession.v (cut_session): a device answers the
   earlier calls in full, the reply to the last one ends after k bytes; then
   Close, a call on the closed handle, Open, one more call. csv_conns is what the
   listener receives on EVERY connection it accepts: the request frames, in order. *)
From Modbus Require Import Base.Bytes Model.Crc Model.Encoding Model.Wire Model.Client
  Model.Handle Model.TxnHistory Model.CutSession
  Spec.ModbusSpec Spec.ClientSpec Spec.CutSpec Spec.TxnSpec Spec.CutSessionSpec
  Proofs.CutSessionP.

(* T1: however many exchanges (any valid calls, any valid replies) completed
   before on the connection, for every cut offset inside the reply of the
   next one and every stream end: the earlier calls returned their values, the
   cut call is an error of the class of C13 (never a success); the listener
   has seen ONE connection for all of it, carrying one request frame per call
   - exactly one for the cut call, nothing was sent again anywhere; the call
   on the closed handle fails without a byte; after Open a SECOND connection
   carries exactly the next request (transaction id 1 again) and that call
   completes normally *)
Theorem c13c_cut_kth : forall fr cfg pre vss cut vsc fresh vsf,
  cfg_wf cfg -> Forall2 (cs_valid cfg) pre vss -> cs_valid cfg cut vsc -> cs_valid cfg fresh vsf ->
  forall e k, (k < reply_len fr (csc_reply cut))%nat ->
  let v := cut_session fr cfg pre cut e k fresh in
  csv_results v = map (@Ok values) vss ++ [Err (cut_err_class fr e k)] /\
  cut_failed (csv_closed v) /\
  csv_fresh v = Ok vsf /\
  csv_conns v = [cs_frames fr cfg 0 (map csc_op pre ++ [csc_op cut]);
                 [spec_frame fr 1 (spec_pdu cfg (csc_op fresh))]].
Proof. exact session_cut. Qed.

(* control: the peer goes away only after the complete reply: same frames,
   and the call succeeds *)
Theorem c13c_complete_kth : forall fr cfg pre vss cut vsc fresh vsf,
  cfg_wf cfg -> Forall2 (cs_valid cfg) pre vss -> cs_valid cfg cut vsc -> cs_valid cfg fresh vsf ->
  forall e k, (reply_len fr (csc_reply cut) <= k)%nat ->
  let v := cut_session fr cfg pre cut e k fresh in
  csv_results v = map (@Ok values) vss ++ [Ok vsc] /\
  cut_failed (csv_closed v) /\
  csv_fresh v = Ok vsf /\
  csv_conns v = [cs_frames fr cfg 0 (map csc_op pre ++ [csc_op cut]);
                 [spec_frame fr 1 (spec_pdu cfg (csc_op fresh))]].
Proof. exact session_complete. Qed.

(* T2: the cut call on its own, in ANY state of an open handle with nothing
   unread (any value of the transaction counter, i.e. any number of earlier
   exchanges): an error, never a success, and exactly one frame transmitted -
   the specified request with the next transaction id *)
Theorem c13c_cut_any_state : forall fr cfg h c vs e k,
  cfg_wf cfg -> cs_valid cfg c vs ->
  hd_closed h = false -> hd_unread h = [] -> hd_txn h < 65536 ->
  (k < reply_len fr (csc_reply c))%nat ->
  let r := fst (hd_call fr cfg h (csc_op c) e (firstn k (cs_answer fr h c))) in
  cut_failed (cr_res r) /\ (forall vs', cr_res r <> Ok vs') /\
  cr_writes r = [spec_frame fr (u16 (hd_txn h + 1)) (spec_pdu cfg (csc_op c))].
Proof.
  intros fr cfg h c vs e k Hcfg Hv Hc Hu Ht Hk r. subst r.
  destruct (call_cut fr cfg h c vs e k Hcfg Hv Hc Hu Ht Hk) as (H1 & H2 & _).
  rewrite H1. split; [eexists; reflexivity|]. split; [discriminate|exact H2].
Qed.

(* T3 (MBAP): after ANY history of calls on the connection - any calls, any
   peer bytes, any outcomes (Model/TxnHistory.v) - that left nothing unread
   but whole frames the next call passes over: the call whose reply is cut
   fails and has transmitted exactly one frame, with the transaction id that
   follows those of the requests transmitted so far *)
Theorem c13c_cut_after_any_history : forall cfg xs frames o e res vs k,
  cfg_wf cfg -> Forall (fun x => op_wf (ths_op x)) xs ->
  let st := hist_final FMbap cfg th_init xs in
  let t := th_id 0 (th_sent xs) in
  th_left st = concat frames -> Forall (skippable t) frames ->
  op_wf o -> valid_op o = true -> bytesb (p_payload res) = true -> answers cfg o res vs ->
  (k < reply_len FMbap res)%nat ->
  let r := snd (hist_step FMbap cfg st (mkthstep o (firstn k (spec_frame FMbap t res)) e)) in
  cut_failed (cr_res r) /\ (forall vs', cr_res r <> Ok vs') /\
  cr_writes r = [spec_frame FMbap t (spec_pdu cfg o)].
Proof. exact cut_after_history. Qed.

(* the transaction counter carried through the session, in closed form: the
   request of exchange number n (0-based) of a connection has id (n + 1) mod
   2^16 over MBAP; RTU has no counter *)
Theorem c13c_counter : forall n,
  cs_count_n FMbap 0 n = N.of_nat n mod 65536 /\ cs_count_n FRtu 0 n = 0.
Proof.
  intros n. split; [rewrite cs_count_n_mbap by reflexivity; reflexivity|apply cs_count_n_rtu].
Qed.

Theorem c13c_reply_len : forall fr t res, length (spec_frame fr t res) = reply_len fr res.
Proof. exact reply_frame_len. Qed.

(* unit 0x11 over MBAP: ReadRegister 0x10 = 0x1234 and WriteCoil 7 on
   complete, then WriteRegister(0x0102, 0xbeef) whose 12-byte reply is cut at
   every offset 0..11 with every stream end: an error; one connection with the
   three request frames (ids 1, 2, 3), the write exactly once; after Close;
   Open a second connection with the one frame of the next call (id 1) *)
Example c13c_example :
  let cfg := mkcfg 0x11 BigE HighFirst in
  let c1 := mkcsc (OpReadRegs 1 0x10 1 Holding) (mkpdu 0x11 3 [2; 0x12; 0x34]) in
  let c2 := mkcsc (OpWriteCoil 7 true) (mkpdu 0x11 5 [0; 7; 255; 0]) in
  let c3 := mkcsc (OpWriteReg 0x0102 0xbeef) (mkpdu 0x11 6 [1; 2; 0xbe; 0xef]) in
  cs_valid cfg c1 (VNums [0x1234]) /\ cs_valid cfg c2 VUnit /\ cs_valid cfg c3 VUnit /\
  reply_len FMbap (csc_reply c3) = 12%nat /\
  forallb (fun k =>
    forallb (fun e =>
      match cut_session FMbap cfg [c1; c2] c3 e k c1 with
      | mkcsv [Ok (VNums [0x1234]); Ok VUnit; Err _] (Err _) (Ok (VNums [0x1234]))
              [[f1; f2; f3]; [g]] =>
          list_eqb f1 [0; 1; 0; 0; 0; 6; 0x11; 3; 0; 0x10; 0; 1] &&
          list_eqb f2 [0; 2; 0; 0; 0; 6; 0x11; 5; 0; 7; 255; 0] &&
          list_eqb f3 [0; 3; 0; 0; 0; 6; 0x11; 6; 1; 2; 0xbe; 0xef] &&
          list_eqb g [0; 1; 0; 0; 0; 6; 0x11; 3; 0; 0x10; 0; 1]
      | _ => false
      end) [Stall; Closed; Reset]) (seq 0 12) = true /\
  csv_results (cut_session FMbap cfg [c1; c2] c3 Closed 12 c1) =
    [Ok (VNums [0x1234]); Ok VUnit; Ok VUnit].
Proof.
  cbv zeta. split; [|split; [|split; [|split; [|split]]]].
  - unfold cs_valid. cbn [csc_op csc_reply op_wf]. split; [|split; [|split]].
    + split; [left; reflexivity|split; reflexivity].
    + vm_compute. reflexivity.
    + reflexivity.
    + unfold answers. cbn [p_unit c_unit p_fc spec_fc p_payload]. repeat split.
      exists [0x1234]. repeat split.
      constructor; [vm_compute; reflexivity|constructor].
  - unfold cs_valid, answers. cbn. repeat split; reflexivity.
  - unfold cs_valid, answers. cbn. repeat split; reflexivity.
  - reflexivity.
  - vm_compute. reflexivity.
  - vm_compute. reflexivity.
Qed.

Print Assumptions c13c_cut_kth.
Print Assumptions c13c_complete_kth.
Print Assumptions c13c_cut_any_state.
Print Assumptions c13c_cut_after_any_history.
Print Assumptions c13c_counter.
Print Assumptions c13c_reply_len.
