(* C19, bytes that reach the client while it is idle: the late reply to a request
   that timed out, or a frame nobody asked for, read when the next call begins or
   during it. Lemmas: Proofs/TimingIdleP.v. What the client does with buffered
   bytes at the beginning of a call is a component of the model (an entry rule);
   the silence is kept whenever the rule records the instant after such a read. *)
From Modbus Require Import Base.Bytes Model.Timing Model.TimingIdle Proofs.TimingP Proofs.TimingIdleP.
Local Open Scope Z_scope.

(* all ordered pairs (a read that took bytes, a later request) of every session *)
Theorem c19d_silence : forall rule t1 t35 steps s,
  stamps rule -> 0 <= t1 -> 0 <= t35 -> Forall istep_ok steps ->
  ForallOrdPairs (quiet t35) (irun rule t1 t35 s steps).
Proof. intros. apply irun_quiet; assumption. Qed.

(* by position, at the delays of a rate of the property *)
Theorem c19d_silence_rate : forall rule r steps s i j a b,
  stamps rule -> 1 <= r -> r <= 10000000 -> Forall istep_ok steps -> (i < j)%nat ->
  nth_error (irun rule (char_time r) (t35 r) s steps) i = Some (Took a) ->
  nth_error (irun rule (char_time r) (t35 r) s steps) j = Some (Sent b) ->
  a + t35 r <= b.
Proof.
  intros rule r steps s i j a b Hst H1 H2 Hok Hij Hi Hj.
  destruct (timing_pos r H1 H2) as [Hc Ht].
  assert (Hq : ForallOrdPairs (quiet (t35 r)) (irun rule (char_time r) (t35 r) s steps))
    by (apply irun_quiet; try assumption; lia).
  exact (ordpairs_nth _ _ Hq i j (Took a) (Sent b) Hij Hi Hj).
Qed.

(* one step of the invariant *)
Theorem c19d_step_invariant : forall rule t1 t35 s st s' evs,
  stamps rule -> 0 <= t1 -> 0 <= t35 -> istep_ok st ->
  istep_run rule t1 t35 s st = (s', evs) ->
  la s <= la s' /\
  Forall (starts_after (la s) t35) evs /\
  Forall (taken_by (la s')) evs /\
  ForallOrdPairs (quiet t35) evs.
Proof. exact istep_facts. Qed.

(* rtu_transport.go reads nothing before it transmits: a rule that records
   what it reads; so is draining the buffer first and recording that *)
Theorem c19d_code_rule : stamps LeaveQueued.
Proof. exact I. Qed.

Theorem c19d_drain_stamp_rule : stamps DrainStamp.
Proof. exact I. Qed.

Theorem c19d_calls : forall rule t1 t35 steps s,
  sent_count (irun rule t1 t35 s steps) = script_calls steps.
Proof. intros rule t1 t35 steps s. apply irun_sent_count. Qed.

(* the one-sided measurement of the check can never fail such a client *)
Theorem c19d_measurement_sound : forall rule r steps s i j a b before arrive,
  stamps rule -> 1 <= r -> r <= 10000000 -> Forall istep_ok steps -> (i < j)%nat ->
  nth_error (irun rule (char_time r) (t35 r) s steps) i = Some (Took a) ->
  nth_error (irun rule (char_time r) (t35 r) s steps) j = Some (Sent b) ->
  before <= a -> b <= arrive -> t35 r <= arrive - before.
Proof.
  intros rule r steps s i j a b before arrive Hst H1 H2 Hok Hij Hi Hj Hb Ha.
  pose proof (c19d_silence_rate rule r steps s i j a b Hst H1 H2 Hok Hij Hi Hj). lia.
Qed.

(* the predicate of the correspondence check (scenario silenceidle) is the
   property's inequality on the smallest measured silence, plus one request
   per call at least; the machine passes it on its own run of every script
   under every rule that records what it reads *)
Theorem c19d_silence_okb : forall rate steps n gap,
  idle_silence_okb rate steps n gap = true <->
  script_calls steps <= n /\ (forall g, gap = Some g -> t35 rate <= g).
Proof.
  intros rate steps n gap. unfold idle_silence_okb. rewrite andb_true_iff, Z.leb_le.
  destruct gap as [g|].
  - rewrite Z.leb_le. split; intros [Hn Hg]; (split; [exact Hn|]).
    + intros g' Hg'. inversion Hg'; subst. exact Hg.
    + apply Hg. reflexivity.
  - split; intros [Hn _]; (split; [exact Hn|]); [intros g Hg; discriminate|reflexivity].
Qed.

Theorem c19d_idle_gap : forall rule rate steps g,
  stamps rule -> 1 <= rate -> rate <= 10000000 -> Forall istep_ok steps ->
  idle_gap rule rate steps = Some g -> t35 rate <= g.
Proof.
  intros rule rate steps g Hst H1 H2 Hok Hg. unfold idle_gap in Hg.
  destruct (timing_pos rate H1 H2) as [Hc Ht].
  eapply min_gap_bound; [|exact Hg].
  apply gaps_quiet; [apply irun_quiet; try assumption; lia|]. intros a Ha. discriminate.
Qed.

Theorem c19d_idle_gap_okb : forall rule rate steps,
  stamps rule -> 1 <= rate -> rate <= 10000000 -> Forall istep_ok steps ->
  idle_silence_okb rate steps
    (sent_count (irun rule (char_time rate) (t35 rate) (idle_start rate) steps))
    (idle_gap rule rate steps) = true.
Proof.
  intros rule rate steps Hst H1 H2 Hok. apply c19d_silence_okb. split.
  - rewrite c19d_calls. lia.
  - intros g Hg. exact (c19d_idle_gap rule rate steps g Hst H1 H2 Hok Hg).
Qed.

(* non-vacuity. 2400 bps (t3.5 = 16.04 ms). A request gets no answer; 30 ms
   after the call returned the late answer (7 bytes) lands in the link's
   buffer; 20 ms later the next call begins, and one more follows. The code
   meets the late answer in the read of the second call and keeps t3.5 before
   the third request; a rule that drains the buffer first and records that
   keeps t3.5 before the second; a rule that drains without recording
   transmits the second request at the very instant the drain returned and
   is refused by the predicate. *)
Definition c19d_ex_script : list istep :=
  [quiet_call 8 0; SIdle 30000000; SArrive 7; SIdle 20000000; quiet_call 8 7; quiet_call 8 7].

Example c19d_ex_ok : Forall istep_ok c19d_ex_script.
Proof.
  unfold c19d_ex_script.
  repeat (constructor; [first [apply quiet_call_ok; lia | cbn [istep_ok]; lia]|]). constructor.
Qed.

Example c19d_ex_runs :
  t35 2400 = 16041665 /\
  irun LeaveQueued (char_time 2400) (t35 2400) (idle_start 2400) c19d_ex_script
    = [Sent 0; Sent 102708329; Took 155416658; Sent 171458323; Took 224166652] /\
  idle_gap LeaveQueued 2400 c19d_ex_script = Some 16041665 /\
  irun DrainStamp (char_time 2400) (t35 2400) (idle_start 2400) c19d_ex_script
    = [Sent 0; Took 102708329; Sent 118749994; Took 171458323; Sent 187499988; Took 240208317] /\
  idle_gap DrainStamp 2400 c19d_ex_script = Some 16041665 /\
  irun DrainNoStamp (char_time 2400) (t35 2400) (idle_start 2400) c19d_ex_script
    = [Sent 0; Took 102708329; Sent 102708329; Took 155416658; Sent 171458323; Took 224166652] /\
  idle_gap DrainNoStamp 2400 c19d_ex_script = Some 0 /\
  idle_silence_okb 2400 c19d_ex_script 3 (Some 0) = false /\
  idle_silence_okb 2400 c19d_ex_script 3 (Some 16041665) = true /\
  idle_silence_okb 2400 c19d_ex_script 2 (Some 16041665) = false /\
  idle_silence_okb 2400 c19d_ex_script 3 None = true.
Proof. repeat split; vm_compute; reflexivity. Qed.

(* draining without recording is NOT covered by c19d_silence: its timeline
   of a well-formed session is not quiet *)
Theorem c19d_drain_no_stamp_unsound :
  ~ (forall steps, Forall istep_ok steps ->
       ForallOrdPairs (quiet (t35 2400))
         (irun DrainNoStamp (char_time 2400) (t35 2400) (idle_start 2400) steps)).
Proof. exact drain_no_stamp_not_quiet. Qed.

(* an unsolicited frame after a normal exchange, the caller back 5 ms later
   (less than t3.5 after the arrival, more than t3.5 after the exchange) *)
Example c19d_ex_unsolicited :
  idle_gap LeaveQueued 9600 [quiet_call 8 7; SIdle 20000000; SArrive 5; SIdle 5000000; quiet_call 8 7; quiet_call 8 7]
    = Some (t35 9600) /\
  idle_gap DrainNoStamp 9600 [quiet_call 8 7; SIdle 20000000; SArrive 5; SIdle 5000000; quiet_call 8 7; quiet_call 8 7]
    = Some 0 /\
  t35 9600 = 4010415.
Proof. repeat split; vm_compute; reflexivity. Qed.

Print Assumptions c19d_silence.
Print Assumptions c19d_silence_rate.
Print Assumptions c19d_step_invariant.
Print Assumptions c19d_code_rule.
Print Assumptions c19d_drain_stamp_rule.
Print Assumptions c19d_calls.
Print Assumptions c19d_measurement_sound.
Print Assumptions c19d_silence_okb.
Print Assumptions c19d_idle_gap.
Print Assumptions c19d_idle_gap_okb.
Print Assumptions c19d_drain_no_stamp_unsound.
