(* C16 (continued) - the documented defaults are the ENFORCED ones: the client is
   opened (Model/Opened.v: Open() hands the kept timeout and speed to the
   transport of Model/Timed.v) and a request is made to a peer that never
   answers. Lemmas: Proofs/OpenedP.v. Quantified over ALL URLs, speeds, timeouts
   >= 0 (0 = unset), requests and states of the inter-frame timer. *)
From Modbus Require Import Base.Bytes Model.Wire Model.Client Model.Config Model.Timing
  Model.Timed Model.Opened
  Spec.ClientSpec Spec.TimedSpec Spec.ConfigSpec Spec.OpenedSpec Proofs.OpenedP.
From Coq Require String.
Import String.StringSyntax.

(* T7: whatever the scheme and the speed, a silent peer is reported as
   request-timed-out, never before t0 + documented timeout and never after
   the documented ceiling (MBAP: t0 + timeout; RTU: not before the request has
   left the wire, plus one 10 ms poll on a serial port) *)
Theorem c16_enforced_timeout : forall c s rest la o t0,
  url_scheme (cc_url c) s rest -> client_creds_ok s c ->
  op_wf o -> valid_op o = true -> (0 <= cc_timeout c)%Z ->
  exists r, silent_call c la o t0 = CfgOk r /\
    tmc_res r = Err ETimeout /\
    (t0 + documented_timeout s c <= tmc_finish r <= silent_ceiling s c la t0 o)%Z.
Proof. exact silent_call_documented. Qed.
Print Assumptions c16_enforced_timeout.

(* the documented numbers: the caller's timeout, else 1 s, 300 ms for rtu *)
Theorem c16_documented_timeout_values : forall s c,
  (cc_timeout c <> 0%Z -> documented_timeout s c = cc_timeout c) /\
  (cc_timeout c = 0%Z ->
   documented_timeout s c = match s with SRtu => 300000000%Z | _ => 1000000000%Z end).
Proof.
  intros s c.
  unfold documented_timeout, fillz. split; intros H.
  - destruct (cc_timeout c =? 0)%Z eqn:E; [lia|reflexivity].
  - rewrite H. destruct s; reflexivity.
Qed.
Print Assumptions c16_documented_timeout_values.

(* tcp, tcp+tls, udp: exactly at t0 + documented timeout; the speed field has
   no influence *)
Theorem c16_enforced_timeout_mbap : forall c s rest la o t0,
  url_scheme (cc_url c) s rest -> client_creds_ok s c -> rtu_scheme s = false ->
  op_wf o -> valid_op o = true -> (0 <= cc_timeout c)%Z ->
  exists r, silent_call c la o t0 = CfgOk r /\
    tmc_res r = Err ETimeout /\ tmc_finish r = (t0 + documented_timeout s c)%Z.
Proof.
  intros c s rest la o t0 Hu Hc Es Hwf V Ht.
  rewrite (silent_call_spec c s rest la o t0 Hu Hc), opened_link_spec, Es.
  eexists; split; [reflexivity|]. cbn [fst snd].
  exact (TimedP.tm_silence_mbap (mk_tm_conf (documented_timeout s c) 0 0 0) la new_client_cfg 0 o t0
           Hwf V (documented_timeout_nonneg s c Ht)).
Qed.
Print Assumptions c16_enforced_timeout_mbap.

(* rtuovertcp, rtuoverudp: exactly at t0 + documented timeout as soon as the
   request (n characters and t3.5 at the documented speed) fits in it - the
   speed does not stretch the timeout *)
Theorem c16_enforced_timeout_rtu_net : forall c s rest la o t0,
  url_scheme (cc_url c) s rest -> (s = SRtuOverTcp \/ s = SRtuOverUdp) ->
  op_wf o -> valid_op o = true -> (0 <= cc_timeout c)%Z ->
  let v := documented_speed s c in
  (la + t35 v <= t0)%Z ->
  (tm_req_len new_client_cfg o * char_time v + t35 v <= documented_timeout s c)%Z ->
  exists r, silent_call c la o t0 = CfgOk r /\
    tmc_res r = Err ETimeout /\ tmc_finish r = (t0 + documented_timeout s c)%Z.
Proof. exact silent_call_rtu_net_exact. Qed.
Print Assumptions c16_enforced_timeout_rtu_net.

(* non-vacuity: concrete instances of the statements above *)
Definition conf_of (u : list N) (speed : N) (timeout : Z) : client_conf :=
  mkcc u speed 0 0 0 timeout false false.

Definition read_one : op := OpReadRegs 1 0 1 Holding.
Definition fresh : Z := (-1000000000000000)%Z.

Definition finish_of (r : cfg_result tm_call) : option (result values * Z) :=
  match r with CfgOk x => Some (tmc_res x, tmc_finish x) | CfgErr _ => None end.

(* rtuovertcp at 1200 bps, nothing else set: 1 s, not the 2.38 s a 256-byte
   frame would take *)
Example ex_rtuovertcp_1200 :
  finish_of (silent_call (conf_of (str "rtuovertcp://h:1") 1200 0) fresh read_one 0)
  = Some (Err ETimeout, 1000000000%Z).
Proof. vm_compute. reflexivity. Qed.

(* rtu at 4800 bps: 300 ms, noticed by the 10 ms poll that ends at 306.4 ms *)
Example ex_rtu_4800 :
  finish_of (silent_call (conf_of (str "rtu:///dev/ttyS0") 4800 0) fresh read_one 0)
  = Some (Err ETimeout, 306354159%Z).
Proof. vm_compute. reflexivity. Qed.

(* 300 bps with a 150 ms timeout: the transport starts listening only when
   the request has left the wire (8 characters and t3.5 = 421.6 ms) *)
Example ex_rtuoverudp_300_150ms :
  finish_of (silent_call (conf_of (str "rtuoverudp://h:1") 300 150000000) fresh read_one 0)
  = Some (Err ETimeout, 421666659%Z).
Proof. vm_compute. reflexivity. Qed.

Example ex_udp_default :
  finish_of (silent_call (conf_of (str "udp://h:1") 1200 0) fresh read_one 0)
  = Some (Err ETimeout, 1000000000%Z).
Proof. vm_compute. reflexivity. Qed.

(* the hypotheses of the exact RTU statement are satisfiable at 1200 bps *)
Example ex_rtu_net_hyp :
  let c := conf_of (str "rtuovertcp://h:1") 1200 0 in
  let v := documented_speed SRtuOverTcp c in
  (fresh + t35 v <= 0)%Z /\
  (tm_req_len new_client_cfg read_one * char_time v + t35 v <= documented_timeout SRtuOverTcp c)%Z.
Proof. vm_compute. split; discriminate. Qed.
