(* C05 across Close() + Open(): a late reply to a request made before a reopen
   never satisfies a request made after it (lemmas: Proofs/TxnReopenP.v).
   Model/TxnReopen.v: every Open() gives a new socket and a new transport whose
   counter starts at 0; whatever the network delivers is addressed to ONE
   socket; a device answers to where the request came from. *)
From Modbus Require Import Base.Bytes Model.Crc Model.Encoding Model.Wire Model.Client
  Model.TxnHistory Model.TxnReopen Spec.ModbusSpec Spec.ClientSpec Spec.TxnSpec Spec.TxnReopenSpec
  Proofs.TxnP Proofs.TxnReopenP.

(* R1: a reopen is a new transport on a new, empty stream: whatever happened
   before it (any steps, any outcomes, any unread bytes, any counter), the
   steps after it run as on a client that has just been opened, on the next
   socket. Every history. *)
Theorem c05c_reopen_restarts : forall fr cfg st pre post,
  tr_run fr cfg st (pre ++ TrReopen :: post) =
  tr_run fr cfg st pre ++
  None :: tr_run fr cfg (mktr (tr_sock (tr_final fr cfg st pre) + 1) th_init) post.
Proof. exact tr_reopen_restarts. Qed.

Theorem c05c_socket_number : forall fr cfg xs st,
  tr_sock (tr_final fr cfg st xs) = tr_sock st + tr_reopens xs.
Proof. exact tr_final_sock. Qed.

(* R2: bytes addressed to a socket older than the current one - any number,
   any content, at any step - are never delivered: the outcomes are those of
   the history with all of them removed *)
Theorem c05c_old_socket_bytes_dropped : forall fr cfg m xs st, m <= tr_sock st ->
  tr_run fr cfg st (map (tr_forget m) xs) = tr_run fr cfg st xs.
Proof. exact tr_run_forget. Qed.

(* R3: hence two histories that differ, after a reopen, only in what is
   addressed to the sockets of before the reopen - late replies to the
   requests made on them, duplicates, anything - have the same outcomes: no
   frame sent in reply to an earlier request is returned, or has any other
   effect *)
Theorem c05c_old_replies_irrelevant : forall fr cfg st pre post post',
  map (tr_forget (tr_sock (tr_final fr cfg st pre) + 1)) post =
  map (tr_forget (tr_sock (tr_final fr cfg st pre) + 1)) post' ->
  tr_run fr cfg st (pre ++ TrReopen :: post) = tr_run fr cfg st (pre ++ TrReopen :: post').
Proof.
  intros fr cfg st pre post post' H. rewrite !tr_reopen_restarts. f_equal. f_equal.
  set (k := tr_sock (tr_final fr cfg st pre) + 1) in *.
  rewrite <- (tr_run_forget fr cfg k post) by (cbn [tr_sock]; lia).
  rewrite <- (tr_run_forget fr cfg k post') by (cbn [tr_sock]; lia).
  rewrite H. reflexivity.
Qed.

(* R4: the calls that follow a reopen are a history of Model/TxnHistory.v on a
   fresh client (counter 0, nothing unread) that receives exactly what is
   addressed to the new socket: all of C05's history theorems (c05_history,
   c05_no_misattribution, c05_request_id, ...) apply to them with txn0 = 0 *)
Theorem c05c_segment_is_fresh_history : forall fr cfg st pre calls,
  tr_run fr cfg st (pre ++ TrReopen :: map TrCall calls) =
  tr_run fr cfg st pre ++
  None :: map Some (hist_run fr cfg th_init
                      (map (tr_concrete (tr_sock (tr_final fr cfg st pre) + 1)) calls)).
Proof. exact tr_segment_fresh. Qed.

(* R5: whole tagged frames, each addressed to a socket. If call number j after
   a reopen succeeds, the frame it consumed was ADDRESSED TO THE NEW SOCKET k
   and delivered after the reopen (so it is no reply to a request made before
   the reopen: those are addressed to sockets < k), and it was built for a
   request of the new transport with number i = j (mod 2^16); the values are
   those of a lone, on-time delivery of that frame *)
Theorem c05c_no_stale_reply : forall cfg st pre seg x post r vs,
  Forall tr_scall_ok (seg ++ x :: post) ->
  let k := tr_sock (tr_final FMbap cfg st pre) + 1 in
  let j := lenN seg in
  nth (length pre + 1 + length seg)
      (tr_run FMbap cfg st
         (pre ++ TrReopen :: map (fun c => TrCall (tr_scall_concrete c)) (seg ++ x :: post)))
      None = Some r ->
  cr_res r = Ok vs ->
  exists i res,
    In (k, ThReply i res) (concat (map tsc_frames (seg ++ [x]))) /\
    i mod 65536 = j mod 65536 /\
    cr_res (client_call FMbap cfg (j mod 65536) (tsc_op x)
              (th_end_after (th_end_run Stall (map (tr_sstep k) seg)) (tsc_end x))
              (spec_frame FMbap (th_id 0 j) res)) = Ok vs.
Proof. exact tr_no_stale_reply. Qed.

(* R6: the ids restart with the transport: request number j after a reopen
   carries id th_id 0 j = (j + 1) mod 2^16, whatever was sent before - the id
   request number j carried before the reopen. The transaction id alone cannot
   tell the late reply from the own one; what protects the new request is that
   the new socket receives nothing that was sent to the old one. *)
Theorem c05c_request_id_after_reopen : forall cfg st pre seg c post r,
  cfg_wf cfg -> Forall (fun c => op_wf (trc_op c) /\ valid_op (trc_op c) = true) (seg ++ c :: post) ->
  nth (length pre + 1 + length seg)
      (tr_run FMbap cfg st (pre ++ TrReopen :: map TrCall (seg ++ c :: post))) None = Some r ->
  cr_writes r = [spec_frame FMbap (th_id 0 (lenN seg)) (spec_pdu cfg (trc_op c))].
Proof. exact tr_request_id_after_reopen. Qed.

(* non-vacuity: concrete instances of the statements above *)
Definition c05c_cfg : ccfg := mkcfg 1 BigE HighFirst.
Definition c05c_read : op := OpReadRegs 1 0 1 Holding.
Definition c05c_reply (v : N) : pdu := mkpdu 1 3 [2; v / 256; v mod 256].

(* request 0 on socket 0 gets no reply in time; the client reopens; during
   the first request on socket 1 the device's late reply to request 0 (value
   100, sent to socket 0) is on the network, then the reply to the new request
   (value 101, sent to socket 1): the new request returns 101 *)
Definition c05c_script (late_to : N) : list tr_step :=
  [ TrCall (tr_scall_concrete (mktrscall c05c_read [] Stall));
    TrReopen;
    TrCall (tr_scall_concrete (mktrscall c05c_read
              [(late_to, ThReply 0 (c05c_reply 100)); (1, ThReply 0 (c05c_reply 101))] Stall)) ].

Example c05c_script_run :
  map (option_map (fun r => (cr_res r, cr_writes r))) (tr_run FMbap c05c_cfg tr_init (c05c_script 0)) =
  [ Some (Err ETimeout, [[0;1; 0;0; 0;6; 1; 3; 0;0; 0;1]]);
    None;
    Some (Ok (VNums [101]), [[0;1; 0;0; 0;6; 1; 3; 0;0; 0;1]]) ].
Proof. vm_compute. reflexivity. Qed.

(* both requests carried id 1, the two replies are the same bytes up to the value *)
Example c05c_ids_coincide :
  th_bytes 0 (ThReply 0 (c05c_reply 100)) = [0;1; 0;0; 0;5; 1; 3; 2; 0;100] /\
  th_bytes 0 (ThReply 0 (c05c_reply 101)) = [0;1; 0;0; 0;5; 1; 3; 2; 0;101].
Proof. vm_compute. split; reflexivity. Qed.

(* contrast: were the late reply delivered to the NEW socket (a client that
   reopens on the same local address), the new request would return the value
   meant for the old one - the empty stream of R1 is what the property rests on *)
Example c05c_contrast_shared_socket :
  map (option_map (fun r => cr_res r)) (tr_run FMbap c05c_cfg tr_init (c05c_script 1)) =
  [ Some (Err ETimeout); None; Some (Ok (VNums [100])) ].
Proof. vm_compute. reflexivity. Qed.

(* the hypotheses of R5 are satisfiable, and R5's conclusion on the script:
   the frame taken is the one addressed to socket 1 *)
Example c05c_script_ok :
  Forall tr_scall_ok [mktrscall c05c_read
     [(0, ThReply 0 (c05c_reply 100)); (1, ThReply 0 (c05c_reply 101))] Stall].
Proof.
  assert (Hop : op_wf c05c_read /\ valid_op c05c_read = true).
  { split; [|reflexivity]. cbn. repeat split; try reflexivity. left. reflexivity. }
  destruct Hop as [Hwf V].
  repeat constructor; try exact Hwf; try exact V; cbn; lia.
Qed.

(* arrivals between calls: a late reply that reaches the old socket before the
   Close() is gone with it; one addressed to the old socket after the reopen is
   not delivered *)
Example c05c_arrivals :
  map (option_map (fun r => cr_res r))
    (tr_run FMbap c05c_cfg tr_init
       [ TrCall (mktrcall c05c_read [] Stall);
         TrArrive [tr_dgram_of (0, ThReply 0 (c05c_reply 100))];
         TrReopen;
         TrArrive [tr_dgram_of (0, ThReply 0 (c05c_reply 100))];
         TrCall (mktrcall c05c_read [] Stall);
         TrCall (mktrcall c05c_read [tr_dgram_of (1, ThReply 1 (c05c_reply 102))] Stall) ]) =
  [ Some (Err ETimeout); None; None; None; Some (Err ETimeout); Some (Ok (VNums [102])) ].
Proof. vm_compute. reflexivity. Qed.

Print Assumptions c05c_reopen_restarts.
Print Assumptions c05c_socket_number.
Print Assumptions c05c_old_socket_bytes_dropped.
Print Assumptions c05c_old_replies_irrelevant.
Print Assumptions c05c_segment_is_fresh_history.
Print Assumptions c05c_no_stale_reply.
Print Assumptions c05c_request_id_after_reopen.
