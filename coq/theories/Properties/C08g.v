(* C08, scenario "concgarble": goroutines share one client over an RTU-framed
   link whose device sometimes garbles a reply (wrong CRC, unknown function code,
   line noise, a frame cut short, silence). The harness gives every call the bytes
   the device answers ITS request with; the model computes what every caller must
   be handed (cg_expected, Model/ConcGarble.v). Lemmas in Proofs/ConcGarbleP.v. *)
From Coq Require Import List Bool NArith Permutation.
Import ListNotations.
From Modbus Require Import Base.Bytes Model.Encoding Model.Wire Model.Client Spec.ModbusSpec Model.ConcGarble
  Proofs.ConcGarbleP.

(* whatever the order in which the goroutines get the client (l' = the calls in
   the order of their exchanges on the line), the exchanges - each one facing
   what the earlier ones left on the line - return what every call returns on a
   quiet line facing its own answer *)
Theorem c08g_any_order : forall cfg l l',
  Permutation l l' -> cg_all_settled cfg l = true ->
  cg_serial cfg [] l' = cg_expected cfg l'.
Proof. exact cg_serial_any_order. Qed.
Print Assumptions c08g_any_order.

(* per caller: the result it is handed is decided by the answer to its own
   request, not by the exchange (garbled or not) that went before *)
Theorem c08g_each_caller_own_reply : forall cfg l l' c r,
  Permutation l l' -> cg_all_settled cfg l = true ->
  In (c, r) (combine l' (cg_serial cfg [] l')) -> r = cg_own cfg c.
Proof.
  intros cfg l l' c r Hp H Hin. rewrite (cg_serial_any_order _ _ _ Hp H) in Hin.
  exact (in_combine_map _ _ _ _ Hin).
Qed.
Print Assumptions c08g_each_caller_own_reply.

Definition c08g_cfg := mkcfg 1 BigE HighFirst.
Definition c08g_o1 := OpReadRegs 1 0x0900 1 Holding.
Definition c08g_o2 := OpReadRegs 1 0x0a00 1 Holding.
Definition c08g_good1 := assemble_rtu (mkpdu 1 3 [2; 0x12; 0x34]).
Definition c08g_good2 := assemble_rtu (mkpdu 1 3 [2; 0x56; 0x78]).
(* the last CRC byte inverted, three bytes of noise behind the frame *)
Definition c08g_bad1 := removelast c08g_good1 ++ [N.lxor (last c08g_good1 0) 255] ++ [7; 7; 7].
(* a function code no reply can carry; the rest of the frame stays on the line *)
Definition c08g_odd1 := [1; 0x2b; 2; 0x12; 0x34; 0; 0].

Example c08g_ex_good :
  cr_res (cg_own c08g_cfg (c08g_o1, c08g_good1)) = Ok (VNums [0x1234]) /\
  cg_settled c08g_cfg (c08g_o1, c08g_good1) = true.
Proof. split; vm_compute; reflexivity. Qed.

Example c08g_ex_badcrc_noise :
  cr_res (cg_own c08g_cfg (c08g_o1, c08g_bad1)) = Err EBadCRC /\
  cg_settled c08g_cfg (c08g_o1, c08g_bad1) = true.
Proof. split; vm_compute; reflexivity. Qed.

Example c08g_ex_unknown_fc :
  cr_res (cg_own c08g_cfg (c08g_o1, c08g_odd1)) = Err EProtocol /\
  cg_settled c08g_cfg (c08g_o1, c08g_odd1) = true.
Proof. split; vm_compute; reflexivity. Qed.

(* the caller after a garbled exchange is handed its own reply *)
Example c08g_ex_next_unaffected :
  map cr_res (cg_serial c08g_cfg [] [(c08g_o1, c08g_bad1); (c08g_o2, c08g_good2)]) =
  [Err EBadCRC; Ok (VNums [0x5678])].
Proof. vm_compute; reflexivity. Qed.

(* the hypothesis is needed: a good reply with a byte of noise behind it is not
   settled (nothing flushes the line after a good exchange), and the next
   caller is handed something else than its own reply *)
Example c08g_ex_unsettled :
  cg_settled c08g_cfg (c08g_o1, c08g_good1 ++ [9]) = false /\
  map cr_res (cg_serial c08g_cfg [] [(c08g_o1, c08g_good1 ++ [9]); (c08g_o2, c08g_good2)]) <>
  map cr_res (cg_expected c08g_cfg [(c08g_o1, c08g_good1 ++ [9]); (c08g_o2, c08g_good2)]).
Proof. split; vm_compute; [reflexivity|discriminate]. Qed.
