(* C07b - "whatever the peer does" includes a peer that does not READ (lemmas:
   Proofs/TimedWriteP.v). Model/TimedWrite.v gives the request Write a link that
   takes only `room` more bytes while the peer does not read (reads = false): a
   request that does not fit blocks until the deadline both transports arm with
   SetDeadline(now + timeout), and Write's error surfaces as request-timed-out. *)
From Modbus Require Import Base.Bytes Model.Crc Model.Encoding Model.Wire Model.Client
  Model.Timed Model.TimedSession Model.TimedWrite
  Spec.ModbusSpec Spec.ClientSpec Spec.TimedSpec Spec.TimedWriteSpec Proofs.TimedWriteP.

(* T1: the bounds of C07 (c07_bound_mbap, c07_bound_rtu) hold for every room,
   whether or not the peer reads *)
Theorem c07b_bound_mbap : forall k la cfg txn o t0 reads room c s, (0 <= tm_timeout k)%Z ->
  (t0 <= tmc_finish (tmw_call (tm_client_call_w FMbap k la cfg txn o t0 reads room c s))
      <= t0 + tm_timeout k)%Z.
Proof. exact tm_call_w_time_mbap. Qed.

Theorem c07b_bound_rtu : forall k la cfg txn o t0 reads room c s,
  op_wf o -> tm_conf_wf k -> (la <= t0)%Z ->
  (t0 <= tmc_finish (tmw_call (tm_client_call_w FRtu k la cfg txn o t0 reads room c s))
      <= tm_rtu_bound k t0 (tm_req_len cfg o))%Z.
Proof. exact tm_call_w_time_rtu. Qed.

(* T2: the request does not fit into what the link still takes: request timed
   out - on MBAP exactly at the deadline, on RTU at the deadline or at the
   end of the pre-send wait when that is later -, nothing of the peer's
   stream is consumed, the link is full afterwards *)
Theorem c07b_full_link : forall fr k la cfg txn o t0 room c s,
  op_wf o -> valid_op o = true -> (room < tm_wire_len fr cfg txn o)%Z ->
  tm_client_call_w fr k la cfg txn o t0 false room c s =
  mk_tm_wcall (mk_tm_call (Err ETimeout)
                 (Z.max (tm_write_start fr k la t0) (t0 + tm_timeout k)) s) 0 true.
Proof.
  intros fr k la cfg txn o t0 room c s Hwf V Hroom.
  apply (tm_call_w_blocked fr k la cfg txn o t0 false room c s _ (TimedP.tm_request cfg o Hwf V)).
  unfold tm_blocked, tm_wire_len in *. cbn [negb andb]. lia.
Qed.

(* conservative extension: a request that fits, or a peer that reads, gives
   the call of Model/Timed.v - every theorem of C07.v applies to it *)
Theorem c07b_room_enough : forall fr k la cfg txn o t0 room c s,
  op_wf o -> valid_op o = true -> (tm_wire_len fr cfg txn o <= room)%Z ->
  tm_client_call_w fr k la cfg txn o t0 false room c s =
  mk_tm_wcall (tm_client_call fr k la cfg txn o t0 c s) (room - tm_wire_len fr cfg txn o) false.
Proof.
  intros fr k la cfg txn o t0 room c s Hwf V Hroom.
  apply (tm_call_w_fits fr k la cfg txn o t0 false room c s _ (TimedP.tm_request cfg o Hwf V)).
  unfold tm_blocked, tm_wire_len in *. cbn [negb andb]. lia.
Qed.

Theorem c07b_peer_reads : forall fr k la cfg txn o t0 room c s,
  tm_client_call_w fr k la cfg txn o t0 true room c s =
  mk_tm_wcall (tm_client_call fr k la cfg txn o t0 c s) room false.
Proof. exact tm_peer_reads. Qed.

(* total silence is the request-timed-out error whatever room is left: the
   outcome does not tell a full link from an empty one *)
Theorem c07b_silence_any_room_mbap : forall k la cfg txn o t0 reads room,
  op_wf o -> valid_op o = true -> (0 <= tm_timeout k)%Z ->
  tmw_call (tm_client_call_w FMbap k la cfg txn o t0 reads room None []) =
  mk_tm_call (Err ETimeout) (t0 + tm_timeout k) [].
Proof. exact tm_silent_any_room_mbap. Qed.

Theorem c07b_silence_any_room_rtu : forall k la cfg txn o t0 reads room,
  op_wf o -> valid_op o = true -> tm_conf_wf k -> tm_gran k = 0%Z ->
  let r := tmw_call (tm_client_call_w FRtu k la cfg txn o t0 reads room None []) in
  tmc_res r = Err ETimeout /\ (t0 + tm_timeout k <= tmc_finish r)%Z /\ tmc_rest r = [].
Proof. exact tm_silent_any_room_rtu. Qed.

(* T3: calls in a row on one connection: rt.lastActivity as left by a call is
   not later than its return, so the next call starts with la <= t0 ... *)
Theorem c07b_last_activity : forall fr k la cfg txn o t0 reads room c s,
  op_wf o -> tm_conf_wf k -> (la <= t0)%Z ->
  let w := tm_client_call_w fr k la cfg txn o t0 reads room c s in
  (tm_next_la fr k cfg o la t0 c s (tmw_blocked w) <= tmc_finish (tmw_call w))%Z.
Proof. exact tm_next_la_le. Qed.

(* ... and EVERY call of EVERY session returns within the bound counted from
   its own start: any operations, any room, the peer reading any subset of
   the requests and sending anything at any time *)
Theorem c07b_session_bound : forall fr k cfg, tm_conf_wf k -> forall calls la txn room now rest,
  Forall (fun cl => op_wf (fst (fst cl))) calls -> (la <= now)%Z ->
  Forall (fun p => (tws_start (snd p) <= tws_finish (snd p)
                    <= tm_call_bound fr k cfg (fst (fst (fst p))) (tws_start (snd p)))%Z)
    (combine calls (tm_session_w fr k cfg la txn room now rest calls)).
Proof. exact tm_session_w_time. Qed.
(* (the session has one step per call: Proofs/TimedWriteP.v tm_session_w_length) *)

(* a polling application against a peer that has died with the connection
   open (reads nothing, sends nothing): every call is a request-timed-out -
   on MBAP exactly one timeout after its start - for every amount of room *)
Theorem c07b_dead_peer_mbap : forall k cfg, (0 <= tm_timeout k)%Z -> forall ops la txn room now,
  Forall op_wf ops -> Forall (fun o => valid_op o = true) ops ->
  Forall (fun st => tws_res st = Err ETimeout /\
                    tws_finish st = (tws_start st + tm_timeout k)%Z)
    (tm_session_w FMbap k cfg la txn room now [] (tm_dead_calls ops)).
Proof. exact tm_dead_peer_mbap. Qed.

Theorem c07b_dead_peer_rtu : forall k cfg, tm_conf_wf k -> tm_gran k = 0%Z -> forall ops la txn room now,
  Forall op_wf ops -> Forall (fun o => valid_op o = true) ops ->
  Forall (fun st => tws_res st = Err ETimeout /\
                    (tws_start st + tm_timeout k <= tws_finish st)%Z)
    (tm_session_w FRtu k cfg la txn room now [] (tm_dead_calls ops)).
Proof. exact tm_dead_peer_rtu. Qed.

(* non-vacuity: concrete instances of the statements above *)
Definition exb_k : tm_conf := mk_tm_conf 150000000 572916 1750000 0.   (* 150 ms, 19200 bps *)
Definition exb_cfg : ccfg := mkcfg 1 BigE HighFirst.
Definition exb_o : op := OpReadRegs 1 0x10 1 Holding.     (* 12 bytes over MBAP, 8 over RTU *)
Definition exb_reply (txn : N) : list (Z * N) :=
  map (fun b => (5000%Z, b)) (assemble_mbap txn (mkpdu 1 3 [2; 0xab; 0xcd])).
Definition exb_proj (l : list tm_wstep) :=
  map (fun st => (tws_res st, (tws_finish st - tws_start st)%Z, tws_room st, tws_blocked st)) l.

Example c07b_ex_lens : tm_wire_len FMbap exb_cfg 0 exb_o = 12%Z /\ tm_wire_len FRtu exb_cfg 0 exb_o = 8%Z.
Proof. split; vm_compute; reflexivity. Qed.

(* the peer answers two calls, then dies with room for 20 more bytes: the
   third request (12 bytes) still fits, the fourth finds 8 bytes of room and
   blocks, the fifth finds none; all three time out after exactly 150 ms *)
Example c07b_ex_session_mbap :
  exb_proj (tm_session_w FMbap exb_k exb_cfg 0 0 20 1000 []
    [(exb_o, true, exb_reply 1); (exb_o, true, exb_reply 2);
     (exb_o, false, []); (exb_o, false, []); (exb_o, false, [])])
  = [(Ok (VNums [0xabcd]), 5000%Z, 20%Z, false); (Ok (VNums [0xabcd]), 5000%Z, 20%Z, false);
     (Err ETimeout, 150000000%Z, 8%Z, false); (Err ETimeout, 150000000%Z, 0%Z, true);
     (Err ETimeout, 150000000%Z, 0%Z, true)].
Proof. vm_compute. reflexivity. Qed.

(* RTU, room for 10 bytes: the first request (8 bytes) fits and the call ends
   at the read deadline; the second blocks in Write until the same kind of
   deadline - no post-write sleep, no flush *)
Example c07b_ex_session_rtu :
  exb_proj (tm_session_w FRtu exb_k exb_cfg (-1000000000) 0 10 1000 [] (tm_dead_calls [exb_o; exb_o]))
  = [(Err ETimeout, 150000000%Z, 2%Z, false); (Err ETimeout, 150000000%Z, 0%Z, true)].
Proof. vm_compute. reflexivity. Qed.

Example c07b_ex_hyps : tm_conf_wf exb_k /\ tm_gran exb_k = 0%Z /\ op_wf exb_o /\ valid_op exb_o = true.
Proof.
  unfold tm_conf_wf, op_wf, exb_k, exb_o. cbn [tm_timeout tm_t1 tm_t35 tm_gran].
  repeat split; try lia; vm_compute; reflexivity.
Qed.

Print Assumptions c07b_bound_mbap.
Print Assumptions c07b_bound_rtu.
Print Assumptions c07b_full_link.
Print Assumptions c07b_room_enough.
Print Assumptions c07b_peer_reads.
Print Assumptions c07b_silence_any_room_mbap.
Print Assumptions c07b_silence_any_room_rtu.
Print Assumptions c07b_last_activity.
Print Assumptions c07b_session_bound.
Print Assumptions c07b_dead_peer_mbap.
Print Assumptions c07b_dead_peer_rtu.
