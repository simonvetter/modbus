(* C16 - Each URL scheme selects its documented transport; bad configs are
   refused. Statements, each with the last step of its proof; the lemmas are in
   Proofs/ConfigP.v.
   URLs are arbitrary byte strings (list N), optional fields arbitrary
   numbers; every theorem is quantified over all of them. *)
From Modbus Require Import Base.Bytes Model.Config Spec.ConfigSpec Proofs.ConfigP.
From Coq Require String.
Import String.StringSyntax.

(* the URL split: Go's strings.SplitN(url, "://", 2) *)

(* split_url u = (a, b) exactly when u = a ++ "://" ++ b and that is the FIRST
   occurrence of "://" in u (none occurs in a ++ ":/") *)
Theorem c16_split_first_occurrence : forall u a b,
  split_url u = Some (a, b) <->
  u = a ++ str "://" ++ b /\ ~ occurs (str "://") (a ++ str ":/").
Proof. exact split_url_spec. Qed.
Print Assumptions c16_split_first_occurrence.

Theorem c16_split_none : forall u,
  split_url u = None <-> ~ occurs (str "://") u.
Proof. exact split_url_none. Qed.
Print Assumptions c16_split_none.

(* a URL reads <scheme>://<rest> with a documented scheme in at most one way,
   and then the scheme is the text before the first "://" *)
Theorem c16_scheme_reading_unique : forall u s rest s' rest',
  url_scheme u s rest -> url_scheme u s' rest' -> s = s' /\ rest = rest'.
Proof. exact url_scheme_unique. Qed.
Print Assumptions c16_scheme_reading_unique.

Theorem c16_scheme_is_first_split : forall u s rest,
  url_scheme u s rest -> split_url u = Some (scheme_name s, rest).
Proof. intros u s rest ->. apply split_scheme. Qed.
Print Assumptions c16_scheme_is_first_split.

(* T1: which client configurations are accepted *)

Theorem c16_client_accept_iff : forall c,
  (exists e, new_client c = CfgOk e) <->
  exists s rest, cc_url c = scheme_name s ++ str "://" ++ rest /\
                 (s = STcpTls -> cc_has_cert c = true /\ cc_has_cas c = true).
Proof.
  intros c.
  rewrite new_client_iff. split; intros [s [rest [Hu Hc]]]; exists s, rest;
    (split; [exact Hu|]); unfold client_creds_ok in *.
  - intros ->. apply Hc. reflexivity.
  - intros Hn. apply Hc. destruct s; try discriminate Hn. reflexivity.
Qed.
Print Assumptions c16_client_accept_iff.

(* everything else gets the configuration error *)
Theorem c16_client_refused : forall c,
  ~ (exists s rest, url_scheme (cc_url c) s rest /\ client_creds_ok s c) ->
  new_client c = CfgErr EConfig.
Proof. exact new_client_refused. Qed.
Print Assumptions c16_client_refused.

Theorem c16_client_missing_scheme : forall c,
  ~ occurs (str "://") (cc_url c) -> new_client c = CfgErr EConfig.
Proof.
  intros c H. apply split_url_none in H. unfold new_client, url_parts. rewrite H. reflexivity.
Qed.
Print Assumptions c16_client_missing_scheme.

(* the text before the first "://" must be one of the six names, exactly *)
Theorem c16_client_unknown_scheme : forall c a b,
  split_url (cc_url c) = Some (a, b) -> (forall s, a <> scheme_name s) ->
  new_client c = CfgErr EConfig.
Proof.
  intros c a b Hs Ha. unfold new_client, url_parts. rewrite Hs, (kind_of_name_none a Ha). reflexivity.
Qed.
Print Assumptions c16_client_unknown_scheme.

Theorem c16_client_tls_needs_credentials : forall c rest,
  url_scheme (cc_url c) STcpTls rest ->
  cc_has_cert c = false \/ cc_has_cas c = false ->
  new_client c = CfgErr EConfig.
Proof.
  intros c rest Hu Hc. apply new_client_refused. intros [s [r [Hu' Hok]]].
  destruct (url_scheme_unique _ _ _ _ _ Hu Hu') as [<- _].
  destruct (Hok eq_refl) as [H1 H2]. destruct Hc; congruence.
Qed.
Print Assumptions c16_client_tls_needs_credentials.

(* T2: the effective configuration *)

Theorem c16_client_effective : forall c s rest,
  url_scheme (cc_url c) s rest -> client_creds_ok s c ->
  new_client c = CfgOk (spec_client_eff s rest c).
Proof. exact new_client_ok. Qed.
Print Assumptions c16_client_effective.

Theorem c16_client_effective_inv : forall c e,
  new_client c = CfgOk e ->
  exists s rest, url_scheme (cc_url c) s rest /\ e = spec_client_eff s rest c.
Proof.
  intros c e H. destruct (new_client_inv c e H) as [s [rest [Hu Hc]]].
  exists s, rest. split; [exact Hu | exact (new_client_eff c e s rest H Hu)].
Qed.
Print Assumptions c16_client_effective_inv.

(* the same, field by field, with the documented numbers spelled out
   (durations in nanoseconds) *)
Theorem c16_client_defaults : forall c e s rest,
  new_client c = CfgOk e -> url_scheme (cc_url c) s rest ->
  ce_url e = rest /\
  ce_parity e = cc_parity c /\
  ce_unit e = 1 /\ ce_endianness e = 1 /\ ce_word_order e = 1 /\
  (cc_speed c <> 0 -> ce_speed e = cc_speed c) /\
  (cc_data_bits c <> 0 -> ce_data_bits e = cc_data_bits c) /\
  (cc_stop_bits c <> 0 -> ce_stop_bits e = cc_stop_bits c) /\
  (cc_timeout c <> 0%Z -> ce_timeout e = cc_timeout c) /\
  (cc_timeout c = 0%Z ->
   ce_timeout e = match s with SRtu => 300000000%Z | _ => 1000000000%Z end) /\
  (cc_speed c = 0 ->
   ce_speed e = match s with SRtu | SRtuOverTcp | SRtuOverUdp => 19200 | _ => 0 end) /\
  (cc_data_bits c = 0 -> ce_data_bits e = match s with SRtu => 8 | _ => 0 end) /\
  (cc_stop_bits c = 0 ->
   ce_stop_bits e = match s with
                    | SRtu => if cc_parity c =? 0 then 2 else 1
                    | _ => 0
                    end).
Proof. exact client_defaults. Qed.
Print Assumptions c16_client_defaults.

(* T3: the wiring table *)

Theorem c16_wiring_table : forall s, wiring (scheme_transport s) = spec_wiring s.
Proof. exact wiring_table. Qed.
Print Assumptions c16_wiring_table.

(* constructor and Open() composed: a client accepted for scheme s opens the
   documented socket type with the documented framing *)
Theorem c16_client_wiring : forall c e s rest,
  new_client c = CfgOk e -> url_scheme (cc_url c) s rest ->
  wiring (ce_transport e) = spec_wiring s.
Proof. intros c e s rest H Hu. rewrite (new_client_eff c e s rest H Hu). apply wiring_table. Qed.
Print Assumptions c16_client_wiring.

(* T4: servers *)

Theorem c16_server_accept_iff : forall c,
  (exists e, new_server c = CfgOk e) <->
  exists s rest, sc_url c = scheme_name s ++ str "://" ++ rest /\
                 (s = STcp \/ s = STcpTls) /\ rest <> [] /\
                 (s = STcpTls -> sc_has_cert c = true /\ sc_has_cas c = true).
Proof.
  intros c.
  rewrite new_server_iff.
  split; intros [s [rest [Hu [Hs [Hr Hc]]]]]; exists s, rest;
    (split; [exact Hu|]); unfold server_creds_ok in *.
  - split; [destruct s; try discriminate Hs; auto|]. split; [exact Hr|].
    intros ->. apply Hc. reflexivity.
  - split; [destruct Hs as [-> | ->]; reflexivity|]. split; [exact Hr|].
    intros Hn. apply Hc. destruct s; try discriminate Hn. reflexivity.
Qed.
Print Assumptions c16_server_accept_iff.

Theorem c16_server_refused : forall c,
  ~ (exists s rest, url_scheme (sc_url c) s rest /\ server_scheme s = true /\ rest <> [] /\
                    server_creds_ok s c) ->
  new_server c = CfgErr EConfig.
Proof.
  intros c Hn. destruct (new_server_total c) as [He | He]; [|exact He].
  apply new_server_iff in He. destruct (Hn He).
Qed.
Print Assumptions c16_server_refused.

Theorem c16_server_effective : forall c s rest,
  url_scheme (sc_url c) s rest -> server_scheme s = true -> rest <> [] ->
  server_creds_ok s c ->
  new_server c = CfgOk (spec_server_eff s rest c).
Proof. exact new_server_ok. Qed.
Print Assumptions c16_server_effective.

Theorem c16_server_no_host : forall c s,
  url_scheme (sc_url c) s [] -> new_server c = CfgErr EConfig.
Proof.
  intros c s Hu. rewrite new_server_reading, (proj2 (url_reading_spec _ _ _) Hu). reflexivity.
Qed.
Print Assumptions c16_server_no_host.

Theorem c16_server_missing_scheme : forall c,
  ~ occurs (str "://") (sc_url c) -> new_server c = CfgErr EConfig.
Proof.
  intros c H. apply split_url_none in H. unfold new_server, url_parts. rewrite H.
  destruct (sc_url c); reflexivity.
Qed.
Print Assumptions c16_server_missing_scheme.

(* 120 s, 10 clients; a TCP listener speaking MBAP *)
Theorem c16_server_defaults : forall c e,
  new_server c = CfgOk e ->
  (sc_timeout c = 0%Z -> se_timeout e = 120000000000%Z) /\
  (sc_timeout c <> 0%Z -> se_timeout e = sc_timeout c) /\
  (sc_max_clients c = 0 -> se_max_clients e = 10) /\
  (sc_max_clients c <> 0 -> se_max_clients e = sc_max_clients c) /\
  (se_transport e = TTcp \/ se_transport e = TTcpOverTls) /\
  exists sk, server_wiring (se_transport e) = Some (sk, KMbap).
Proof.
  intros c e H. destruct (new_server_inv c e H) as [s [rest [Hu [Hs _]]]].
  rewrite (new_server_eff c e s rest H Hu).
  unfold spec_server_eff; cbn [se_timeout se_max_clients se_transport].
  repeat split.
  - intros ->. reflexivity.
  - intros Hz. unfold fillz. destruct (Z.eqb_spec (sc_timeout c) 0); [contradiction | reflexivity].
  - intros ->. reflexivity.
  - intros Hz. unfold fill. destruct (N.eqb_spec (sc_max_clients c) 0); [contradiction | reflexivity].
  - destruct s; try discriminate Hs; [left | right]; reflexivity.
  - destruct s; try discriminate Hs; eexists; reflexivity.
Qed.
Print Assumptions c16_server_defaults.

(* T5: selectors *)

Theorem c16_set_encoding_ok : forall st e w,
  valid_selector e -> valid_selector w ->
  set_encoding st e w = ({| es_endianness := e; es_word_order := w |}, None).
Proof. exact set_encoding_ok. Qed.
Print Assumptions c16_set_encoding_ok.

Theorem c16_set_encoding_refused : forall st e w,
  ~ (valid_selector e /\ valid_selector w) ->
  set_encoding st e w = (st, Some EUnexpectedParams).
Proof. exact set_encoding_refused. Qed.
Print Assumptions c16_set_encoding_refused.

Theorem c16_set_encoding_iff : forall st e w,
  snd (set_encoding st e w) = None <-> (e = 1 \/ e = 2) /\ (w = 1 \/ w = 2).
Proof.
  intros st e w.
  split.
  - intros H. destruct (N.eq_dec e 1), (N.eq_dec e 2), (N.eq_dec w 1), (N.eq_dec w 2);
      unfold valid_selector; try tauto;
      rewrite set_encoding_refused in H by (unfold valid_selector; lia); discriminate H.
  - intros [He Hw]. rewrite set_encoding_ok; auto.
Qed.
Print Assumptions c16_set_encoding_iff.

(* T6: totality. The three functions are Gallina functions, hence total;
   their only outcomes are an object or the one documented error (the result
   types have no third, "panic" or "half-built", alternative). *)

Theorem c16_client_total : forall c,
  (exists e, new_client c = CfgOk e) \/ new_client c = CfgErr EConfig.
Proof. exact new_client_total. Qed.
Print Assumptions c16_client_total.

Theorem c16_server_total : forall c,
  (exists e, new_server c = CfgOk e) \/ new_server c = CfgErr EConfig.
Proof. exact new_server_total. Qed.
Print Assumptions c16_server_total.

Theorem c16_set_encoding_total : forall st e w,
  set_encoding st e w = ({| es_endianness := e; es_word_order := w |}, None) \/
  set_encoding st e w = (st, Some EUnexpectedParams).
Proof.
  intros st e w.
  unfold set_encoding.
  destruct (andb (negb (e =? 1)) (negb (e =? 2))); [right; reflexivity|].
  destruct (andb (negb (w =? 1)) (negb (w =? 2))); [right | left]; reflexivity.
Qed.
Print Assumptions c16_set_encoding_total.

(* non-vacuity *)

Definition conf0 (u : list N) : client_conf := mkcc u 0 0 0 0 0 false false.
Definition sconf0 (u : list N) : server_conf := mksc u 0 0 false false.

(* the names are what they read *)
Example ex_names :
  map scheme_name all_schemes =
  [nm_tcp; nm_tcptls; nm_udp; nm_rtu; nm_rtuovertcp; nm_rtuoverudp].
Proof. reflexivity. Qed.

(* first occurrence: "tcp://a://b" has scheme "tcp" and rest "a://b" *)
Example ex_split_multi : split_url (str "tcp://a://b") = Some (str "tcp", str "a://b").
Proof. reflexivity. Qed.
Example ex_first_split_multi : first_split (str "tcp://a://b") (str "tcp") (str "a://b").
Proof. apply split_url_spec. reflexivity. Qed.
Example ex_split_none : split_url (str "tcp:/x") = None.
Proof. reflexivity. Qed.
Example ex_split_empty_scheme : split_url (str "://x") = Some ([], str "x").
Proof. reflexivity. Qed.
Example ex_split_triple : split_url (str "tcp:///x") = Some (str "tcp", str "/x").
Proof. reflexivity. Qed.

Example ex_client_tcp :
  new_client (conf0 (str "tcp://a://b")) =
  CfgOk (mkce (str "a://b") 0 0 0 0 1000000000 1 1 1 TTcp).
Proof. reflexivity. Qed.
Example ex_client_rtu :
  new_client (conf0 (str "rtu:///dev/ttyUSB0")) =
  CfgOk (mkce (str "/dev/ttyUSB0") 19200 8 0 2 300000000 1 1 1 TRtu).
Proof. reflexivity. Qed.
Example ex_client_rtu_even :
  new_client (mkcc (str "rtu:///dev/ttyUSB0") 9600 0 1 0 0 false false) =
  CfgOk (mkce (str "/dev/ttyUSB0") 9600 8 1 1 300000000 1 1 1 TRtu).
Proof. reflexivity. Qed.
Example ex_client_rtuoverudp :
  new_client (conf0 (str "rtuoverudp://h:1")) =
  CfgOk (mkce (str "h:1") 19200 0 0 0 1000000000 1 1 1 TRtuOverUdp).
Proof. reflexivity. Qed.
Example ex_client_tls :
  new_client (mkcc (str "tcp+tls://h:802") 0 0 0 0 5 true true) =
  CfgOk (mkce (str "h:802") 0 0 0 0 5 1 1 1 TTcpOverTls).
Proof. reflexivity. Qed.
Example ex_client_tls_nocreds :
  new_client (mkcc (str "tcp+tls://h:802") 0 0 0 0 0 true false) = CfgErr EConfig.
Proof. reflexivity. Qed.
Example ex_client_case : new_client (conf0 (str "TCP://x")) = CfgErr EConfig.
Proof. reflexivity. Qed.
Example ex_client_space : new_client (conf0 (str " tcp://x")) = CfgErr EConfig.
Proof. reflexivity. Qed.
Example ex_client_space2 : new_client (conf0 (str "tcp ://x")) = CfgErr EConfig.
Proof. reflexivity. Qed.
Example ex_client_nosep : new_client (conf0 (str "tcp:/x")) = CfgErr EConfig.
Proof. reflexivity. Qed.
Example ex_client_empty : new_client (conf0 []) = CfgErr EConfig.
Proof. reflexivity. Qed.
Example ex_client_noscheme : new_client (conf0 (str "://x")) = CfgErr EConfig.
Proof. reflexivity. Qed.
Example ex_client_rtutls : new_client (mkcc (str "rtu+tls://x") 0 0 0 0 0 true true) = CfgErr EConfig.
Proof. reflexivity. Qed.
(* a client (unlike a server) takes an empty target *)
Example ex_client_empty_rest :
  new_client (conf0 (str "tcp://")) = CfgOk (mkce [] 0 0 0 0 1000000000 1 1 1 TTcp).
Proof. reflexivity. Qed.
(* the hypotheses of the refusal theorems are satisfiable *)
Example ex_unknown_scheme_hyp : forall s, str "TCP" <> scheme_name s.
Proof. intros s; destruct s; discriminate. Qed.
Example ex_missing_scheme_hyp : ~ occurs (str "://") (str "tcp:/x").
Proof. apply split_url_none. reflexivity. Qed.

Example ex_server_tcp :
  new_server (sconf0 (str "tcp://[::]:502")) =
  CfgOk (mkse (str "[::]:502") 120000000000 10 TTcp).
Proof. reflexivity. Qed.
Example ex_server_tls :
  new_server (mksc (str "tcp+tls://0.0.0.0:802") 7 3 true true) =
  CfgOk (mkse (str "0.0.0.0:802") 7 3 TTcpOverTls).
Proof. reflexivity. Qed.
Example ex_server_nohost : new_server (sconf0 (str "tcp://")) = CfgErr EConfig.
Proof. reflexivity. Qed.
Example ex_server_udp : new_server (sconf0 (str "udp://h:1")) = CfgErr EConfig.
Proof. reflexivity. Qed.
Example ex_server_rtu : new_server (sconf0 (str "rtu:///dev/ttyS0")) = CfgErr EConfig.
Proof. reflexivity. Qed.
Example ex_server_nosep : new_server (sconf0 (str "localhost:502")) = CfgErr EConfig.
Proof. reflexivity. Qed.
Example ex_server_tls_nocreds :
  new_server (mksc (str "tcp+tls://h:1") 0 0 false true) = CfgErr EConfig.
Proof. reflexivity. Qed.

Example ex_wiring :
  map (fun s => wiring (scheme_transport s)) all_schemes =
  [(KTcp, KMbap); (KTls, KMbap); (KUdp, KMbap); (KSerial, KRtu); (KTcp, KRtu); (KUdp, KRtu)].
Proof. reflexivity. Qed.
Example ex_codes :
  map (fun s => tkind_code (scheme_transport s)) all_schemes = [4; 5; 6; 1; 2; 3].
Proof. reflexivity. Qed.

Example ex_setenc_ok : set_encoding enc_init 2 2 = (mkes 2 2, None).
Proof. reflexivity. Qed.
Example ex_setenc_zero : set_encoding (mkes 2 1) 0 1 = (mkes 2 1, Some EUnexpectedParams).
Proof. reflexivity. Qed.
Example ex_setenc_three : set_encoding (mkes 2 1) 1 3 = (mkes 2 1, Some EUnexpectedParams).
Proof. reflexivity. Qed.
