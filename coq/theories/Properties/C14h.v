(* C14 (continued) - every attempt of a HISTORY of connection attempts on one
   server instance is decided by the configured client CAs and by the chain
   presented in THAT attempt, never by an earlier attempt. An authenticated client
   is free to send further certificates along with its chain (crypto/tls lists
   them in ConnectionState.PeerCertificates); a later peer may hold a certificate
   that chains to such a key only. Model/TlsHistory.v makes the server an object
   that every accepted socket finds and leaves behind. Lemmas in
   Proofs/TlsHistoryP.v and Proofs/TlsPolicyP.v. *)
From Modbus Require Import Base.Bytes Model.Encoding Model.Wire Model.Client Model.Server
  Model.Role Model.Config Model.TlsPolicy Model.TlsHistory
  Spec.ModbusSpec Spec.ServerSpec Spec.ServerSessionSpec Spec.ConfigSpec Spec.TlsSpec
  Proofs.TlsPolicyP Proofs.TlsHistoryP.
From Coq Require String.
Import String.StringSyntax.

Section C14h.
  Variable hs : tls_policy -> tls_peer -> option tls_session.
  Variable verifies : option (list tls_cert) -> tls_usage -> N -> list N -> list tls_cert -> Prop.
  Variable now : N.
  Context {St : Type} (h : list N -> handler St).

  (* the server object after a history is the object before it *)
  Theorem c14h_history_leaves_object : forall o e l,
    fst (tls_obj_history hs h o e l) = o.
  Proof. intros o e l. rewrite tls_obj_history_eq. reflexivity. Qed.

  (* in particular the tls.Config of the next handshake: ClientCAs is the configured pool *)
  Theorem c14h_history_leaves_policy : forall o e l,
    tls_policy_of_obj (fst (tls_obj_history hs h o e l)) = tls_policy_of_obj o.
  Proof. intros o e l. rewrite tls_obj_history_eq. reflexivity. Qed.

  (* every attempt is decided as if it were alone on a freshly built server *)
  Theorem c14h_history_pointwise : forall c e l,
    tls_server_history hs h c e l = map (tls_attempt_alone hs h c e) l.
  Proof. exact (tls_server_history_pointwise hs h). Qed.

  (* whatever came before it and whatever comes after it *)
  Theorem c14h_history_context_irrelevant : forall c e before a after,
    nth_error (tls_server_history hs h c e (before ++ a :: after)) (length before) =
    Some (tls_attempt_alone hs h c e a).
  Proof. intros c e before a after. rewrite tls_server_history_pointwise. apply nth_error_map_middle. Qed.

  (* T1 along a history: a handler invocation in attempt k implies that the
     peer of attempt k completed a TLS 1.2-or-later handshake presenting, in
     attempt k, a chain that verifies against the configured client CAs *)
  Theorem c14h_history_authenticates : forall c rest e l k evs r,
    tls_srv_documented hs verifies now ->
    url_scheme (tsv_url c) STcpTls rest ->
    nth_error (tls_server_history hs h c e l) k = Some evs ->
    In (EvCall r) evs ->
    exists a cas sess,
      nth_error l k = Some a /\
      tsv_cas c = Some cas /\
      hs (tls_policy_of_server c) (tat_peer a) = Some sess /\
      spec_client_authenticated verifies now cas (tat_peer a) sess.
  Proof.
    intros c rest e l k evs r Hdoc Hu Hk Hin. rewrite tls_server_history_nth in Hk.
    destruct (nth_error l k) as [a|]; [|discriminate Hk]. injection Hk as <-.
    destruct (tls_server_call_authenticated hs verifies now h c rest _ _ _ _ r Hdoc Hu Hin)
      as (cas & sess & Hc & Hs & Hauth).
    exists a, cas, sess. auto.
  Qed.

  (* the refusing direction, with no premise about the other attempts: they
     may have presented the very certificates this chain would verify against *)
  Theorem c14h_history_refuses_unverified : forall c rest e l k a evs,
    tls_srv_documented hs verifies now ->
    url_scheme (tsv_url c) STcpTls rest ->
    nth_error l k = Some a ->
    (forall cas, tsv_cas c = Some cas ->
                 ~ verifies (Some cas) TlsUsageClientAuth now [] (tpe_chain (tat_peer a))) ->
    nth_error (tls_server_history hs h c e l) k = Some evs ->
    forall r, ~ In (EvCall r) evs.
  Proof.
    intros c rest e l k a evs Hdoc Hu Ha Hno Hk. rewrite tls_server_history_nth, Ha in Hk. injection Hk as <-.
    apply (tls_server_unverified hs verifies now h c rest); assumption.
  Qed.

  Theorem c14h_history_failed_handshake_closes : forall c eff e l k a,
    tls_new_server c = CfgOk eff -> se_transport eff = TTcpOverTls ->
    nth_error l k = Some a ->
    hs (tls_policy_of_server c) (tat_peer a) = None ->
    nth_error (tls_server_history hs h c e l) k = Some [EvClosed].
  Proof.
    intros c eff e l k a En Ht Ha Hs. rewrite tls_server_history_nth, Ha. cbn [option_map]. f_equal.
    apply (tls_server_handshake_failed hs h c eff); assumption.
  Qed.

  (* T4 along a history: a peer the handshake accepts is served *)
  Theorem c14h_history_serves : forall c rest e l k a sess t p r tail,
    tls_srv_documented hs verifies now ->
    (forall role, handler_wf (h role)) ->
    url_scheme (tsv_url c) STcpTls rest -> rest <> [] ->
    tsv_cert c <> None -> tsv_cas c <> None ->
    nth_error l k = Some a ->
    hs (tls_policy_of_server c) (tat_peer a) = Some sess ->
    tat_stream a = spec_mbap t p ++ tail ->
    t < 65536 -> pdu_wf p -> spec_decode p = Some r -> in_range r = true ->
    exists leaf more,
      tpe_chain (tat_peer a) = leaf :: more /\
      let role := extract_role (tlc_exts leaf) in
      nth_error (tls_server_history hs h c e l) k =
      Some (EvCall r :: EvResp (spec_mbap t (spec_response p r (snd (h role (tat_state a) r)))) ::
            server_run (h role) (fst (h role (tat_state a) r)) e tail).
  Proof.
    intros c rest e l k a sess t p r tail Hdoc Hwf Hu Hr Hcert Hcas Ha Hs Hst Ht Hp Hdec Hrange.
    destruct (tls_server_serves hs verifies now h c rest (tat_peer a) sess (tat_state a) e t p r tail
                Hdoc Hwf Hu Hr Hcert Hcas Hs Ht Hp Hdec Hrange) as (leaf & more & Hch & Hev).
    exists leaf, more. split; [exact Hch|]. cbv zeta in *.
    rewrite tls_server_history_nth, Ha. cbn [option_map]. f_equal.
    unfold tls_attempt_alone. rewrite Hst. exact Hev.
  Qed.
End C14h.

Print Assumptions c14h_history_leaves_object.
Print Assumptions c14h_history_leaves_policy.
Print Assumptions c14h_history_pointwise.
Print Assumptions c14h_history_context_irrelevant.
Print Assumptions c14h_history_authenticates.
Print Assumptions c14h_history_refuses_unverified.
Print Assumptions c14h_history_failed_handshake_closes.
Print Assumptions c14h_history_serves.

(* Non-vacuity: an oracle that builds chains. Every certificate names its
   issuer (toy: identity / 16); a chain verifies when its leaf is in the pool
   or a path leaf -> issuer -> ... through the certificates PRESENTED WITH IT
   ends at a pool member (at most two intermediates). It satisfies the
   documented premise; the model is run on a history in which a valid client
   sends a foreign CA certificate along and the holder of a leaf issued under
   that foreign CA comes before and after it. *)

Definition c14h_issuer (id : N) : N := id / 16.

Definition c14h_in (id : N) (l : list tls_cert) : bool := existsb (fun c => tlc_id c =? id) l.

Definition c14h_toy_verifiesb (pool : option (list tls_cert)) (chain : list tls_cert) : bool :=
  match pool, chain with
  | Some p, leaf :: more =>
      let i1 := c14h_issuer (tlc_id leaf) in
      let i2 := c14h_issuer i1 in
      let i3 := c14h_issuer i2 in
      c14h_in (tlc_id leaf) p
      || c14h_in i1 p
      || (c14h_in i1 more && c14h_in i2 p)
      || (c14h_in i1 more && c14h_in i2 more && c14h_in i3 p)
  | _, _ => false
  end.

Definition c14h_toy_verifies (pool : option (list tls_cert)) (u : tls_usage) (t : N) (host : list N)
                             (chain : list tls_cert) : Prop :=
  c14h_toy_verifiesb pool chain = true.

Definition c14h_toy_handshake (pol : tls_policy) (peer : tls_peer) : option tls_session :=
  if negb (tpe_speaks_tls peer) then None
  else
    match find (fun v => tls_version_geb v (tpo_min_version pol)) (tpe_versions peer) with
    | None => None
    | Some v =>
        if c14h_toy_verifiesb (tpo_pool pol) (tpe_chain peer)
        then Some (mk_tls_session v (tpe_chain peer)) else None
    end.

Example c14h_toy_srv_documented : tls_srv_documented c14h_toy_handshake c14h_toy_verifies 0.
Proof.
  intros pol peer sess. unfold c14h_toy_handshake.
  destruct (tpe_speaks_tls peer); [|discriminate]. cbn [negb].
  destruct (find _ (tpe_versions peer)) as [v|] eqn:Ef; [|discriminate].
  apply find_some in Ef. destruct Ef as [Hin Hge].
  destruct (c14h_toy_verifiesb (tpo_pool pol) (tpe_chain peer)) eqn:Ev; [|discriminate].
  intros [= <-]. cbn [tss_version tss_peer_certs].
  split; [reflexivity|]. split; [exact Hin|]. split; [exact Hge|].
  intros _. split; [reflexivity|]. split; [|exact Ev].
  intros E. rewrite E in Ev. unfold c14h_toy_verifiesb in Ev. destruct (tpo_pool pol); discriminate Ev.
Qed.

Definition c14h_handler : list N -> handler N :=
  fun role st r =>
    (st + 1, mkhres (repeat true (N.to_nat (h_qty r))) (repeat (lenN role) (N.to_nat (h_qty r))) HNone).

(* identities: the CA 2, a client leaf it issued 2*16+1 = 33; a foreign CA 3,
   an intermediate it issued 3*16+2 = 50, a leaf under that intermediate
   50*16+1 = 801, a leaf directly under the foreign CA 3*16+1 = 49 *)
Definition c14h_ca : tls_cert := mk_tls_cert 2 [].
Definition c14h_own : tls_cert := mk_tls_cert 9 [].
Definition c14h_client : tls_cert := mk_tls_cert 33 [].
Definition c14h_foreign_ca : tls_cert := mk_tls_cert 3 [].
Definition c14h_foreign_inter : tls_cert := mk_tls_cert 50 [].
Definition c14h_intruder : tls_cert := mk_tls_cert 49 [].
Definition c14h_intruder2 : tls_cert := mk_tls_cert 801 [].

Definition c14h_conf : tls_srv_conf :=
  mk_tls_srv_conf (str "tcp+tls://0.0.0.0:802") 0 0 (Some c14h_own) (Some [c14h_ca]).

Definition c14h_request : list N := spec_mbap 7 (mkpdu 1 3 [0; 16; 0; 2]).

Definition c14h_attempt (chain : list tls_cert) : tls_attempt N :=
  mk_tls_attempt (mk_tls_peer true chain [TLS12; TLS13]) 0 c14h_request.

Definition c14h_served : list event :=
  [EvCall (mkhreq HHolding 1 16 2 false [] []); EvResp (spec_mbap 7 (mkpdu 1 3 [4; 0; 0; 0; 0])); EvClosed].

Example c14h_url_sat : url_scheme (tsv_url c14h_conf) STcpTls (str "0.0.0.0:802").
Proof. reflexivity. Qed.

(* the intruders before, the valid client sending the foreign CA and the
   foreign intermediate along, the intruders again (with and without the
   foreign certificates), the valid client with its bare leaf *)
Example c14h_example_history :
  tls_server_history c14h_toy_handshake c14h_handler c14h_conf Closed
    [c14h_attempt [c14h_intruder];
     c14h_attempt [c14h_intruder2; c14h_foreign_inter];
     c14h_attempt [c14h_client; c14h_foreign_ca; c14h_foreign_inter];
     c14h_attempt [c14h_intruder];
     c14h_attempt [c14h_intruder; c14h_foreign_ca];
     c14h_attempt [c14h_intruder2; c14h_foreign_inter; c14h_foreign_ca];
     c14h_attempt [c14h_client]] =
  [[EvClosed]; [EvClosed]; c14h_served; [EvClosed]; [EvClosed]; [EvClosed]; c14h_served].
Proof. vm_compute. reflexivity. Qed.

(* the example discriminates: a server CONFIGURED with the foreign CA serves
   the same intruders, through the intermediate they present *)
Example c14h_example_configured_foreign :
  tls_server_history c14h_toy_handshake c14h_handler
    (mk_tls_srv_conf (str "tcp+tls://0.0.0.0:802") 0 0 (Some c14h_own) (Some [c14h_ca; c14h_foreign_ca])) Closed
    [c14h_attempt [c14h_intruder];
     c14h_attempt [c14h_intruder2; c14h_foreign_inter];
     c14h_attempt [c14h_intruder2]] =
  [c14h_served; c14h_served; [EvClosed]].
Proof. vm_compute. reflexivity. Qed.
