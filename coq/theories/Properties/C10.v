(* C10 - Stop and Start are clean, repeatable and race-free (lifecycle part;
   the lock-discipline clause is in C10b.v). Lemmas in Proofs/SlotsP.v. *)
From Coq Require Import List Arith Bool.
Import ListNotations.
From Modbus Require Import Model.Slots Proofs.SlotsP.

(* T1: when Stop returns the listener is closed and every connection in the
   active list has been closed *)
Theorem c10_stop_closes_all : forall s, started s = true ->
  let s' := step s Stop in
  started s' = false /\ listening s' = false /\ acceptors s' = 0 /\
  (forall c, In c (clients s) -> closed s' c = true).
Proof. exact stop_closes_all. Qed.

(* T2: in every reachable state in which the server is stopped, no request of
   any connection can reach a handler - for every interleaving that led there *)
Theorem c10_stopped_serves_nothing : forall m tr c,
  let s := run (init m) tr in
  started s = false -> listening s = false /\ acceptors s = 0 /\ enabled s (Req c) = false.
Proof. exact stopped_serves_nothing. Qed.

(* ... including a connection that was being accepted while Stop ran *)
Theorem c10_taken_during_stop_rejected : forall s c, Inv s -> stat s c = Taken -> started s = true ->
  let s' := step (step s Stop) (Enrol c) in
  stat s' c = Rejected /\ closed s' c = true.
Proof. exact taken_during_stop_rejected. Qed.

(* T3: repeated Start / Stop are no-ops; Stop then Start serves again *)
Theorem c10_start_idempotent : forall s, step (step s Start) Start = step s Start.
Proof. exact start_idempotent. Qed.
Theorem c10_stop_idempotent : forall s, step (step s Stop) Stop = step s Stop.
Proof. exact stop_idempotent. Qed.
Theorem c10_stop_start : forall s, started s = true ->
  let s' := step (step s Stop) Start in
  started s' = true /\ listening s' = true /\ acceptors s' = 1.
Proof. exact stop_start_serves_again. Qed.

(* T4: no server goroutine outlives Stop: each has an exit path of at most
   two steps and terminal connections have no step left *)
Theorem c10_session_winds_down : forall s c, Inv s -> started s = false -> stat s c = Serving ->
  enabled s (End c ClosedByStop) = true /\
  let s1 := step s (End c ClosedByStop) in
  enabled s1 (Remove c) = true /\ stat (step s1 (Remove c)) c = Removed.
Proof. exact stopped_session_winds_down. Qed.
Theorem c10_terminal_no_step : forall s c,
  stat s c = Rejected \/ stat s c = Removed \/ stat s c = Dropped ->
  enabled s (Take c) = false /\ enabled s (Enrol c) = false /\ enabled s (Req c) = false /\
  (forall w, enabled s (End c w) = false) /\ enabled s (Remove c) = false /\ enabled s (Arrive c) = false.
Proof.
  intros s c H. cbn [enabled].
  destruct H as [H|[H|H]]; rewrite H; cbn; repeat split; try apply andb_false_r; intros w; destruct w; reflexivity.
Qed.
Theorem c10_acceptor_exits : forall s, 0 < zombies s ->
  enabled s AcceptExit = true /\ zombies (step s AcceptExit) = pred (zombies s).
Proof.
  intros s H. split; [apply Nat.ltb_lt, H|]. rewrite step_exit by exact H. reflexivity.
Qed.

Example c10_ex :
  let tr := [Start; Arrive 1; Take 1; Enrol 1; Arrive 2; Take 2; Stop; Enrol 2; Start; Start] in
  let s := run (init 4) tr in
  stat s 2 = Rejected /\ closed s 1 = true /\ started s = true /\ acceptors s = 1 /\ zombies s = 1.
Proof. vm_compute. repeat split; reflexivity. Qed.

Print Assumptions c10_stop_closes_all.
Print Assumptions c10_stopped_serves_nothing.
Print Assumptions c10_taken_during_stop_rejected.
Print Assumptions c10_start_idempotent.
Print Assumptions c10_stop_idempotent.
Print Assumptions c10_stop_start.
Print Assumptions c10_session_winds_down.
Print Assumptions c10_terminal_no_step.
Print Assumptions c10_acceptor_exits.
