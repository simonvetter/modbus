(* C01 - Client emits exactly the spec-conformant request, or rejects locally.
   Statements, each with the last step of its proof; the lemmas are in
   Proofs/ClientReqP.v. *)
From Modbus Require Import Base.Bytes Model.Crc Model.Encoding Model.Wire Model.Client
  Spec.ModbusSpec Spec.ClientSpec Proofs.ClientReqP.

(* T1/T2: the request PDU is the specified one exactly when the arguments are
   within protocol limits; otherwise the call is rejected locally. Every
   address, quantity, slice length (also >= 65536), value, unit id, byte order
   and word order. *)
Theorem c01_request_exact : forall cfg o, op_wf o ->
  client_request cfg o = if valid_op o then Ok (spec_pdu cfg o) else Err EParams.
Proof. exact client_request_exact. Qed.

(* T3/T4: exactly one frame is written - MBAP header or RTU CRC around the
   specified PDU - or not a single byte. (txn < 65536 is not needed: the proof
   of client_transmit never uses it, the model narrows txn + 1 to 16 bits
   itself.) *)
Theorem c01_transmit : forall fr cfg txn o e s,
  op_wf o -> cfg_wf cfg -> txn < 65536 ->
  let r := client_call fr cfg txn o e s in
  (valid_op o = true -> cr_writes r = [spec_frame fr (u16 (txn + 1)) (spec_pdu cfg o)]) /\
  (valid_op o = false -> cr_writes r = [] /\ cr_res r = Err EParams /\ cr_rest r = s).
Proof. exact client_transmit. Qed.

(* non-vacuity *)
Example c01_ex_valid :
  valid_op (OpReadRegs 2 0xfffc 2 Holding) = true /\
  valid_op (OpReadRegs 2 0 32769 Holding) = false /\
  valid_op (OpWriteCoils 5 (repeat false 1969)) = false.
Proof. vm_compute. repeat split; reflexivity. Qed.

Print Assumptions c01_request_exact.
Print Assumptions c01_transmit.
