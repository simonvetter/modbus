(* C19, source level: the line timing of rtu_transport.go AS TRANSLATED FROM THE GO SOURCE ON THIS RUN, on worlds with
   a clock (time.Now reads it, time.Sleep(d) advances it by d when d is positive) and a log of the instants of the
   writes. Against a silent peer, whatever the history: ExecuteRequest writes its frame at max(now, lastActivity +
   t3.5), sets lastActivity to the end of the frame (+ length * t1) and starts reading t3.5 after that; WriteResponse
   stamps lastActivity likewise. Whatever reads and deadlines do, no write starts before lastActivity + t3.5. *)
From Coq Require Import List NArith String.
Import ListNotations.
From Modbus Require Import Base.Bytes.
From Modbus Require Import Model.GoLite.
From Modbus Require Import Gen.SrcPure.
From Modbus Require Import Model.Wire.
From Modbus Require Import Model.Transport.
From Modbus Require Import Proofs.GoLiteLinkP.
From Modbus Require Import Proofs.SrcCrcP.
From Modbus Require Import Proofs.SrcMiscP.
From Modbus Require Import Proofs.SrcClientP.
From Modbus Require Import Proofs.SrcTransportP.
From Modbus Require Import Proofs.TransportStreamP.
From Modbus Require Import Proofs.TransportClockP.
From Modbus Require Import Proofs.SrcTransportLinkP.
From Modbus Require Import Proofs.SrcTransportWorldsP.
Open Scope string_scope.
Open Scope N_scope.

Theorem c19t_ExecuteRequest_any_world :
  forall (base : fenv) (fuel : nat) (T : tworld) (tmo la t35 t1 : N) (req : pdu) (w : val),
       tworld_hyp base T "link" ->
       tworld_hyp base T "rtuLink" ->
       tworld_wf T src_codes ->
       pdu_ok req ->
       call_with src_pure base fuel "rtuTransport.ExecuteRequest"
         ([VN tmo; VN la; VN t35; VN t1] ++ pdu_args req ++ [w]) = out_rtu_execute T tmo la t35 t1 req w.
Proof. exact src_rtu_ExecuteRequest_ok. Qed.
Print Assumptions c19t_ExecuteRequest_any_world.

Theorem c19t_WriteResponse_any_world :
  forall (base : fenv) (fuel : nat) (T : tworld) (tmo la t35 t1 : N) (res0 : pdu) (w : val),
       tworld_hyp base T "link" ->
       pdu_ok res0 ->
       call_with src_pure base fuel "rtuTransport.WriteResponse"
         ([VN tmo; VN la; VN t35; VN t1] ++ pdu_args res0 ++ [w]) =
       out_rtu_write_response T tmo la t35 t1 res0 w.
Proof. exact src_rtu_WriteResponse_ok. Qed.
Print Assumptions c19t_WriteResponse_any_world.

Theorem c19t_clock_world_satisfies_the_hypotheses :
  forall sc : N, sc <> 0 -> sc <> c_ueof src_codes -> tworld_wf (clock_world sc) src_codes.
Proof. exact clock_world_wf. Qed.
Print Assumptions c19t_clock_world_satisfies_the_hypotheses.

Theorem c19t_ExecuteRequest_timing :
  forall (fuel : nat) (tmo la t35 t1 : N) (req : pdu) (c0 : N) (log : list val),
       c0 < 2 ^ 62 ->
       la < 2 ^ 62 ->
       t35 < 2 ^ 40 ->
       t1 < 2 ^ 40 ->
       lenN (assemble_rtu req) < 2 ^ 16 ->
       pdu_ok req ->
       let sc := c_timedout src_codes in
       let tw := N.max c0 (la + t35) in
       let busy := lenN (assemble_rtu req) * t1 in
       exists w' : val,
         call_with src_pure (world_base (clock_world sc)) fuel "rtuTransport.ExecuteRequest"
           ([VN tmo; VN la; VN t35; VN t1] ++ pdu_args req ++ [mkclock c0 log]) =
         GOk ([VN tmo; VN (tw + busy); VN t35; VN t1; w'] ++ enc_opdu None ++ [VN sc])%list /\
         log_of w' = (log ++ [VN tw])%list /\ clock_of w' = tw + busy + t35.
Proof.
  intros fuel tmo la t35 t1 req c0 log Hc Hla Ht35 Ht1 Hn Hok sc tw busy.
  destruct src_timedout_distinct as (D0 & Dc & Dp & Ds & Du).
  rewrite (src_rtu_ExecuteRequest_ok (world_base (clock_world sc)) fuel (clock_world sc) tmo la t35 t1 req (mkclock c0 log));
    [|apply world_base_hyp; tauto|apply world_base_hyp; tauto|exact (clock_world_wf sc D0 Du)|exact Hok].
  unfold out_rtu_execute.
  pose proof (rtu_execute_timing src_codes sc tmo la t35 t1 req c0 log Hc Hla Ht35 Ht1 Hn eq_refl D0 Dc Dp Ds Du) as H.
  destruct (t_rtu_execute (clock_world sc) src_codes tmo la t35 t1 req (mkclock c0 log)) as [[[la' w'] p] e'].
  destruct H as (Hl & -> & Hck & -> & ->).
  exists w'. split; [reflexivity|]. split; [exact Hl|exact Hck].
Qed.
Print Assumptions c19t_ExecuteRequest_timing.

Theorem c19t_ExecuteRequest_never_early :
  forall (T : tworld) (sc : N) (fuel : nat) (tmo la t35 t1 : N) (req : pdu) (c0 : N) (log : list val),
       (forall w : val, t_now T w = t_now (clock_world sc) w) ->
       (forall (w : val) (d : N), t_sleep T w d = t_sleep (clock_world sc) w d) ->
       (forall (w : val) (bs : list N), t_write T w bs = t_write (clock_world sc) w bs) ->
       (forall (w : val) (d : N),
        clock_of w < 2 ^ 62 -> clock_of w <= clock_of (fst (t_setdl T w d)) < 2 ^ 62) ->
       (forall (w : val) (d : N), log_of (fst (t_setdl T w d)) = log_of w) ->
       (forall (w : val) (n : N), log_of (fst (fst (t_readfull T w n))) = log_of w) ->
       tworld_wf T src_codes ->
       pdu_ok req ->
       c0 < 2 ^ 62 ->
       la < 2 ^ 62 ->
       t35 < 2 ^ 40 ->
       exists (la' : N) (w' : val) (p : option pdu) (c : N),
         call_with src_pure (world_base T) fuel "rtuTransport.ExecuteRequest"
           ([VN tmo; VN la; VN t35; VN t1] ++ pdu_args req ++ [mkclock c0 log]) =
         GOk ([VN tmo; VN la'; VN t35; VN t1; w'] ++ enc_opdu p ++ [VN c])%list /\
         (exists extra : list val,
            log_of w' = (log ++ extra)%list /\
            Forall (fun v : val => exists t : N, v = VN t /\ la + t35 <= t) extra).
Proof.
  intros T sc fuel tmo la t35 t1 req c0 log Hnow Hsleep Hwrite Hdc Hdl Hrl Hwf Hok Hc Hla Ht35.
  rewrite (src_rtu_ExecuteRequest_ok (world_base T) fuel T tmo la t35 t1 req (mkclock c0 log));
    [|apply world_base_hyp; tauto|apply world_base_hyp; tauto|exact Hwf|exact Hok].
  unfold out_rtu_execute.
  pose proof (rtu_execute_never_early_all T src_codes sc tmo la t35 t1 req c0 log
                Hnow Hsleep Hwrite Hdc Hdl Hrl Hc Hla Ht35) as H.
  destruct (t_rtu_execute T src_codes tmo la t35 t1 req (mkclock c0 log)) as [[[la' w'] p] c].
  exists la', w', p, c. split; [reflexivity|exact H].
Qed.
Print Assumptions c19t_ExecuteRequest_never_early.

Theorem c19t_WriteResponse_timing :
  forall (fuel : nat) (sc tmo la t35 t1 : N) (res0 : pdu) (c0 : N) (log : list val),
       c0 < 2 ^ 62 ->
       t1 < 2 ^ 40 ->
       lenN (assemble_rtu res0) < 2 ^ 16 ->
       pdu_ok res0 ->
       exists w' : val,
         call_with src_pure (world_base (clock_world sc)) fuel "rtuTransport.WriteResponse"
           ([VN tmo; VN la; VN t35; VN t1] ++ pdu_args res0 ++ [mkclock c0 log]) =
         GOk [VN tmo; VN (c0 + lenN (assemble_rtu res0) * t1); VN t35; VN t1; w'; VN 0] /\
         log_of w' = (log ++ [VN c0])%list /\ clock_of w' = c0.
Proof.
  intros fuel sc tmo la t35 t1 res0 c0 log Hc Ht1 Hn Hok.
  rewrite (src_rtu_WriteResponse_ok (world_base (clock_world sc)) fuel (clock_world sc) tmo la t35 t1 res0 (mkclock c0 log));
    [|apply world_base_hyp; tauto|exact Hok].
  unfold out_rtu_write_response.
  pose proof (rtu_write_response_timing sc la t1 res0 c0 log Hc Ht1 Hn) as H.
  destruct (t_rtu_write_response (clock_world sc) la t1 res0 (mkclock c0 log)) as [[la' w'] e'].
  destruct H as (Hl & -> & -> & Hk).
  exists w'. split; [reflexivity|]. split; [exact Hl|exact Hk].
Qed.
Print Assumptions c19t_WriteResponse_timing.

