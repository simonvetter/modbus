(* C01 / C02 / C06, source level, END TO END on RTU framing: the translated methods of client.go run ON TOP OF
   the translated rtuTransport.ExecuteRequest (on a peer byte stream, with the clock standing still) return what
   the model's client_call returns for RTU framing - for every fuel of the transport run and whatever the
   transaction counter - up to the one distinction the model does not make between io.EOF and other i/o errors
   (sout_norm). *)
From Coq Require Import List NArith String.
Import ListNotations.
From Modbus Require Import Base.Bytes.
From Modbus Require Import Model.GoLite.
From Modbus Require Import Gen.SrcPure.
From Modbus Require Import Model.Wire.
From Modbus Require Import Model.Client.
From Modbus Require Import Model.Transport.
From Modbus Require Import Proofs.GoLiteLinkP.
From Modbus Require Import Proofs.SrcCrcP.
From Modbus Require Import Proofs.SrcMiscP.
From Modbus Require Import Proofs.SrcClientP.
From Modbus Require Import Proofs.SrcTransportP.
From Modbus Require Import Proofs.SrcClientLinkP.
From Modbus Require Import Proofs.SrcTransportWorldsP.
From Modbus Require Import Proofs.SrcStackP.
From Modbus Require Import Proofs.SrcStackRtuP.
Open Scope string_scope.
Open Scope N_scope.

Theorem c06u_reply_well_formed :
  forall (fuel : nat) (tmo la t35 t1 : N) (e : send) (s : list N) (req : pdu),
       treply_wf (src_rtu_reply fuel tmo la t35 t1 e s req).
Proof. exact src_rtu_reply_wf_all. Qed.
Print Assumptions c06u_reply_well_formed.

Theorem c06u_translated_transport_is_model_transport :
  forall (fuel : nat) (tmo la t35 t1 txn : N) (e : send) (s : list N) (req : pdu),
       bytesb s = true ->
       pdu_ok req -> reply_rel (src_rtu_reply fuel tmo la t35 t1 e s req) (model_transport FRtu txn e s req).
Proof. exact src_rtu_reply_model. Qed.
Print Assumptions c06u_translated_transport_is_model_transport.

Theorem c06u_call_out_stack :
  forall (cfg : ccfg) (o : op) (fuel : nat) (tmo la t35 t1 txn : N) (e : send) (s : list N),
       ClientSpec.op_wf o ->
       ClientSpec.cfg_wf cfg ->
       bytesb s = true ->
       sout_norm (call_out cfg o (xchg (src_rtu_reply fuel tmo la t35 t1 e s))) =
       sout_of (cr_res (client_call FRtu cfg txn o e s)).
Proof.
  intros cfg o fuel tmo la t35 t1 txn e s Ho Hc Hs. apply call_out_stack_gen. intros req Hr.
  apply src_rtu_reply_model; [exact Hs|exact (client_request_pdu_ok cfg o req Ho Hc Hr)].
Qed.
Print Assumptions c06u_call_out_stack.

Theorem c06u_WriteCoil_stack :
  forall (cfg : ccfg) (tt : N) (fuel' : nat) (tmo la t35 t1 txn : N) (e : send) 
         (s : list N) (fuel : nat) (a : N) (v : bool),
       bytesb s = true ->
       ClientSpec.cfg_wf cfg ->
       a < 65536 ->
       exists X : sout,
         call_with src_pure (oracle_of (src_rtu_reply fuel' tmo la t35 t1 e s)) fuel "ModbusClient.WriteCoil"
           (mc_fields cfg tt ++ [VN a; VB v]) = out_err (mc_fields cfg tt) X /\
         sout_norm X = sout_of (cr_res (client_call FRtu cfg txn (OpWriteCoil a v) e s)).
Proof.
  intros cfg tt fuel' tmo la t35 t1 txn e s fuel a v Hs Hc Ha.
  exists (call_out cfg (OpWriteCoil a v) (xchg (src_rtu_reply fuel' tmo la t35 t1 e s))).
  split.
  - apply src_WriteCoil_ok; [apply src_rtu_reply_hyp|exact Ha].
  - apply c06u_call_out_stack; [exact Ha|exact Hc|exact Hs].
Qed.
Print Assumptions c06u_WriteCoil_stack.

Theorem c06u_ReadRegisters_stack :
  forall (cfg : ccfg) (tt : N) (fuel' : nat) (tmo la t35 t1 txn : N) (e : send) 
         (s : list N) (fuel : nat) (a q rtn : N) (rt : regtype),
       bytesb s = true ->
       ClientSpec.cfg_wf cfg ->
       a < 65536 ->
       q < 65536 ->
       regtype_sel rt rtn ->
       (300 < fuel)%nat ->
       exists X : sout,
         call_with src_pure (oracle_of (src_rtu_reply fuel' tmo la t35 t1 e s)) fuel
           "ModbusClient.ReadRegisters" (mc_fields cfg tt ++ [VN a; VN q; VN rtn]) =
         out_vals (mc_fields cfg tt) X /\
         sout_norm X = sout_of (cr_res (client_call FRtu cfg txn (OpReadRegs 1 a q rt) e s)).
Proof.
  intros cfg tt fuel' tmo la t35 t1 txn e s fuel a q rtn rt Hs Hc Ha Hq Hrt Hfuel.
  exists (call_out cfg (OpReadRegs 1 a q rt) (xchg (src_rtu_reply fuel' tmo la t35 t1 e s))).
  split.
  - apply src_ReadRegisters_ok; [apply src_rtu_reply_hyp|assumption..].
  - apply c06u_call_out_stack; [|exact Hc|exact Hs].
    cbn [ClientSpec.op_wf]. split; [left; reflexivity|]. split; [exact Ha|exact Hq].
Qed.
Print Assumptions c06u_ReadRegisters_stack.

