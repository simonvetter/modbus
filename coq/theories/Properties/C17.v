(* C17 - Encoding helpers are exact inverses and match the reference layout.
   Statements, each with the last step of its proof; the lemmas are in
   Proofs/EncodingP.v and Proofs/BoolsP.v. *)
From Modbus Require Import Base.Bytes Model.Encoding Spec.ModbusSpec Proofs.EncodingP Proofs.BoolsP.

(* T1: decode (encode v) = v, for all values, both byte orders, both word orders *)
Theorem c17_u16_roundtrip : forall e v, v < 65536 ->
  bytes_to_u16 e (u16_to_bytes e v) = Some v.
Proof. exact u16_roundtrip. Qed.
Theorem c17_u32_roundtrip : forall e w v, v < 2 ^ 32 ->
  bytes_to_u32s e w (u32_to_bytes e w v) = Some [v].
Proof. exact u32_roundtrip. Qed.
Theorem c17_u64_roundtrip : forall e w v, v < 2 ^ 64 ->
  bytes_to_u64s e w (u64_to_bytes e w v) = Some [v].
Proof. exact u64_roundtrip. Qed.

(* T2: encode (decode bytes) = bytes: the maps are bijections, every bit
   pattern (NaN payloads, signed zero: floats are their bit patterns) survives *)
Theorem c17_u16_inverse : forall e a b, a < 256 -> b < 256 ->
  exists v, bytes_to_u16 e [a; b] = Some v /\ v < 65536 /\ u16_to_bytes e v = [a; b].
Proof. exact u16_inverse. Qed.
Theorem c17_u32_inverse : forall e w a b c d, a < 256 -> b < 256 -> c < 256 -> d < 256 ->
  dec_u32 e w a b c d < 2 ^ 32 /\ u32_to_bytes e w (dec_u32 e w a b c d) = [a; b; c; d].
Proof. exact u32_inverse. Qed.
Theorem c17_u64_inverse : forall e w i0 i1 i2 i3 i4 i5 i6 i7,
  i0 < 256 -> i1 < 256 -> i2 < 256 -> i3 < 256 ->
  i4 < 256 -> i5 < 256 -> i6 < 256 -> i7 < 256 ->
  dec_u64 e w i0 i1 i2 i3 i4 i5 i6 i7 < 2 ^ 64 /\
  u64_to_bytes e w (dec_u64 e w i0 i1 i2 i3 i4 i5 i6 i7) = [i0; i1; i2; i3; i4; i5; i6; i7].
Proof. exact u64_inverse. Qed.

(* T3: the byte sequence is the documented layout (of any number: the bounds
   on v are not needed) *)
Theorem c17_u16_layout : forall e v, v < 65536 -> u16_to_bytes e v = spec_bytes 1 e HighFirst v.
Proof. exact u16_layout. Qed.
Theorem c17_u32_layout : forall e w v, v < 2 ^ 32 -> u32_to_bytes e w v = spec_bytes 2 e w v.
Proof. exact u32_layout. Qed.
Theorem c17_u64_layout : forall e w v, v < 2 ^ 64 -> u64_to_bytes e w v = spec_bytes 4 e w v.
Proof. exact u64_layout. Qed.

(* T4: list versions *)
Theorem c17_u16s_roundtrip : forall e vs, Forall (fun v => v < 65536) vs ->
  bytes_to_u16s e (u16s_to_bytes e vs) = Some vs.
Proof. exact u16s_roundtrip. Qed.
Theorem c17_u32s_roundtrip : forall e w vs, Forall (fun v => v < 2 ^ 32) vs ->
  bytes_to_u32s e w (flat_map (u32_to_bytes e w) vs) = Some vs.
Proof. exact u32s_roundtrip. Qed.
Theorem c17_u64s_roundtrip : forall e w vs, Forall (fun v => v < 2 ^ 64) vs ->
  bytes_to_u64s e w (flat_map (u64_to_bytes e w) vs) = Some vs.
Proof. exact u64s_roundtrip. Qed.

(* T5: coils: LSB first, zero padded, inverted exactly by unpacking, any length *)
Theorem c17_bools_layout : forall l, encode_bools l = spec_coil_bytes l.
Proof. exact encode_bools_spec. Qed.
Theorem c17_bools_len : forall l, length (encode_bools l) = ((length l + 7) / 8)%nat.
Proof. exact encode_bools_len. Qed.
Theorem c17_bools_roundtrip : forall l, decode_bools (length l) (encode_bools l) = Some l.
Proof. exact decode_encode_bools. Qed.
Theorem c17_bools_prefix : forall l q, (q <= length l)%nat ->
  decode_bools q (encode_bools l) = Some (firstn q l).
Proof. exact decode_encode_prefix. Qed.

(* T6: the 16-bit list decoder panics (None) exactly on ragged input. For 32
   and 64 bits only totality on whole values is proved
   (EncListsP.dec_list_total). *)
Theorem c17_u16s_total : forall e l, Nat.even (length l) = true ->
  exists vs, bytes_to_u16s e l = Some vs /\ length l = (2 * length vs)%nat.
Proof. exact bytes_to_u16s_total. Qed.
Theorem c17_u16s_ragged : forall e l, Nat.even (length l) = false -> bytes_to_u16s e l = None.
Proof. exact bytes_to_u16s_ragged. Qed.

(* non-vacuity: concrete instances *)
Example c17_ex_u32 : u32_to_bytes LittleE HighFirst 0x11223344 = [0x22; 0x11; 0x44; 0x33].
Proof. reflexivity. Qed.
Example c17_ex_bools : encode_bools [true; false; true; true; false; false; false; false; true] = [13; 1].
Proof. reflexivity. Qed.

Print Assumptions c17_u16_roundtrip.
Print Assumptions c17_u32_roundtrip.
Print Assumptions c17_u64_roundtrip.
Print Assumptions c17_u16_inverse.
Print Assumptions c17_u32_inverse.
Print Assumptions c17_u64_inverse.
Print Assumptions c17_u16_layout.
Print Assumptions c17_u32_layout.
Print Assumptions c17_u64_layout.
Print Assumptions c17_u16s_roundtrip.
Print Assumptions c17_u32s_roundtrip.
Print Assumptions c17_u64s_roundtrip.
Print Assumptions c17_bools_layout.
Print Assumptions c17_bools_len.
Print Assumptions c17_bools_roundtrip.
Print Assumptions c17_bools_prefix.
Print Assumptions c17_u16s_total.
Print Assumptions c17_u16s_ragged.
